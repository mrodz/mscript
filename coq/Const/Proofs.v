(* C10 -- the per-form checks of the (fixed) compiler imply: no write form, at any nesting depth,
   targets a name that resolves to a const binding. *)
From MS Require Import Const.Model Const.Spec.

Local Notation chkE := (check_expr cfg_fixed).
Local Notation chkS := (check_stmt cfg_fixed).
Local Notation chkB := (check_block cfg_fixed).

Lemma andb3 : forall a b c, a && b && c = true -> a = true /\ b = true /\ c = true.
Proof. intros a b c H. apply andb_true_iff in H as [H Hc]. apply andb_true_iff in H as [Ha Hb]. auto. Qed.

Lemma Forall_app3 : forall {A} (P : A -> Prop) l1 l2 l3,
  Forall P l1 -> Forall P l2 -> Forall P l3 -> Forall P (l1 ++ l2 ++ l3).
Proof. intros. apply Forall_app; split; [assumption|]. apply Forall_app; split; assumption. Qed.

Lemma if_Some : forall {A} (b : bool) (o : option A) x, (if b then o else None) = Some x -> b = true /\ o = Some x.
Proof. intros A [] o x H; [auto|discriminate]. Qed.

Lemma ifn_Some : forall {A} (b : bool) (o : option A) x, (if b then None else o) = Some x -> b = false /\ o = Some x.
Proof. intros A [] o x H; [discriminate|auto]. Qed.

Lemma seq_Some : forall {A B} (o : option A) (r : option B) x,
  match o with None => None | Some _ => r end = Some x -> (exists y, o = Some y) /\ r = Some x.
Proof. intros A B [y|] r x H; [eauto|discriminate]. Qed.

Lemma is_some_true : forall {A} (o : option A), is_some o = true -> exists y, o = Some y.
Proof. intros A [y|] H; [eauto|discriminate]. Qed.

Lemma is_some_false : forall {A} (o : option A), is_some o = false -> o = None.
Proof. intros A [a|]; [discriminate|reflexivity]. Qed.

(* Parser::assignment: whatever else it checks, a const `did_exist_before` is fatal *)
Lemma assign_checks_not_const : forall g did c m x ss',
  assign_checks g did c m x ss' = true -> is_const did = false.
Proof.
  intros g did c m x ss' H. unfold assign_checks in H.
  destruct (is_const did); [discriminate|reflexivity].
Qed.

(* `modify`: with the is_callback requirement, the declaration that was checked is the captured one *)
Lemma lookup_cb_true : forall r x k cb, lookup_decl_cb r x 0 true = Some (k, cb) -> lookup_decl r x = Some k.
Proof.
  induction r as [|s r IH]; intros x k cb H; cbn in H; [discriminate|].
  cbn [lookup_decl]. destruct (contains_decl (vars s) x) as [c|].
  - injection H as <- _. reflexivity.
  - apply (IH x k cb). exact H.
Qed.

Lemma lookup_cb_outer : forall r x k, lookup_decl_cb r x 0 false = Some (k, true) -> lookup_outer r x = Some k.
Proof.
  induction r as [|s r IH]; intros x k H; cbn in H; [discriminate|].
  destruct (contains_decl (vars s) x) as [c|]; [discriminate|].
  cbn [lookup_outer]. destruct (is_function s).
  - eapply lookup_cb_true. exact H.
  - apply IH. exact H.
Qed.

Lemma assign_checks_modify_outer : forall did c x ss,
  assign_checks cfg_fixed did c true x (add_mod ss x) = true -> is_const (lookup_outer ss x) = false.
Proof.
  intros did c x ss H. unfold assign_checks in H.
  destruct (is_const did); [discriminate|].
  destruct ss as [|s r]; [cbn in H; discriminate|].
  cbn [mod_through cfg_fixed add_mod lookup_decl_cb orb] in H.
  change (is_function (mkS (kind s) (mkBind x false true :: vars s))) with (is_function s) in H.
  destruct (lookup_decl_cb r x 0 (is_function s)) as [[k cb]|] eqn:E; [|discriminate].
  cbn [chk_modify_cb cfg_fixed andb] in H.
  destruct cb; cbn [negb] in H; [|discriminate].
  rewrite orb_true_r in H. cbn [andb] in H.
  destruct k; cbn [negb] in H; [discriminate|].
  cbn [lookup_outer]. destruct (is_function s).
  - rewrite (lookup_cb_true _ _ _ _ E). reflexivity.
  - rewrite (lookup_cb_outer _ _ _ E). reflexivity.
Qed.

Lemma first_collision_none : forall ss xs,
  first_collision ss xs = None -> forall x, In x xs -> mapped_in_function ss x = None.
Proof.
  induction xs as [|y r IH]; intros H x Hin; [contradiction|].
  cbn [first_collision] in H. destruct (mapped_in_function ss y) eqn:Hy; [discriminate|].
  destruct Hin as [->|Hin]; [assumption|]. apply IH; assumption.
Qed.

Lemma root_target_ok : forall ss l, root_const ss l = false -> Forall ok_write (root_target ss l).
Proof.
  intros ss l H. unfold root_target, root_const in *. destruct (root l) as [x|]; [|constructor].
  constructor; [exact H|constructor].
Qed.

Lemma unpack_targets_ok : forall ss xs,
  (forall x, In x xs -> is_const (mapped_in_function ss x) = false) ->
  Forall ok_write (map (fun x => (ss, TFun x)) xs).
Proof.
  intros ss xs H. apply Forall_forall. intros w Hw. apply in_map_iff in Hw as [x [<- Hx]].
  exact (H x Hx).
Qed.

(* unfolding equations (the three functions are one mutual fixpoint: `cbn` would expose the raw `fix`) *)
Section Unfold.
Variable g : cfg.
Lemma ce_bin : forall ss a b, check_expr g ss (EBin a b) = check_expr g ss a && check_expr g ss b.
Proof. reflexivity. Qed.
Lemma ce_index : forall ss a i, check_expr g ss (EIndex a i) = check_expr g ss a && check_expr g ss i.
Proof. reflexivity. Qed.
Lemma ce_field : forall ss a, check_expr g ss (EField a) = check_expr g ss a.
Proof. reflexivity. Qed.
Lemma ce_call : forall ss f a, check_expr g ss (ECall f a) = check_expr g ss f && check_expr g ss a.
Proof. reflexivity. Qed.
Lemma ce_opassign : forall ss l r, check_expr g ss (EOpAssign l r) =
  check_expr g ss l && check_expr g ss r &&
  match l with
  | EVar x => negb (is_const (lookup_all ss x))
  | EIndex _ _ | EField _ => negb (chk_pathop g && root_const ss l)
  | _ => false
  end.
Proof. reflexivity. Qed.
Lemma ce_unwrap : forall ss l r, check_expr g ss (EUnwrap l r) =
  check_expr g ss l && check_expr g ss r &&
  match l with
  | EVar x => negb (chk_unwrap g && is_const (lookup_all ss x))
  | _ => false
  end.
Proof. reflexivity. Qed.
Lemma ce_fn : forall ss ps b, check_expr g ss (EFn ps b) =
  is_some (check_block g (add_all (push KFunction ss) ps false) b).
Proof. reflexivity. Qed.
Lemma cs_assign : forall ss c m x rhs, check_stmt g ss (SAssign c m x rhs) =
  if c && m then None else
  if check_expr g ss rhs then
    if assign_checks g (if m then lookup_all ss x else mapped_in_function ss x) c m x (if m then add_mod ss x else add ss x c)
    then Some (if m then add_mod ss x else add ss x c) else None
  else None.
Proof. reflexivity. Qed.
Lemma cs_unpack : forall ss c xs rhs, check_stmt g ss (SUnpack c xs rhs) =
  if check_expr g ss rhs then
    match xs with
    | [x] => if assign_checks g (first_collision ss xs) c false x (add_all ss xs c) then Some (add_all ss xs c) else None
    | _ => if is_some (first_collision ss xs) then None else Some (add_all ss xs c)
    end
  else None.
Proof. reflexivity. Qed.
Lemma cs_reassign : forall ss l rhs, check_stmt g ss (SReassign l rhs) =
  if check_expr g ss l && negb (root_const ss l) && check_expr g ss rhs then Some ss else None.
Proof. reflexivity. Qed.
Lemma cs_expr : forall ss e, check_stmt g ss (SExpr e) = if check_expr g ss e then Some ss else None.
Proof. reflexivity. Qed.
Lemma cs_if : forall ss c t e, check_stmt g ss (SIf c t e) =
  if check_expr g (push KBlock ss) c then
    match check_block g (push KBlock ss) t with
    | None => None
    | Some _ => match check_block g (push KBlock ss) e with None => None | Some _ => Some ss end
    end
  else None.
Proof. reflexivity. Qed.
Lemma cs_while : forall ss c b, check_stmt g ss (SWhile c b) =
  if check_expr g (push KBlock ss) c then
    match check_block g (push KBlock ss) b with None => None | Some _ => Some ss end
  else None.
Proof. reflexivity. Qed.
Lemma cs_from : forall ss lo hi cn b, check_stmt g ss (SFrom lo hi cn b) =
  if check_expr g (push KBlock ss) lo && check_expr g (push KBlock ss) hi then
    match check_block g (match cn with Some x => add (push KBlock ss) x false | None => push KBlock ss end) b with
    | None => None
    | Some _ => match cn with
                | None => Some ss
                | Some x => if chk_counter g && is_const (mapped_in_function ss x) then None else Some ss
                end
    end
  else None.
Proof. reflexivity. Qed.
Lemma cs_class : forall ss x members methods, check_stmt g ss (SClass x members methods) =
  if is_some (lookup_local ss x) then None else
  match check_block g (add (add_all (push KClass ss) members false) x true) methods with
  | None => None
  | Some _ => Some (add ss x true)
  end.
Proof. reflexivity. Qed.
Lemma cs_import_names : forall ss x r, check_stmt g ss (SImportNames (x :: r)) =
  if is_some (lookup_all ss x) then None else check_stmt g (add ss x false) (SImportNames r).
Proof. reflexivity. Qed.
Lemma cb_cons : forall ss s r, check_block g ss (BCons s r) =
  match check_stmt g ss s with None => None | Some ss' => check_block g ss' r end.
Proof. reflexivity. Qed.
End Unfold.

Lemma ws_assign : forall ss c m x rhs, writes_stmt ss (SAssign c m x rhs) =
  writes_expr ss rhs ++ (if m then [(ss, TLex x); (ss, TCap x)] else [(ss, TFun x)]).
Proof. reflexivity. Qed.
Lemma ws_unpack : forall ss c xs rhs, writes_stmt ss (SUnpack c xs rhs) =
  writes_expr ss rhs ++ map (fun x => (ss, TFun x)) xs.
Proof. reflexivity. Qed.
Lemma ws_reassign : forall ss l rhs, writes_stmt ss (SReassign l rhs) =
  writes_expr ss l ++ writes_expr ss rhs ++ root_target ss l.
Proof. reflexivity. Qed.
Lemma ws_expr : forall ss e, writes_stmt ss (SExpr e) = writes_expr ss e.
Proof. reflexivity. Qed.
Lemma ws_if : forall ss c t e, writes_stmt ss (SIf c t e) =
  writes_expr (push KBlock ss) c ++ writes_block (push KBlock ss) t ++ writes_block (push KBlock ss) e.
Proof. reflexivity. Qed.
Lemma ws_while : forall ss c b, writes_stmt ss (SWhile c b) =
  writes_expr (push KBlock ss) c ++ writes_block (push KBlock ss) b.
Proof. reflexivity. Qed.
Lemma ws_from : forall ss lo hi cn b, writes_stmt ss (SFrom lo hi cn b) =
  writes_expr (push KBlock ss) lo ++ writes_expr (push KBlock ss) hi ++
  writes_block (match cn with Some x => add (push KBlock ss) x false | None => push KBlock ss end) b ++
  (match cn with Some x => [(ss, TFun x)] | None => [] end).
Proof. reflexivity. Qed.
Lemma ws_class : forall ss x members methods, writes_stmt ss (SClass x members methods) =
  writes_block (add (add_all (push KClass ss) members false) x true) methods.
Proof. reflexivity. Qed.
Lemma wb_cons : forall ss s r, writes_block ss (BCons s r) = writes_stmt ss s ++ writes_block (effect ss s) r.
Proof. reflexivity. Qed.
Lemma we_bin : forall ss a b, writes_expr ss (EBin a b) = writes_expr ss a ++ writes_expr ss b.
Proof. reflexivity. Qed.
Lemma we_index : forall ss a b, writes_expr ss (EIndex a b) = writes_expr ss a ++ writes_expr ss b.
Proof. reflexivity. Qed.
Lemma we_field : forall ss a, writes_expr ss (EField a) = writes_expr ss a.
Proof. reflexivity. Qed.
Lemma we_call : forall ss a b, writes_expr ss (ECall a b) = writes_expr ss a ++ writes_expr ss b.
Proof. reflexivity. Qed.
Lemma we_opassign : forall ss l r, writes_expr ss (EOpAssign l r) =
  writes_expr ss l ++ writes_expr ss r ++ root_target ss l.
Proof. reflexivity. Qed.
Lemma we_unwrap : forall ss l r, writes_expr ss (EUnwrap l r) =
  writes_expr ss l ++ writes_expr ss r ++ root_target ss l.
Proof. reflexivity. Qed.
Lemma we_fn : forall ss ps b, writes_expr ss (EFn ps b) = writes_block (add_all (push KFunction ss) ps false) b.
Proof. reflexivity. Qed.

Lemma opassign_root_ok : forall ss l r, chkE ss (EOpAssign l r) = true -> root_const ss l = false.
Proof.
  intros ss l r H. rewrite ce_opassign in H. apply andb3 in H as [_ [_ H]]. destruct l; try discriminate.
  - unfold root_const. cbn [root]. apply negb_true_iff in H. exact H.
  - cbn [chk_pathop cfg_fixed andb] in H. apply negb_true_iff in H. exact H.
  - cbn [chk_pathop cfg_fixed andb] in H. apply negb_true_iff in H. exact H.
Qed.

Lemma unwrap_root_ok : forall ss l r, chkE ss (EUnwrap l r) = true -> root_const ss l = false.
Proof.
  intros ss l r H. rewrite ce_unwrap in H. apply andb3 in H as [_ [_ H]]. destruct l; try discriminate.
  unfold root_const. cbn [root]. cbn [chk_unwrap cfg_fixed andb] in H. apply negb_true_iff in H. exact H.
Qed.

Lemma import_names_effect : forall g xs ss ss',
  check_stmt g ss (SImportNames xs) = Some ss' -> ss' = add_all ss xs false.
Proof.
  induction xs as [|x r IH]; intros ss ss' H.
  - injection H as <-. reflexivity.
  - rewrite cs_import_names in H. apply ifn_Some in H as [_ H]. exact (IH _ _ H).
Qed.

Theorem check_sound_mut :
  (forall e ss, chkE ss e = true -> Forall ok_write (writes_expr ss e)) /\
  (forall s ss ss', chkS ss s = Some ss' -> ss' = effect ss s /\ Forall ok_write (writes_stmt ss s)) /\
  (forall b ss ss', chkB ss b = Some ss' -> Forall ok_write (writes_block ss b)).
Proof.
  apply syntax_mutind.
  - (* ELit *) intros ss _. constructor.
  - (* EVar *) intros x ss _. constructor.
  - (* ESelf *) intros ss _. constructor.
  - intros a IHa b IHb ss H. rewrite ce_bin in H. apply andb_true_iff in H as [Ha Hb].
    rewrite we_bin. apply Forall_app; split; auto.
  - intros a IHa i IHi ss H. rewrite ce_index in H. apply andb_true_iff in H as [Ha Hi].
    rewrite we_index. apply Forall_app; split; auto.
  - intros a IHa ss H. rewrite ce_field in H. rewrite we_field. auto.
  - intros f IHf a IHa ss H. rewrite ce_call in H. apply andb_true_iff in H as [Hf Ha].
    rewrite we_call. apply Forall_app; split; auto.
  - intros l IHl r IHr ss H. pose proof (opassign_root_ok _ _ _ H) as Hc.
    rewrite ce_opassign in H. apply andb3 in H as [Hl [Hr _]].
    rewrite we_opassign. apply Forall_app3; auto. apply root_target_ok. exact Hc.
  - intros l IHl r IHr ss H. pose proof (unwrap_root_ok _ _ _ H) as Hc.
    rewrite ce_unwrap in H. apply andb3 in H as [Hl [Hr _]].
    rewrite we_unwrap. apply Forall_app3; auto. apply root_target_ok. exact Hc.
  - intros ps b IHb ss H. rewrite ce_fn in H. apply is_some_true in H as [ss' Hb].
    rewrite we_fn. exact (IHb _ _ Hb).
  - intros c m x rhs IHrhs ss ss' H. rewrite cs_assign in H.
    apply ifn_Some in H as [_ H]. apply if_Some in H as [Hr H]. apply if_Some in H as [Ha H]. injection H as <-.
    split; [reflexivity|]. rewrite ws_assign. apply Forall_app; split; [auto|].
    destruct m.
    + pose proof (assign_checks_modify_outer _ _ _ _ Ha) as Ho. apply assign_checks_not_const in Ha.
      constructor; [exact Ha|]. constructor; [exact Ho|constructor].
    + apply assign_checks_not_const in Ha. constructor; [exact Ha|constructor].
  - intros c xs rhs IHrhs ss ss' H. rewrite cs_unpack in H. apply if_Some in H as [Hr H].
    rewrite ws_unpack. cbn [effect].
    assert (Hgoal : ss' = add_all ss xs c /\
                    (forall x, In x xs -> is_const (mapped_in_function ss x) = false)).
    { destruct xs as [|x [|y r]].
      - apply ifn_Some in H as [_ H]. injection H as <-. split; [reflexivity|]. intros x [].
      - apply if_Some in H as [Ha H]. injection H as <-. split; [reflexivity|]. intros z [<-|[]].
        apply assign_checks_not_const in Ha. cbn [first_collision] in Ha.
        destruct (mapped_in_function ss x) as [k|]; [exact Ha|reflexivity].
      - apply ifn_Some in H as [Hc H]. injection H as <-. split; [reflexivity|]. intros z Hz.
        apply is_some_false in Hc. rewrite (first_collision_none _ _ Hc z Hz). reflexivity. }
    destruct Hgoal as [-> Hall]. split; [reflexivity|].
    apply Forall_app; split; [auto|]. apply unpack_targets_ok. exact Hall.
  - intros l IHl rhs IHrhs ss ss' H. rewrite cs_reassign in H.
    apply if_Some in H as [Hc H]. injection H as <-. split; [reflexivity|]. apply andb3 in Hc as [Hl [Hn Hr]].
    rewrite ws_reassign. apply Forall_app3; auto. apply root_target_ok. apply negb_true_iff in Hn. exact Hn.
  - intros e IHe ss ss' H. rewrite cs_expr in H. apply if_Some in H as [He H]. injection H as <-.
    split; [reflexivity|]. rewrite ws_expr. auto.
  - intros c IHc t IHt e IHe ss ss' H. rewrite cs_if in H.
    apply if_Some in H as [Hc H]. apply seq_Some in H as [[s1 Ht] H]. apply seq_Some in H as [[s2 He] H].
    injection H as <-. split; [reflexivity|]. rewrite ws_if. apply Forall_app3; eauto.
  - intros c IHc b IHb ss ss' H. rewrite cs_while in H.
    apply if_Some in H as [Hc H]. apply seq_Some in H as [[s1 Hb] H]. injection H as <-.
    split; [reflexivity|]. rewrite ws_while. apply Forall_app; split; eauto.
  - intros lo IHlo hi IHhi cn b IHb ss ss' H. rewrite cs_from in H.
    apply if_Some in H as [Hlh H]. apply andb_true_iff in Hlh as [Hlo Hhi]. apply seq_Some in H as [[s1 Hb] H].
    assert (Hcn : ss' = ss /\ Forall ok_write (match cn with Some x => [(ss, TFun x)] | None => [] end)).
    { destruct cn as [x|].
      - apply ifn_Some in H as [Hk H]. injection H as <-. split; [reflexivity|]. constructor; [exact Hk|constructor].
      - injection H as <-. split; [reflexivity|constructor]. }
    destruct Hcn as [-> Hcn]. split; [reflexivity|]. rewrite ws_from.
    apply Forall_app; split; [auto|]. apply Forall_app3; eauto.
  - intros x members methods IHm ss ss' H. rewrite cs_class in H.
    apply ifn_Some in H as [_ H]. apply seq_Some in H as [[s1 Hm] H]. injection H as <-.
    split; [reflexivity|]. rewrite ws_class. eauto.
  - (* SImport *) intros m ss ss'. cbn [check_stmt].
    destruct (is_some (lookup_all ss m)); [discriminate|]. intro H. inversion H; subst ss'.
    split; [reflexivity|constructor].
  - intros xs ss ss' H. split; [exact (import_names_effect _ _ _ _ H)|constructor].
  - (* BNil *) intros ss ss' _. constructor.
  - intros s IHs r IHr ss ss'. rewrite cb_cons.
    destruct (check_stmt cfg_fixed ss s) as [s1|] eqn:Hs; [|discriminate]. intro H.
    destruct (IHs _ _ Hs) as [-> Hw]. rewrite wb_cons. apply Forall_app; split; [exact Hw|eauto].
Qed.

(* C10, syntactic half: an accepted program contains no write form -- `=`, typed `=`, re-declaration,
   `modify`, op-assign, `?=`, index/field (op-)assignment, loop counter, unpacking -- in any scope, at
   any nesting depth, whose target resolves to a `const` variable, a class name or an imported module. *)
Theorem const_never_written : forall p : block,
  check cfg_fixed p = true -> NoConstWrite p.
Proof.
  intros p H. apply is_some_true in H as [ss' Hb]. exact (proj2 (proj2 check_sound_mut) p _ _ Hb).
Qed.

Corollary const_never_written_b : forall p : block,
  check cfg_fixed p = true -> no_const_write_b p = true.
Proof.
  intros p H. apply const_never_written in H. unfold NoConstWrite in H. unfold no_const_write_b.
  apply forallb_forall. intros w Hw. rewrite Forall_forall in H. apply negb_true_iff. exact (H w Hw).
Qed.

(* each added check is necessary: on the tree before fixes/const-*.diff (cfg_head) these programs are accepted
   and write a const *)

Definition a : name := 1%N.
Definition b : name := 2%N.

(* const a: int? = nil; b: int? = 5; if a ?= b {} *)
Definition wit_unwrap : block :=
  BCons (SAssign true false a ELit) (BCons (SAssign false false b ELit)
  (BCons (SIf (EUnwrap (EVar a) (EVar b)) BNil BNil) BNil)).

(* const a = 5; from 0 to 3, a {} *)
Definition wit_counter : block :=
  BCons (SAssign true false a ELit) (BCons (SFrom ELit ELit (Some a) BNil) BNil).

(* const a = [1, 2, 3]; a[0] += 9 *)
Definition wit_index_op : block :=
  BCons (SAssign true false a ELit) (BCons (SExpr (EOpAssign (EIndex (EVar a) ELit) ELit)) BNil).

(* const a = P(1); a.x += 5 *)
Definition wit_field_op : block :=
  BCons (SAssign true false a ELit) (BCons (SExpr (EOpAssign (EField (EVar a)) ELit)) BNil).

Lemma head_refuted :
  forall p, In p [wit_unwrap; wit_counter; wit_index_op; wit_field_op] ->
  check cfg_head p = true /\ no_const_write_b p = false /\ check cfg_fixed p = false.
Proof.
  intros p Hp. cbn [In] in Hp.
  destruct Hp as [<-|[<-|[<-|[<-|[]]]]]; vm_compute; auto.
Qed.

(* `modify` through a shadowing local: on the tree before fixes/const-modify-through-shadow.diff
   (cfg_pre_modify: the three earlier fixes are in) this program is accepted although its `modify` writes the
   CAPTURED variable x, which is const:
     f = fn() { const x = 5
                g = fn() { x            # read: g captures f's x
                           x = 1        # a new local of g shadows it
                           if true { modify x = 7 } } }   # checked against g's local, stored to f's const *)
Definition xx : name := 3%N.
Definition ff : name := 4%N.
Definition gg : name := 5%N.
Definition wit_modify_shadow : block :=
  BCons (SAssign false false ff (EFn []
    (BCons (SAssign true false xx ELit)
    (BCons (SAssign false false gg (EFn []
       (BCons (SExpr (EVar xx))
       (BCons (SAssign false false xx ELit)
       (BCons (SIf ELit (BCons (SAssign false true xx ELit) BNil) BNil) BNil))))) BNil)))) BNil.

Lemma modify_shadow_refuted :
  check cfg_pre_modify wit_modify_shadow = true /\ no_const_write_b wit_modify_shadow = false /\
  check cfg_fixed wit_modify_shadow = false.
Proof. vm_compute. auto. Qed.

(* two `modify` of one captured variable: /repo 745d438 (cfg_745) looked the target up among ALL scope entries,
   found the entry the first `modify` had registered in the function's own scope and refused the second one --
   a valid program:
     x = 1;  f = fn() { modify x = 5; x; if c { modify x = 6 } } *)
Definition wit_two_modifies : block :=
  BCons (SAssign false false xx ELit)
 (BCons (SAssign false false ff (EFn []
    (BCons (SAssign false true xx ELit)
    (BCons (SExpr (EVar xx))
    (BCons (SIf ELit (BCons (SAssign false true xx ELit) BNil) BNil) BNil))))) BNil).

Lemma two_modifies_accepted :
  check cfg_fixed wit_two_modifies = true /\ no_const_write_b wit_two_modifies = true /\
  check cfg_745 wit_two_modifies = false /\
  check cfg_fixed wit_modify_shadow = false /\ check cfg_745 wit_modify_shadow = false.
Proof. vm_compute. auto. Qed.
