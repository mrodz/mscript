(* C10 -- const_value_stable on the evaluation model of Const/Eval.v: in every execution of an accepted
   (closure-free) program, every read of a binding created by a `const` declaration returns the value the
   binding was created with. *)
From MS Require Import Const.Model Const.Spec Const.Proofs Const.Eval.

Definition every (P : rbind -> Prop) (st : stack) : Prop := forall f r, In f st -> In r (fvars f) -> P r.

Lemma every_tl : forall P st, every P st -> every P (tl st).
Proof. intros P st H f r Hf. apply H. destruct st; [exact Hf|right; exact Hf]. Qed.

Lemma every_push : forall P st, every P st -> every P (push_frame st).
Proof. intros P st H g r [<-|Hg] Hr; [destruct Hr|exact (H g r Hg Hr)]. Qed.

Lemma every_insert : forall (P : rbind -> Prop) f st r,
  P r -> every P (f :: st) -> every P (mkF (special f) (r :: fvars f) :: st).
Proof.
  intros P f st r Hr H g r' [<-|Hg] Hr'; [|exact (H g r' (or_intror Hg) Hr')].
  destruct Hr' as [<-|Hr']; [exact Hr|exact (H f r' (or_introl eq_refl) Hr')].
Qed.

Lemma fr_del_In : forall vs x r, In r (fr_del vs x) -> In r vs.
Proof.
  induction vs as [|a t IH]; intros x r H; cbn in H; [contradiction|].
  destruct (N.eqb (rname a) x); [right; exact H|]. destruct H as [<-|H]; [left; reflexivity|right; eauto].
Qed.

Lemma every_del : forall P f st x, every P (f :: st) -> every P (mkF (special f) (fr_del (fvars f) x) :: st).
Proof.
  intros P f st x H g r [<-|Hg] Hr; [|exact (H g r (or_intror Hg) Hr)].
  exact (H f r (or_introl eq_refl) (fr_del_In _ _ _ Hr)).
Qed.

Definition known (ss : scopes) (r : rbind) : Prop := rconst r = true -> lookup_all ss (rname r) = Some true.

(* `known` at every level: static scopes and run-time frames are pushed and popped together *)
Fixpoint InvS (ss : scopes) (st : stack) : Prop :=
  match ss, st with
  | s :: ss', f :: st' => every (known (s :: ss')) (f :: st') /\ InvS ss' st'
  | [], [] => True
  | _, _ => False
  end.

(* the static scopes of a closure-free run: no function scope, no entry of a `modify` statement *)
Definition plain (ss : scopes) : Prop :=
  Forall (fun s => is_function s = false /\ Forall (fun b => bmod b = false) (vars s)) ss.

Definition inv (ss : scopes) (st : stack) : Prop := plain ss /\ InvS ss st /\ every read_ok st.

Lemma InvS_known : forall ss st, InvS ss st -> every (known ss) st.
Proof. intros [|s ss] [|f st] H; cbn in H; try contradiction; [intros f r []|exact (proj1 H)]. Qed.

Lemma inv_tl : forall ss st, inv ss st -> inv (tl ss) (tl st).
Proof.
  intros ss st [Hp [HI HC]]. split; [destruct Hp; [constructor|assumption]|]. split; [|apply every_tl; exact HC].
  destruct ss, st; cbn in HI; try contradiction; [exact I|exact (proj2 HI)].
Qed.

Lemma lookup_all_push_block : forall ss x, lookup_all (push KBlock ss) x = lookup_all ss x.
Proof. reflexivity. Qed.

Lemma lookup_all_add : forall s ss x c y,
  lookup_all (add (s :: ss) x c) y = if N.eqb x y then Some c else lookup_all (s :: ss) y.
Proof. intros. unfold lookup_all. cbn. destruct (N.eqb x y); reflexivity. Qed.

(* since /repo 2f6e39c has_name_been_mapped_in_function passes over the entries of `modify` statements, so it
   differs from the lexical lookup where such an entry shadows a declaration or a function scope lies between;
   plain scopes have neither *)
Lemma contains_decl_plain : forall vs x, Forall (fun b => bmod b = false) vs -> contains_decl vs x = contains vs x.
Proof.
  intros vs x H. induction H as [|b r Hb _ IH]; [reflexivity|]. cbn [contains contains_decl]. rewrite Hb, IH. reflexivity.
Qed.

Lemma mapped_plain : forall ss x, plain ss -> mapped_in_function ss x = lookup_all ss x.
Proof.
  intros ss x H. unfold lookup_all. induction H as [|s ss [Hf Hm] _ IH]; [reflexivity|].
  cbn [mapped_in_function lookup_skip]. rewrite (contains_decl_plain _ x Hm), Hf, IH. reflexivity.
Qed.

Lemma plain_add : forall ss x c, plain ss -> plain (add ss x c).
Proof.
  intros ss x c [|s r [Hf Hm] Hr]; constructor; [|exact Hr]. split; [exact Hf|constructor; [reflexivity|exact Hm]].
Qed.

Lemma tl_add : forall ss x c, tl (add ss x c) = tl ss.
Proof. intros [|s ss]; reflexivity. Qed.

Definition bsim (x : name) (r r' : rbind) : Prop :=
  rname r' = rname r /\ rconst r' = rconst r /\ rinit r' = rinit r /\ (rval r' = rval r \/ rname r = x).
Definition fsim (x : name) (f f' : frame) : Prop := Forall2 (bsim x) (fvars f) (fvars f').
Definition ssim (x : name) (st st' : stack) : Prop := Forall2 (fsim x) st st'.

Lemma Forall2_same : forall {A} (R : A -> A -> Prop), (forall a, R a a) -> forall l, Forall2 R l l.
Proof. intros A R H. induction l; constructor; auto. Qed.

Lemma bsim_refl : forall x r, bsim x r r.
Proof. unfold bsim. auto. Qed.

Lemma fsim_refl : forall x f, fsim x f f.
Proof. intros x f. apply Forall2_same, bsim_refl. Qed.

Lemma ssim_refl : forall x st, ssim x st st.
Proof. intros x st. apply Forall2_same, fsim_refl. Qed.

Lemma fr_set_sim : forall x v vs, Forall2 (bsim x) vs (fr_set vs x v).
Proof.
  induction vs as [|r t IH]; cbn; [constructor|].
  destruct (N.eqb (rname r) x) eqn:E.
  - constructor; [|apply Forall2_same, bsim_refl]. unfold bsim. cbn. apply N.eqb_eq in E. auto.
  - constructor; [apply bsim_refl|exact IH].
Qed.

Lemma rt_set_sim : forall x v st st', rt_set st x v = Some st' -> ssim x st st'.
Proof.
  induction st as [|f r IH]; intros st' H; cbn in H; [discriminate|].
  destruct (fr_find (fvars f) x).
  - injection H as <-. constructor; [|apply ssim_refl]. unfold fsim. cbn. apply fr_set_sim.
  - destruct (special f); [|discriminate]. destruct (rt_set r x v) as [r'|] eqn:E; [|discriminate].
    injection H as <-. constructor; [apply fsim_refl|]. apply IH. reflexivity.
Qed.

Lemma Forall2_In_r : forall {A B} (R : A -> B -> Prop) l l' b,
  Forall2 R l l' -> In b l' -> exists a, In a l /\ R a b.
Proof.
  intros A B R l l' b H. induction H as [|a b' l l' Hab _ IH]; intros Hin; [contradiction|].
  destruct Hin as [<-|Hin].
  - exists a. split; [left; reflexivity|exact Hab].
  - destruct (IH Hin) as [a' [Ha' Hr]]. exists a'. split; [right; exact Ha'|exact Hr].
Qed.

Lemma ssim_In : forall x st st' f' r', ssim x st st' -> In f' st' -> In r' (fvars f') ->
  exists f r, In f st /\ In r (fvars f) /\ bsim x r r'.
Proof.
  intros x st st' f' r' H Hf Hr.
  destruct (Forall2_In_r _ _ _ _ H Hf) as [f [Hfin Hfs]].
  destruct (Forall2_In_r _ _ _ _ Hfs Hr) as [r [Hrin Hb]].
  exists f, r. auto.
Qed.

Lemma ssim_known : forall x ss st st', ssim x st st' -> every (known ss) st -> every (known ss) st'.
Proof.
  intros x ss st st' H HB f' r' Hf Hr Hc.
  destruct (ssim_In _ _ _ _ _ H Hf Hr) as [f [r [Hfin [Hrin [Hn [Hk _]]]]]].
  rewrite Hn. apply (HB f r Hfin Hrin). congruence.
Qed.

Lemma ssim_InvS : forall x st st', ssim x st st' -> forall ss, InvS ss st -> InvS ss st'.
Proof.
  intros x st st' H. induction H as [|f f' st st' Hf Hs IH]; intros ss HI; [exact HI|].
  destruct ss as [|s ss]; [destruct HI|]. destruct HI as [HB HI]. split; [|exact (IH ss HI)].
  exact (ssim_known x _ _ _ (Forall2_cons _ _ Hf Hs) HB).
Qed.

Lemma no_const_named : forall ss st x, every (known ss) st -> is_const (lookup_all ss x) = false ->
  every (fun r => rname r = x -> rconst r = false) st.
Proof.
  intros ss st x HB Hx f r Hf Hr Hn. destruct (rconst r) eqn:E; [|reflexivity].
  rewrite <- Hn, (HB f r Hf Hr E) in Hx. discriminate.
Qed.

Lemma ssim_inv : forall x ss st st', ssim x st st' -> is_const (lookup_all ss x) = false -> inv ss st -> inv ss st'.
Proof.
  intros x ss st st' H Hx [Hp [HI HC]]. split; [exact Hp|]. split; [exact (ssim_InvS x st st' H ss HI)|].
  intros f' r' Hf Hr Hc.
  destruct (ssim_In _ _ _ _ _ H Hf Hr) as [f [r [Hfin [Hrin [Hn [Hk [Hi Hv]]]]]]].
  assert (Hcr : rconst r = true) by congruence.
  destruct Hv as [Hv|Hv].
  - rewrite Hv, Hi. exact (HC f r Hfin Hrin Hcr).
  - rewrite (no_const_named ss st x (InvS_known ss st HI) Hx f r Hfin Hrin Hv) in Hcr. discriminate.
Qed.

Lemma rt_set_inv : forall ss st x v st', inv ss st -> is_const (lookup_all ss x) = false ->
  rt_set st x v = Some st' -> inv ss st'.
Proof. intros ss st x v st' HI Hx H. exact (ssim_inv x ss st st' (rt_set_sim x v st st' H) Hx HI). Qed.

Lemma fr_find_In : forall vs x r, fr_find vs x = Some r -> In r vs.
Proof.
  induction vs as [|a t IH]; intros x r H; cbn in H; [discriminate|].
  destruct (N.eqb (rname a) x); [injection H as <-; left; reflexivity|right; eauto].
Qed.

Lemma rt_find_In : forall st x r, rt_find st x = Some r -> exists f, In f st /\ In r (fvars f).
Proof.
  induction st as [|f t IH]; intros x r H; cbn in H; [discriminate|].
  destruct (fr_find (fvars f) x) as [b|] eqn:E.
  - injection H as <-. exists f. split; [left; reflexivity|eapply fr_find_In; eauto].
  - destruct (special f); [|discriminate]. destruct (IH _ _ H) as [g [Hg Hr]]. exists g. split; [right|]; auto.
Qed.

Lemma insert_inv : forall s ss f st x v c,
  inv (s :: ss) (f :: st) -> (c = true -> lookup_all (s :: ss) x = Some true) ->
  inv (s :: ss) (mkF (special f) (mkR x v c v :: fvars f) :: st).
Proof.
  intros s ss f st x v c [Hp [[HB HI] HC]] Hc. split; [exact Hp|]. split; [split; [|exact HI]|].
  - apply every_insert; [exact Hc|exact HB].
  - apply every_insert; [intros _; reflexivity|exact HC].
Qed.

Lemma reg_local_inv : forall ss st x v, inv ss st -> is_const (lookup_all ss x) = false ->
  inv ss (reg_local st x v false).
Proof.
  intros ss st x v HI Hx. destruct st as [|f st]; [exact HI|]. cbn [reg_local].
  destruct (fr_find (fvars f) x) eqn:E.
  - refine (ssim_inv x ss _ _ _ Hx HI). constructor; [apply fr_set_sim|apply ssim_refl].
  - destruct ss as [|s ss]; [destruct HI as [_ [[] _]]|]. apply insert_inv; [exact HI|discriminate].
Qed.

Lemma reg_var_same_inv : forall ss st x v, inv ss st -> is_const (lookup_all ss x) = false ->
  inv ss (reg_var st x v false).
Proof.
  intros ss st x v HI Hx. unfold reg_var. destruct (rt_set st x v) as [st'|] eqn:E.
  - exact (rt_set_inv _ _ _ _ _ HI Hx E).
  - apply reg_local_inv; assumption.
Qed.

Lemma add_inv : forall ss st x c, inv ss st -> is_const (lookup_all ss x) = false -> inv (add ss x c) st.
Proof.
  intros ss st x c [Hp [HI HC]] Hx. split; [apply plain_add; exact Hp|]. split; [|exact HC].
  destruct ss as [|s ss]; [exact HI|]. destruct st as [|f st]; [destruct HI|]. destruct HI as [HB HI].
  split; [|exact HI]. intros g r Hg Hr Hk. change (lookup_all (add (s :: ss) x c) (rname r) = Some true).
  rewrite lookup_all_add. destruct (N.eqb x (rname r)) eqn:E.
  - apply N.eqb_eq in E. rewrite (no_const_named _ _ x HB Hx g r Hg Hr (eq_sym E)) in Hk. discriminate.
  - exact (HB g r Hg Hr Hk).
Qed.

Lemma reg_var_inv : forall ss st x v c, inv ss st -> is_const (lookup_all ss x) = false ->
  inv (add ss x c) (reg_var st x v c).
Proof.
  intros ss st x v c HI Hx. unfold reg_var. destruct (rt_set st x v) as [st'|] eqn:E.
  - apply add_inv; [exact (rt_set_inv _ _ _ _ _ HI Hx E)|exact Hx].
  - pose proof (add_inv ss st x c HI Hx) as HA. destruct st as [|f st]; [exact HA|]. cbn [rt_set] in E. cbn [reg_local].
    destruct (fr_find (fvars f) x); [discriminate|]. destruct ss as [|s ss]; [destruct HI as [_ [[] _]]|].
    apply insert_inv; [exact HA|]. intros ->. change (lookup_all (add (s :: ss) x true) x = Some true).
    rewrite lookup_all_add, N.eqb_refl. reflexivity.
Qed.

Lemma del_local_inv : forall ss st x, inv ss st -> inv ss (del_local st x).
Proof.
  intros ss st x HI. destruct st as [|f st]; [exact HI|]. destruct ss as [|s ss]; [destruct HI as [_ [[] _]]|].
  destruct HI as [Hp [[HB HI] HC]]. split; [exact Hp|]. split; [split; [|exact HI]|]; apply every_del; assumption.
Qed.

Definition body_scopes (ss : scopes) (cn : option name) : scopes :=
  match cn with Some x => add (push KBlock ss) x false | None => push KBlock ss end.

Lemma push_inv : forall ss st cn, inv ss st -> (forall x, cn = Some x -> is_const (lookup_all ss x) = false) ->
  inv (body_scopes ss cn) (push_frame st).
Proof.
  intros ss st cn HI Hcn. assert (H0 : inv (push KBlock ss) (push_frame st)).
  { destruct HI as [Hp [HI HC]]. split; [constructor; [split; [reflexivity|constructor]|exact Hp]|].
    split; [|apply every_push; exact HC]. split; [|exact HI]. apply every_push. exact (InvS_known ss st HI). }
  destruct cn as [x|]; [|exact H0]. apply add_inv; [exact H0|exact (Hcn x eq_refl)].
Qed.

(* ss0 are the scopes the expression was checked in: those of the stack, or (a condition) these under the block scope
   its statement has pushed already *)
Theorem ev_inv : forall st e st1 l, ev st e st1 l ->
  forall ss0 ss, (forall x, lookup_all ss0 x = lookup_all ss x) -> inv ss st ->
  Forall ok_write (writes_expr ss0 e) -> inv ss st1 /\ Forall read_ok l.
Proof.
  induction 1; intros ss0 ss Heq HI HW.
  1,2: split; [exact HI|constructor].
  2,3,5: rewrite ?we_bin, ?we_index, ?we_call in HW; apply Forall_app in HW as [Ha Hb];
    destruct (IHev1 _ _ Heq HI Ha) as [HI1 L1]; destruct (IHev2 _ _ Heq HI1 Hb) as [HI2 L2];
    split; [exact HI2|apply Forall_app; split; assumption].
  (* a[i] op= r, a.f op= r *)
  4,5: rewrite we_opassign in HW; apply Forall_app in HW as [Hl HW]; apply Forall_app in HW as [Hr _];
    destruct (IHev1 _ _ Heq HI Hr) as [HI1 L1]; destruct (IHev2 _ _ Heq HI1 Hl) as [HI2 L2];
    split; [exact HI2|apply Forall_app; split; assumption].
  - split; [exact HI|]. constructor; [|constructor].
    destruct (rt_find_In _ _ _ H) as [f [Hf Hr]]. exact (proj2 (proj2 HI) f r Hf Hr).
  - rewrite we_field in HW. exact (IHev _ _ Heq HI HW).
  - rewrite we_opassign in HW. apply Forall_app in HW as [_ HW]. apply Forall_app in HW as [Hr Hc].
    apply Forall_inv in Hc. unfold ok_write in Hc. cbn [fst snd resolves_const] in Hc. rewrite Heq in Hc.
    destruct (IHev _ _ Heq HI Hr) as [HI1 L1]. split; [exact (rt_set_inv _ _ _ _ _ HI1 Hc H0)|exact L1].
  - rewrite we_unwrap in HW. apply Forall_app in HW as [_ HW]. apply Forall_app in HW as [Hr Hc].
    apply Forall_inv in Hc. unfold ok_write in Hc. cbn [fst snd resolves_const] in Hc. rewrite Heq in Hc.
    destruct (IHev _ _ Heq HI Hr) as [HI1 L1]. split; [exact (reg_var_same_inv _ _ x v HI1 Hc)|exact L1].
Qed.

Lemma cond_block_inv : forall ss st c st1 l1 (b : block) st2 l2,
  inv ss st -> ev st c st1 l1 -> Forall ok_write (writes_expr (push KBlock ss) c) ->
  (forall ss', inv ss' (push_frame st1) -> Forall ok_write (writes_block ss' b) ->
     inv (tl ss') (tl st2) /\ Forall read_ok l2) ->
  Forall ok_write (writes_block (push KBlock ss) b) ->
  inv ss (tl st2) /\ Forall read_ok (l1 ++ l2).
Proof.
  intros ss st c st1 l1 b st2 l2 HI H1 Hc IH Hb.
  destruct (ev_inv _ _ _ _ H1 (push KBlock ss) ss (lookup_all_push_block ss) HI Hc) as [HI1 L1].
  destruct (IH _ (push_inv ss st1 None HI1 ltac:(discriminate)) Hb) as [HI2 L2].
  split; [exact HI2|apply Forall_app; split; assumption].
Qed.

Theorem exec_inv :
  (forall st s st1 l, ex st s st1 l -> forall ss, inv ss st -> Forall ok_write (writes_stmt ss s) ->
     tl (effect ss s) = tl ss /\ inv (effect ss s) st1 /\ Forall read_ok l) /\
  (forall st b st1 l, exb st b st1 l -> forall ss, inv ss st -> Forall ok_write (writes_block ss b) ->
     inv (tl ss) (tl st1) /\ Forall read_ok l) /\
  (forall st cn b st3 l, iter st cn b st3 l -> forall ss, inv ss st ->
     Forall ok_write (writes_block (body_scopes ss cn) b) ->
     (forall x, cn = Some x -> is_const (lookup_all ss x) = false) ->
     inv ss st3 /\ Forall read_ok l).
Proof.
  apply exec_mutind.
  - intros st c x rhs st1 l v Hev ss HI HW. rewrite ws_assign in HW. apply Forall_app in HW as [Hr Hx].
    apply Forall_inv in Hx. unfold ok_write in Hx. cbn [fst snd resolves_const] in Hx. rewrite (mapped_plain _ x (proj1 HI)) in Hx.
    destruct (ev_inv _ _ _ _ Hev ss ss (fun _ => eq_refl) HI Hr) as [HI1 L1].
    split; [apply tl_add|]. split; [exact (reg_var_inv _ _ x v c HI1 Hx)|exact L1].
  - intros st p rhs st1 st2 l1 l2 H1 H2 ss HI HW. rewrite ws_reassign in HW.
    apply Forall_app in HW as [Hp HW]. apply Forall_app in HW as [Hr _].
    destruct (ev_inv _ _ _ _ H1 ss ss (fun _ => eq_refl) HI Hr) as [HI1 L1].
    destruct (ev_inv _ _ _ _ H2 ss ss (fun _ => eq_refl) HI1 Hp) as [HI2 L2].
    split; [reflexivity|]. split; [exact HI2|apply Forall_app; split; assumption].
  - intros st e st1 l H1 ss HI HW. rewrite ws_expr in HW. split; [reflexivity|].
    exact (ev_inv _ _ _ _ H1 ss ss (fun _ => eq_refl) HI HW).
  - (* if, then branch *)
    intros st c t e st1 st2 l1 l2 H1 H2 IH ss HI HW. rewrite ws_if in HW.
    apply Forall_app in HW as [Hc HW]. apply Forall_app in HW as [Ht _].
    split; [reflexivity|]. exact (cond_block_inv ss st c st1 l1 t st2 l2 HI H1 Hc IH Ht).
  - (* if, else branch *)
    intros st c t e st1 st2 l1 l2 H1 H2 IH ss HI HW. rewrite ws_if in HW.
    apply Forall_app in HW as [Hc HW]. apply Forall_app in HW as [_ He].
    split; [reflexivity|]. exact (cond_block_inv ss st c st1 l1 e st2 l2 HI H1 Hc IH He).
  - (* while: condition false *)
    intros st c b st1 l1 H1 ss HI HW. rewrite ws_while in HW. apply Forall_app in HW as [Hc _]. split; [reflexivity|].
    exact (ev_inv _ _ _ _ H1 (push KBlock ss) ss (lookup_all_push_block ss) HI Hc).
  - (* while: one more iteration *)
    intros st c b st1 st2 st3 l1 l2 l3 H1 H2 IHb H3 IHw ss HI HW.
    pose proof HW as HW0. rewrite ws_while in HW. apply Forall_app in HW as [Hc Hb].
    destruct (cond_block_inv ss st c st1 l1 b st2 l2 HI H1 Hc IHb Hb) as [HI2 L2].
    destruct (IHw ss HI2 HW0) as [_ [HI3 L3]].
    split; [reflexivity|]. split; [exact HI3|]. rewrite app_assoc. apply Forall_app; split; assumption.
  - intros st lo hi cn b st1 st1' st2 st3 st4 l1 l2 l3 H1 Hcn H2 H3 IHit Hdel ss HI HW. rewrite ws_from in HW.
    apply Forall_app in HW as [Hlo HW]. apply Forall_app in HW as [Hhi HW]. apply Forall_app in HW as [Hb Hc].
    assert (Hcx : forall x, cn = Some x -> is_const (lookup_all ss x) = false).
    { intros x ->. apply Forall_inv in Hc. rewrite <- (mapped_plain _ x (proj1 HI)). exact Hc. }
    destruct (ev_inv _ _ _ _ H1 (push KBlock ss) ss (lookup_all_push_block ss) HI Hlo) as [HI1 L1].
    assert (HI1' : inv ss st1').
    { destruct cn as [x|]; [|subst; exact HI1].
      destruct Hcn as [v [->| ->]]; [apply reg_local_inv|apply reg_var_same_inv]; auto. }
    destruct (ev_inv _ _ _ _ H2 (push KBlock ss) ss (lookup_all_push_block ss) HI1' Hhi) as [HI2 L2].
    destruct (IHit ss HI2 Hb Hcx) as [HI3 L3].
    assert (HI4 : inv ss st4).
    { destruct cn as [x|]; [|subst; exact HI3]. destruct Hdel as [->|[_ ->]]; [exact HI3|]. apply del_local_inv; exact HI3. }
    split; [reflexivity|]. split; [exact HI4|]. apply Forall_app; split; [exact L1|apply Forall_app; split; assumption].
  - (* empty block *)
    intros st ss HI _. split; [exact (inv_tl _ _ HI)|constructor].
  - (* early exit *)
    intros st s b ss HI _. split; [exact (inv_tl _ _ HI)|constructor].
  - intros st s b st1 st2 l1 l2 H1 IHs H2 IHb ss HI HW. rewrite wb_cons in HW. apply Forall_app in HW as [Hs Hb].
    destruct (IHs ss HI Hs) as [Ht [HI1 L1]]. destruct (IHb _ HI1 Hb) as [HI2 L2]. rewrite Ht in HI2.
    split; [exact HI2|apply Forall_app; split; assumption].
  - (* loop: stop *)
    intros st cn b ss HI _ _. split; [exact HI|constructor].
  - (* loop: one more iteration *)
    intros st cn b st1 st2 st3 l1 l3 H1 IHb Hbump H3 IHit ss HI Hb Hcx.
    destruct (IHb _ (push_inv ss st cn HI Hcx) Hb) as [HI1 L1].
    assert (Etl : tl (body_scopes ss cn) = ss) by (destruct cn; reflexivity). rewrite Etl in HI1.
    assert (HI2 : inv ss st2).
    { destruct cn as [x|]; cbn [bump] in Hbump; [|subst st2; exact HI1].
      destruct Hbump as [v Hv]. exact (rt_set_inv _ _ _ _ _ HI1 (Hcx x eq_refl) Hv). }
    destruct (IHit ss HI2 Hb Hcx) as [HI3 L3]. split; [exact HI3|apply Forall_app; split; assumption].
Qed.

(* a closure-free program none of whose write forms targets a const keeps the values of its const bindings,
   whichever way it got past the compiler *)
Theorem no_const_write_stable : forall p st l,
  NoConstWrite p -> exb module_frame p st l -> Forall read_ok l.
Proof.
  intros p st l HW He. refine (proj2 (proj1 (proj2 exec_inv) _ _ _ _ He file_scope _ HW)). split; [|split].
  - constructor; [split; [reflexivity|constructor]|constructor].
  - split; [|exact I]. intros f r [<-|[]] [].
  - intros f r [<-|[]] [].
Qed.

(* C10, semantic half on the evaluation model: in ANY execution of an accepted closure-free program (any
   branch choices, any number of loop iterations, any values written, early exits included), every read of
   a binding created by a `const` declaration yields the value it was created with. *)
Theorem const_value_stable : forall p st l,
  check cfg_fixed p = true -> exb module_frame p st l -> Forall read_ok l.
Proof. intros p st l Hc. apply no_const_write_stable. apply const_never_written. exact Hc. Qed.

(* const a = ..; b = ..; b += a; a     -- accepted; an execution exists and reads the const *)
Definition p_ok : block :=
  BCons (SAssign true false a ELit) (BCons (SAssign false false b ELit)
  (BCons (SExpr (EOpAssign (EVar b) (EVar a))) (BCons (SExpr (EVar a)) BNil))).

Example p_ok_runs :
  check cfg_fixed p_ok = true /\
  exists st l, exb module_frame p_ok st l /\ l = [mkR a 5 true 5; mkR a 5 true 5].
Proof.
  split; [vm_compute; reflexivity|].
  eexists. eexists. split.
  - unfold p_ok.
    eapply exb_cons; [eapply ex_assign with (v := 5%N); apply ev_lit|].
    eapply exb_cons; [eapply ex_assign with (v := 1%N); apply ev_lit|].
    eapply exb_cons.
    { apply ex_expr. eapply ev_opassign_var with (v := 9%N); [apply ev_var; vm_compute; reflexivity|].
      vm_compute. reflexivity. }
    eapply exb_cons; [apply ex_expr; apply ev_var; vm_compute; reflexivity|apply exb_nil].
  - reflexivity.
Qed.

(* on the tree BEFORE the fix the counter program is accepted and the model really overwrites the const:
   const a = ..; from .. to .., a {}; a *)
Definition p_counter_read : block :=
  BCons (SAssign true false a ELit) (BCons (SFrom ELit ELit (Some a) BNil) (BCons (SExpr (EVar a)) BNil)).

Example head_value_changes :
  check cfg_head p_counter_read = true /\ check cfg_fixed p_counter_read = false /\
  exists st l, exb module_frame p_counter_read st l /\ ~ Forall read_ok l.
Proof.
  split; [vm_compute; reflexivity|]. split; [vm_compute; reflexivity|].
  eexists. eexists. split.
  - unfold p_counter_read.
    eapply exb_cons; [eapply ex_assign with (v := 5%N); apply ev_lit|].
    eapply exb_cons.
    { eapply ex_from with (cn := Some a).
      - apply ev_lit.
      - exists 0%N. left. reflexivity.
      - apply ev_lit.
      - apply it_stop.
      - left. reflexivity. }
    eapply exb_cons; [apply ex_expr; apply ev_var; vm_compute; reflexivity|apply exb_nil].
  - cbn. intro H. inversion H as [|r l Hr _]; subst. unfold read_ok in Hr. cbn in Hr.
    specialize (Hr eq_refl). discriminate.
Qed.

Definition p_unwrap_read : block :=
  BCons (SAssign true false a ELit) (BCons (SAssign false false b ELit)
  (BCons (SIf (EUnwrap (EVar a) (EVar b)) BNil BNil) (BCons (SExpr (EVar a)) BNil))).

Example head_value_changes_unwrap :
  check cfg_head p_unwrap_read = true /\ check cfg_fixed p_unwrap_read = false /\
  exists st l, exb module_frame p_unwrap_read st l /\ ~ Forall read_ok l.
Proof.
  split; [vm_compute; reflexivity|]. split; [vm_compute; reflexivity|].
  eexists. eexists. split.
  - unfold p_unwrap_read.
    eapply exb_cons; [eapply ex_assign with (v := 5%N); apply ev_lit|].
    eapply exb_cons; [eapply ex_assign with (v := 7%N); apply ev_lit|].
    eapply exb_cons.
    { eapply ex_if_then; [|apply exb_nil].
      eapply ev_unwrap with (v := 7%N). apply ev_var. vm_compute. reflexivity. }
    eapply exb_cons; [apply ex_expr; apply ev_var; vm_compute; reflexivity|apply exb_nil].
  - cbn. intro H. inversion H as [|r l Hr Hl]; subst. inversion Hl as [|r2 l2 Hr2 _]; subst.
    unfold read_ok in Hr2. cbn in Hr2. specialize (Hr2 eq_refl). discriminate.
Qed.
