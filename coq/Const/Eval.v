(* C10 -- a small evaluation model of the run-time variable store, for the CLOSURE-FREE part of the
   mini-language (no function literals, classes, imports, `modify`, unpacking: those statements simply
   have no execution rule here).

   Mirrors bytecode/src/stack.rs and instruction.rs:
     frames            Stack = Vec<StackFrame>; block frames (<if>, <while>) are "special", a function's /
                       the module's own frame is not
     rt_find           Stack::find_name_in_function        (load, bin_op_assign)
     rt_set / reg_var  Stack::register_variable_flags      (`store`: update where found in the current
                       function, else bind in the top frame)
     reg_local         Stack::register_variable_local      (`store_fast`: the top frame only; `unwrap_into` used it too before /repo 2ade5a8)
     del_local         Stack::delete_variable_local        (`delete_name_scoped` after a `from` loop)
   Compiled control flow (compiler/src/ast/{if_statement,while_loop,number_loop}.rs Compile impls): a
   condition is evaluated in the ENCLOSING frame, the body in a fresh special frame that is popped
   afterwards; a named `from` counter is bound in the enclosing frame before the loop (store_fast, or `store`
   when it reuses an existing variable), bumped with bin_op_assign after every iteration and deleted
   afterwards unless it collided.

   Values are opaque tokens (N); every rule may write ANY value.  Each binding carries two ghost fields:
   whether it was created by a `const` declaration and the value it was created with.  Every variable
   read is logged. *)
From MS Require Import Const.Model.

Record rbind := mkR { rname : name; rval : N; rconst : bool; rinit : N }.
Record frame := mkF { special : bool; fvars : list rbind }.
Definition stack := list frame.              (* head = innermost *)

Fixpoint fr_find (vs : list rbind) (x : name) : option rbind :=
  match vs with
  | [] => None
  | r :: t => if N.eqb (rname r) x then Some r else fr_find t x
  end.

(* the ghost fields are not touched: the VM does not know them *)
Fixpoint fr_set (vs : list rbind) (x : name) (v : N) : list rbind :=
  match vs with
  | [] => []
  | r :: t => if N.eqb (rname r) x then mkR (rname r) v (rconst r) (rinit r) :: t else r :: fr_set t x v
  end.

Fixpoint fr_del (vs : list rbind) (x : name) : list rbind :=
  match vs with
  | [] => []
  | r :: t => if N.eqb (rname r) x then t else r :: fr_del t x
  end.

Fixpoint rt_find (st : stack) (x : name) : option rbind :=
  match st with
  | [] => None
  | f :: r => match fr_find (fvars f) x with
              | Some b => Some b
              | None => if special f then rt_find r x else None
              end
  end.

Fixpoint rt_set (st : stack) (x : name) (v : N) : option stack :=
  match st with
  | [] => None
  | f :: r => match fr_find (fvars f) x with
              | Some _ => Some (mkF (special f) (fr_set (fvars f) x v) :: r)
              | None => if special f
                        then match rt_set r x v with Some r' => Some (f :: r') | None => None end
                        else None
              end
  end.

Definition reg_local (st : stack) (x : name) (v : N) (c : bool) : stack :=
  match st with
  | [] => []
  | f :: r => match fr_find (fvars f) x with
              | Some _ => mkF (special f) (fr_set (fvars f) x v) :: r
              | None => mkF (special f) (mkR x v c v :: fvars f) :: r
              end
  end.

Definition reg_var (st : stack) (x : name) (v : N) (c : bool) : stack :=
  match rt_set st x v with Some st' => st' | None => reg_local st x v c end.

Definition del_local (st : stack) (x : name) : stack :=
  match st with [] => [] | f :: r => mkF (special f) (fr_del (fvars f) x) :: r end.

Definition push_frame (st : stack) : stack := mkF true [] :: st.

Definition log := list rbind.                 (* the bindings read, in order *)

Inductive ev : stack -> expr -> stack -> log -> Prop :=
| ev_lit : forall st, ev st ELit st []
| ev_self : forall st, ev st ESelf st []
| ev_var : forall st x r, rt_find st x = Some r -> ev st (EVar x) st [r]
| ev_bin : forall st a b st1 st2 l1 l2, ev st a st1 l1 -> ev st1 b st2 l2 -> ev st (EBin a b) st2 (l1 ++ l2)
| ev_index : forall st a i st1 st2 l1 l2, ev st a st1 l1 -> ev st1 i st2 l2 -> ev st (EIndex a i) st2 (l1 ++ l2)
| ev_field : forall st a st1 l1, ev st a st1 l1 -> ev st (EField a) st1 l1
| ev_call : forall st f a st1 st2 l1 l2, ev st f st1 l1 -> ev st1 a st2 l2 -> ev st (ECall f a) st2 (l1 ++ l2)
    (* the callee's body is outside this model: only builtins / opaque callees *)
| ev_opassign_var : forall st x r st1 l1 v st2,            (* rhs; bin_op_assign op x *)
    ev st r st1 l1 -> rt_set st1 x v = Some st2 -> ev st (EOpAssign (EVar x) r) st2 l1
| ev_opassign_index : forall st a i r st1 st2 l1 l2,       (* the element is mutated, no binding changes *)
    ev st r st1 l1 -> ev st1 (EIndex a i) st2 l2 -> ev st (EOpAssign (EIndex a i) r) st2 (l1 ++ l2)
| ev_opassign_field : forall st a r st1 st2 l1 l2,
    ev st r st1 l1 -> ev st1 (EField a) st2 l2 -> ev st (EOpAssign (EField a) r) st2 (l1 ++ l2)
| ev_unwrap : forall st x r st1 l1 v,                      (* rhs; unwrap_into x *)
    ev st r st1 l1 -> ev st (EUnwrap (EVar x) r) (reg_var st1 x v false) l1.   (* register_variable since /repo 2ade5a8 *)

Definition bump (st : stack) (cn : option name) (st' : stack) : Prop :=
  match cn with None => st' = st | Some x => exists v, rt_set st x v = Some st' end.

Inductive ex : stack -> stmt -> stack -> log -> Prop :=
| ex_assign : forall st c x rhs st1 l v,
    ev st rhs st1 l -> ex st (SAssign c false x rhs) (reg_var st1 x v c) l
| ex_reassign : forall st p rhs st1 st2 l1 l2,             (* value, path, ptr_mut: no binding changes *)
    ev st rhs st1 l1 -> ev st1 p st2 l2 -> ex st (SReassign p rhs) st2 (l1 ++ l2)
| ex_expr : forall st e st1 l, ev st e st1 l -> ex st (SExpr e) st1 l
| ex_if_then : forall st c t e st1 st2 l1 l2,
    ev st c st1 l1 -> exb (push_frame st1) t st2 l2 -> ex st (SIf c t e) (tl st2) (l1 ++ l2)
| ex_if_else : forall st c t e st1 st2 l1 l2,
    ev st c st1 l1 -> exb (push_frame st1) e st2 l2 -> ex st (SIf c t e) (tl st2) (l1 ++ l2)
| ex_while_stop : forall st c b st1 l1, ev st c st1 l1 -> ex st (SWhile c b) st1 l1
| ex_while_step : forall st c b st1 st2 st3 l1 l2 l3,
    ev st c st1 l1 -> exb (push_frame st1) b st2 l2 -> ex (tl st2) (SWhile c b) st3 l3 ->
    ex st (SWhile c b) st3 (l1 ++ l2 ++ l3)
| ex_from : forall st lo hi cn b st1 st1' st2 st3 st4 l1 l2 l3,
    ev st lo st1 l1 ->
    (* the counter is bound with store_fast; since /repo 3f1880b with `store` when it collides *)
    match cn with
    | None => st1' = st1
    | Some x => exists v, st1' = reg_local st1 x v false \/ st1' = reg_var st1 x v false
    end ->
    ev st1' hi st2 l2 ->
    iter st2 cn b st3 l3 ->
    (* delete_name_scoped unless the counter collided with an existing variable *)
    match cn with
    | None => st4 = st3
    | Some x => st4 = st3 \/ (rt_find st1 x = None /\ st4 = del_local st3 x)
    end ->
    ex st (SFrom lo hi cn b) st4 (l1 ++ l2 ++ l3)
with exb : stack -> block -> stack -> log -> Prop :=
| exb_nil : forall st, exb st BNil st []
| exb_exit : forall st s b, exb st (BCons s b) st []       (* break / continue / return leave the block early *)
| exb_cons : forall st s b st1 st2 l1 l2, ex st s st1 l1 -> exb st1 b st2 l2 -> exb st (BCons s b) st2 (l1 ++ l2)
with iter : stack -> option name -> block -> stack -> log -> Prop :=
| it_stop : forall st cn b, iter st cn b st []
| it_step : forall st cn b st1 st2 st3 l1 l3,
    exb (push_frame st) b st1 l1 -> bump (tl st1) cn st2 -> iter st2 cn b st3 l3 ->
    iter st cn b st3 (l1 ++ l3).

Scheme ex_mut := Induction for ex Sort Prop
  with exb_mut := Induction for exb Sort Prop
  with iter_mut := Induction for iter Sort Prop.
Combined Scheme exec_mutind from ex_mut, exb_mut, iter_mut.

Definition module_frame : stack := [mkF false []].

(* a read of a binding created by a `const` declaration returns the value it was created with *)
Definition read_ok (r : rbind) : Prop := rconst r = true -> rval r = rinit r.
