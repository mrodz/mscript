(* UTF-8, so that nothing about it is assumed.  The codec models (Codec/Model.v) treat a file as a list of
   Unicode scalar values with U+0000 as record separator; the real loader (bytecode/src/file.rs
   get_functions) works on bytes (read_until(0x00), byte patterns, then String::from_utf8 /
   from_utf8_lossy) and the writer writes a Rust String, the UTF-8 encoding of its scalars.

     scalar       char's domain (Rust `char`: 0..=0xD7FF, 0xE000..=0x10FFFF)
     encode_char  core::char::encode_utf8           (1-4 bytes)
     encode       the bytes of a String
     decode       String::from_utf8 (STRICT: overlong forms, surrogates, > 0x10FFFF, truncated
                  sequences, stray/bad continuation bytes are errors)
     decode_lossy String::from_utf8_lossy (maximal invalid prefix -> U+FFFD)

   encode and decode are mutually inverse between scalar strings and the byte strings `decode` accepts, and
   a byte < 0x80 (in particular the zero byte) occurs in an encoding exactly where the same ASCII scalar
   occurs in the string.  Bytes are N (the theorems show they are < 256). *)
From Coq Require Import ZArith ZifyBool.
From MS Require Export Base.Str Codec.Model.

Definition scalar (c : N) : bool := (c <? 0xD800) || ((0xE000 <=? c) && (c <=? 0x10FFFF)).

(* core::char::encode_utf8_raw; `/ 64` is `>> 6`, `mod 64` is `& 0x3F`, `0xC0 + x` is `0xC0 | x`
   (see encode_char_bits below) *)
Definition encode_char (c : N) : list N :=
  if c <? 0x80 then [c]
  else if c <? 0x800 then [0xC0 + c / 64; 0x80 + c mod 64]
  else if c <? 0x10000 then [0xE0 + c / 4096; 0x80 + (c / 64) mod 64; 0x80 + c mod 64]
  else [0xF0 + c / 262144; 0x80 + (c / 4096) mod 64; 0x80 + (c / 64) mod 64; 0x80 + c mod 64].

Definition encode (s : list N) : list N := flat_map encode_char s.

(* a Rust `String` / `&str` seen as its sequence of `char`s *)
Definition scalars (s : list N) : Prop := Forall (fun c => scalar c = true) s.

(* continuation byte 10xxxxxx *)
Definition cont (b : N) : bool := (0x80 <=? b) && (b <? 0xC0).

Definition dec2 (b0 b1 : N) : N := (b0 - 0xC0) * 64 + (b1 - 0x80).
Definition dec3 (b0 b1 b2 : N) : N := (b0 - 0xE0) * 4096 + (b1 - 0x80) * 64 + (b2 - 0x80).
Definition dec4 (b0 b1 b2 b3 : N) : N :=
  (b0 - 0xF0) * 262144 + (b1 - 0x80) * 4096 + (b2 - 0x80) * 64 + (b3 - 0x80).

(* a three byte sequence must not be overlong (< 0x800) nor a surrogate *)
Definition ok3 (c : N) : bool := (0x800 <=? c) && scalar c.
(* a four byte sequence must not be overlong (< 0x10000) nor exceed 0x10FFFF *)
Definition ok4 (c : N) : bool := (0x10000 <=? c) && (c <=? 0x10FFFF).

Definition ocons (c : N) (o : option (list N)) : option (list N) :=
  match o with Some s => Some (c :: s) | None => None end.

(* String::from_utf8: all of the input or an error; None = invalid UTF-8 at some position.
   lead bytes: 00..7F one byte; 80..BF stray continuation; C0,C1 overlong two byte forms;
   C2..DF two; E0..EF three; F0..F4 four; F5.. invalid (also rejects "bytes" >= 256) *)
Fixpoint decode (l : list N) : option (list N) :=
  match l with
  | [] => Some []
  | b0 :: r0 =>
    if b0 <? 0x80 then ocons b0 (decode r0)
    else if b0 <? 0xC2 then None
    else if b0 <? 0xE0 then
      match r0 with
      | b1 :: r1 => if cont b1 then ocons (dec2 b0 b1) (decode r1) else None
      | _ => None
      end
    else if b0 <? 0xF0 then
      match r0 with
      | b1 :: b2 :: r2 =>
        if cont b1 && cont b2 && ok3 (dec3 b0 b1 b2) then ocons (dec3 b0 b1 b2) (decode r2) else None
      | _ => None
      end
    else if b0 <? 0xF5 then
      match r0 with
      | b1 :: b2 :: b3 :: r3 =>
        if cont b1 && cont b2 && cont b3 && ok4 (dec4 b0 b1 b2 b3)
        then ocons (dec4 b0 b1 b2 b3) (decode r3) else None
      | _ => None
      end
    else None
  end.

Ltac tests :=
  repeat match goal with
  | |- context [N.ltb ?a ?b] =>
    first [replace (N.ltb a b) with false by lia | replace (N.ltb a b) with true by lia]
  | |- context [N.leb ?a ?b] =>
    first [replace (N.leb a b) with true by lia | replace (N.leb a b) with false by lia]
  end.

(* The three lemmas below read the base-64 digits of [encode_char] off; what is built on them is linear in
   the digits. *)
Ltac lia_div := zify; Z.to_euclidean_division_equations; lia.

Lemma encode_char_2 c : 0x80 <= c < 0x800 ->
  exists a d, a < 32 /\ d < 64 /\ c = a * 64 + d /\ encode_char c = [0xC0 + a; 0x80 + d].
Proof.
  intros H. exists (c / 64), (c mod 64). unfold encode_char. tests.
  repeat split; lia_div.
Qed.

Lemma encode_char_3 c : 0x800 <= c < 0x10000 ->
  exists a b d, a < 16 /\ b < 64 /\ d < 64 /\ c = a * 4096 + b * 64 + d /\
    encode_char c = [0xE0 + a; 0x80 + b; 0x80 + d].
Proof.
  intros H. exists (c / 4096), ((c / 64) mod 64), (c mod 64). unfold encode_char. tests.
  repeat split; lia_div.
Qed.

Lemma encode_char_4 c : 0x10000 <= c <= 0x10FFFF ->
  exists a b d e, a < 5 /\ b < 64 /\ d < 64 /\ e < 64 /\ c = a * 262144 + b * 4096 + d * 64 + e /\
    encode_char c = [0xF0 + a; 0x80 + b; 0x80 + d; 0x80 + e].
Proof.
  intros H. exists (c / 262144), ((c / 4096) mod 64), ((c / 64) mod 64), (c mod 64).
  unfold encode_char. tests. repeat split; lia_div.
Qed.

(* The four shapes of a well-formed UTF-8 byte sequence (Unicode Table 3-7), each with the scalar
   it stands for.  Both directions of the codec go through this relation. *)
Inductive seq : N -> list N -> Prop :=
| seq1 b : b < 0x80 -> seq b [b]
| seq2 b0 b1 : 0xC2 <= b0 < 0xE0 -> cont b1 = true -> seq (dec2 b0 b1) [b0; b1]
| seq3 b0 b1 b2 : 0xE0 <= b0 < 0xF0 -> cont b1 = true -> cont b2 = true ->
    ok3 (dec3 b0 b1 b2) = true -> seq (dec3 b0 b1 b2) [b0; b1; b2]
| seq4 b0 b1 b2 b3 : 0xF0 <= b0 < 0xF5 -> cont b1 = true -> cont b2 = true -> cont b3 = true ->
    ok4 (dec4 b0 b1 b2 b3) = true -> seq (dec4 b0 b1 b2 b3) [b0; b1; b2; b3].

Lemma encode_char_seq c : scalar c = true -> seq c (encode_char c).
Proof.
  intros Hs. unfold scalar in Hs.
  destruct (N.lt_ge_cases c 0x80) as [H1|H1].
  { unfold encode_char. tests. now constructor. }
  destruct (N.lt_ge_cases c 0x800) as [H2|H2].
  { destruct (encode_char_2 c) as (a & d & Ha & Hd & -> & ->); [lia|].
    replace (a * 64 + d) with (dec2 (0xC0 + a) (0x80 + d)) by (unfold dec2; lia).
    apply seq2; unfold cont; lia. }
  destruct (N.lt_ge_cases c 0x10000) as [H3|H3].
  { destruct (encode_char_3 c) as (a & b & d & Ha & Hb & Hd & -> & ->); [lia|].
    replace (a * 4096 + b * 64 + d) with (dec3 (0xE0 + a) (0x80 + b) (0x80 + d)) in * by (unfold dec3; lia).
    apply seq3; unfold cont, ok3, scalar; lia. }
  destruct (encode_char_4 c) as (a & b & d & e & Ha & Hb & Hd & He & -> & ->); [lia|].
  replace (a * 262144 + b * 4096 + d * 64 + e)
    with (dec4 (0xF0 + a) (0x80 + b) (0x80 + d) (0x80 + e)) in * by (unfold dec4; lia).
  apply seq4; unfold cont, ok4; lia.
Qed.

Lemma seq_encode_char c l : seq c l -> scalar c = true /\ encode_char c = l.
Proof.
  destruct 1 as [b H|b0 b1 H C1|b0 b1 b2 H C1 C2 K|b0 b1 b2 b3 H C1 C2 C3 K];
    unfold cont, ok3, ok4, scalar in *.
  - split; [lia|]. unfold encode_char. now tests.
  - destruct (encode_char_2 (dec2 b0 b1)) as (a & d & Ha & Hd & E & ->); unfold dec2 in *; [lia|].
    split; [lia|]. repeat f_equal; lia.
  - destruct (encode_char_3 (dec3 b0 b1 b2)) as (a & b & d & Ha & Hb & Hd & E & ->); unfold dec3 in *; [lia|].
    split; [lia|]. repeat f_equal; lia.
  - destruct (encode_char_4 (dec4 b0 b1 b2 b3)) as (a & b & d & e & Ha & Hb & Hd & He & E & ->);
      unfold dec4 in *; [lia|].
    split; [lia|]. repeat f_equal; lia.
Qed.

Lemma seq_bytes c l : seq c l -> Forall (fun b => b < 256) l.
Proof. destruct 1; unfold cont in *; repeat constructor; lia. Qed.

Lemma decode_seq c l r : seq c l -> decode (l ++ r) = ocons c (decode r).
Proof.
  destruct 1 as [b H|b0 b1 H C1|b0 b1 b2 H C1 C2 K|b0 b1 b2 b3 H C1 C2 C3 K]; cbn [app decode]; tests.
  - reflexivity.
  - now rewrite C1.
  - now rewrite C1, C2, K.
  - now rewrite C1, C2, C3, K.
Qed.

(* induction over a successful decoding, one well-formed sequence at a time *)
Lemma decode_seq_ind (P : list N -> list N -> Prop) :
  P [] [] ->
  (forall c p r s, seq c p -> decode r = Some s -> P r s -> P (p ++ r) (c :: s)) ->
  forall l s, decode l = Some s -> P l s.
Proof.
  intros H0 Hstep l. induction l as [l IH] using (induction_ltof1 _ (@length N)). unfold ltof in IH.
  assert (St : forall c p r s, seq c p -> l = p ++ r -> ocons c (decode r) = Some s -> P l s).
  { intros c p r s Hp -> E. destruct (decode r) as [s'|] eqn:D; [|discriminate]. injection E as <-.
    apply Hstep; auto. apply IH; auto. rewrite app_length. destruct Hp; cbn; lia. }
  intros s. destruct l as [|b0 r0]; cbn [decode]; [now intros [= <-]|].
  destruct (N.ltb_spec b0 0x80); [apply (St b0 [b0] r0); [now constructor|reflexivity]|].
  destruct (N.ltb_spec b0 0xC2); [discriminate|].
  destruct (N.ltb_spec b0 0xE0).
  { destruct r0 as [|b1 r1]; [discriminate|]. destruct (cont b1) eqn:C1; [|discriminate].
    apply (St _ [b0; b1] r1); [now constructor|reflexivity]. }
  destruct (N.ltb_spec b0 0xF0).
  { destruct r0 as [|b1 [|b2 r2]]; try discriminate.
    destruct (cont b1 && cont b2 && ok3 (dec3 b0 b1 b2)) eqn:C; [|discriminate].
    rewrite !andb_true_iff in C. destruct C as [[C1 C2] K].
    apply (St _ [b0; b1; b2] r2); [now constructor|reflexivity]. }
  destruct (N.ltb_spec b0 0xF5); [|discriminate].
  destruct r0 as [|b1 [|b2 [|b3 r3]]]; try discriminate.
  destruct (cont b1 && cont b2 && cont b3 && ok4 (dec4 b0 b1 b2 b3)) eqn:C; [|discriminate].
  rewrite !andb_true_iff in C. destruct C as [[[C1 C2] C3] K].
  apply (St _ [b0; b1; b2; b3] r3); [now constructor|reflexivity].
Qed.

Lemma encode_app a b : encode (a ++ b) = encode a ++ encode b.
Proof. apply flat_map_app. Qed.

Lemma encode_cons c s : encode (c :: s) = encode_char c ++ encode s.
Proof. reflexivity. Qed.

Lemma encode_char_ascii c : c < 0x80 -> encode_char c = [c].
Proof. intros H. unfold encode_char. now tests. Qed.

Lemma encode_char_high c : 0x80 <= c -> Forall (fun b => 0x80 <= b) (encode_char c).
Proof.
  intros H. unfold encode_char. tests.
  destruct (c <? 0x800); [|destruct (c <? 0x10000)]; repeat constructor; lia_div.
Qed.

Lemma encode_char_nonempty c : encode_char c <> [].
Proof.
  unfold encode_char.
  destruct (c <? 0x80); [|destruct (c <? 0x800); [|destruct (c <? 0x10000)]]; discriminate.
Qed.

Theorem encode_bytes : forall s, scalars s -> Forall (fun b => b < 256) (encode s).
Proof.
  induction 1 as [|c s Hc Hs IH]; [constructor|].
  rewrite encode_cons. apply Forall_app. split; [|exact IH].
  exact (seq_bytes _ _ (encode_char_seq c Hc)).
Qed.

Lemma ascii_byte_char c b : b < 0x80 -> (In b (encode_char c) <-> b = c).
Proof.
  intros Hb. destruct (N.lt_ge_cases c 0x80) as [Hc|Hc].
  - rewrite encode_char_ascii by exact Hc. cbn [In]. intuition congruence.
  - split.
    + intros Hin. pose proof (encode_char_high c Hc) as Hf. rewrite Forall_forall in Hf.
      apply Hf in Hin. lia.
    + intros ->. lia.
Qed.

Theorem ascii_byte_iff : forall s b, b < 128 -> (In b (encode s) <-> In b s).
Proof.
  intros s b Hb. induction s as [|c s IH]; [reflexivity|].
  rewrite encode_cons, in_app_iff, IH, (ascii_byte_char c b Hb). cbn [In]. intuition congruence.
Qed.

(* the record separator: a zero byte occurs only as the encoding of U+0000 *)
Theorem zero_byte_iff : forall s, In 0 (encode s) <-> In 0 s.
Proof. intros s. apply ascii_byte_iff. lia. Qed.

Theorem decode_encode : forall s, scalars s -> decode (encode s) = Some s.
Proof.
  induction 1 as [|c s Hc Hs IH]; [reflexivity|].
  now rewrite encode_cons, (decode_seq c _ _ (encode_char_seq c Hc)), IH.
Qed.

Theorem encode_injective : forall s t, scalars s -> scalars t -> encode s = encode t -> s = t.
Proof.
  intros s t Hs Ht E. apply decode_encode in Hs, Ht. rewrite E in Hs. congruence.
Qed.

Lemma decode_sound : forall b s, decode b = Some s -> encode s = b /\ scalars s.
Proof.
  apply decode_seq_ind; [split; constructor|].
  intros c p r s Hp _ [E F]. destruct (seq_encode_char c p Hp) as [Hc Ec].
  split; [now rewrite encode_cons, E, Ec|now constructor].
Qed.

Theorem encode_decode : forall b s, decode b = Some s -> encode s = b.
Proof. intros b s H. exact (proj1 (decode_sound b s H)). Qed.

Theorem decode_spec : forall b s,
  decode b = Some s <-> (scalars s /\ encode s = b).
Proof.
  intros b s. split.
  - intros H. apply decode_sound in H. tauto.
  - intros [H <-]. now apply decode_encode.
Qed.

(* String::from_utf8_lossy.  core::str::lossy::Utf8Chunks::next: the valid second-byte ranges per lead byte *)
Definition snd3 (b0 b1 : N) : bool :=
  if b0 =? 0xE0 then (0xA0 <=? b1) && (b1 <? 0xC0)
  else if b0 =? 0xED then (0x80 <=? b1) && (b1 <? 0xA0)
  else cont b1.
Definition snd4 (b0 b1 : N) : bool :=
  if b0 =? 0xF0 then (0x90 <=? b1) && (b1 <? 0xC0)
  else if b0 =? 0xF4 then (0x80 <=? b1) && (b1 <? 0x90)
  else cont b1.

Definition c_repl : N := 0xFFFD.

(* each maximal invalid prefix of a sequence (lead byte + the continuation bytes accepted so far)
   becomes one U+FFFD and decoding resumes right after it *)
Fixpoint decode_lossy (l : list N) : list N :=
  match l with
  | [] => []
  | b0 :: r0 =>
    if b0 <? 0x80 then b0 :: decode_lossy r0
    else if b0 <? 0xC2 then c_repl :: decode_lossy r0
    else if b0 <? 0xE0 then
      match r0 with
      | b1 :: r1 => if cont b1 then dec2 b0 b1 :: decode_lossy r1 else c_repl :: decode_lossy r0
      | [] => [c_repl]
      end
    else if b0 <? 0xF0 then
      match r0 with
      | b1 :: r1 =>
        if snd3 b0 b1 then
          match r1 with
          | b2 :: r2 => if cont b2 then dec3 b0 b1 b2 :: decode_lossy r2 else c_repl :: decode_lossy r1
          | [] => [c_repl]
          end
        else c_repl :: decode_lossy r0
      | [] => [c_repl]
      end
    else if b0 <? 0xF5 then
      match r0 with
      | b1 :: r1 =>
        if snd4 b0 b1 then
          match r1 with
          | b2 :: r2 =>
            if cont b2 then
              match r2 with
              | b3 :: r3 =>
                if cont b3 then dec4 b0 b1 b2 b3 :: decode_lossy r3 else c_repl :: decode_lossy r2
              | [] => [c_repl]
              end
            else c_repl :: decode_lossy r1
          | [] => [c_repl]
          end
        else c_repl :: decode_lossy r0
      | [] => [c_repl]
      end
    else c_repl :: decode_lossy r0
  end.

(* the second-byte ranges are what keeps a three or four byte sequence from being overlong, a
   surrogate or above U+10FFFF *)
Lemma snd3_ok b0 b1 b2 : cont b1 = true -> cont b2 = true ->
  ok3 (dec3 b0 b1 b2) = true -> snd3 b0 b1 = true.
Proof.
  unfold snd3, ok3, scalar, dec3, cont. intros.
  destruct (N.eqb_spec b0 0xE0); [|destruct (N.eqb_spec b0 0xED)]; lia.
Qed.

Lemma snd4_ok b0 b1 b2 b3 : cont b1 = true -> cont b2 = true -> cont b3 = true ->
  ok4 (dec4 b0 b1 b2 b3) = true -> snd4 b0 b1 = true.
Proof.
  unfold snd4, ok4, dec4, cont. intros.
  destruct (N.eqb_spec b0 0xF0); [|destruct (N.eqb_spec b0 0xF4)]; lia.
Qed.

Lemma decode_lossy_seq c l r : seq c l -> decode_lossy (l ++ r) = c :: decode_lossy r.
Proof.
  destruct 1 as [b H|b0 b1 H C1|b0 b1 b2 H C1 C2 K|b0 b1 b2 b3 H C1 C2 C3 K]; cbn [app].
  (* The tails are named before [decode_lossy] is unfolded and are released one byte at a time, with
     [lazy match] to take the branch.  Unfolded on a list of known length, every branch not taken unfolds
     its own recursive call in turn: the plain [cbn] is exponential in the length of the sequence. *)
  - cbn [decode_lossy]. now tests.
  - set (r0 := b1 :: r). cbn [decode_lossy]. tests. subst r0. lazy match. now rewrite C1.
  - set (r1 := b2 :: r). set (r0 := b1 :: r1). cbn [decode_lossy]. tests.
    subst r0. lazy match. rewrite (snd3_ok b0 b1 b2) by assumption.
    subst r1. lazy match. now rewrite C2.
  - set (r2 := b3 :: r). set (r1 := b2 :: r2). set (r0 := b1 :: r1). cbn [decode_lossy]. tests.
    subst r0. lazy match. rewrite (snd4_ok b0 b1 b2 b3) by assumption.
    subst r1. lazy match. rewrite C2.
    subst r2. lazy match. now rewrite C3.
Qed.

Theorem decode_lossy_valid : forall b s, decode b = Some s -> decode_lossy b = s.
Proof.
  apply decode_seq_ind; [reflexivity|].
  intros c p r s Hp _ IH. now rewrite (decode_lossy_seq c p r Hp), IH.
Qed.

Theorem decode_lossy_encode : forall s, scalars s -> decode_lossy (encode s) = s.
Proof. intros s H. now apply decode_lossy_valid, decode_encode. Qed.

(* core::char::methods::encode_utf8_raw, literally *)
Definition encode_char_bits (c : N) : list N :=
  if c <? 0x80 then [c]
  else if c <? 0x800 then
    [N.lor (N.land (N.shiftr c 6) 0x1F) 0xC0; N.lor (N.land c 0x3F) 0x80]
  else if c <? 0x10000 then
    [N.lor (N.land (N.shiftr c 12) 0x0F) 0xE0; N.lor (N.land (N.shiftr c 6) 0x3F) 0x80;
     N.lor (N.land c 0x3F) 0x80]
  else
    [N.lor (N.land (N.shiftr c 18) 0x07) 0xF0; N.lor (N.land (N.shiftr c 12) 0x3F) 0x80;
     N.lor (N.land (N.shiftr c 6) 0x3F) 0x80; N.lor (N.land c 0x3F) 0x80].

(* [(y & ones k) | (m << k)]: the tag m above k payload bits, with no carry *)
Lemma lor_tag y k m : N.lor (N.land y (N.ones k)) (m * 2 ^ k) = m * 2 ^ k + y mod 2 ^ k.
Proof.
  rewrite N.land_ones, N.lor_comm. symmetry.
  assert (D : N.land (m * 2 ^ k) (y mod 2 ^ k) = 0).
  { apply N.bits_inj_0. intros n. rewrite N.land_spec. destruct (N.lt_ge_cases n k).
    - now rewrite N.mul_pow2_bits_low.
    - now rewrite N.mod_pow2_bits_high, andb_false_r. }
  now rewrite N.add_nocarry_lxor, N.lxor_lor.
Qed.

Theorem encode_char_bits_eq : forall c, c <= 0x10FFFF -> encode_char_bits c = encode_char c.
Proof.
  intros c Hc. unfold encode_char_bits, encode_char.
  rewrite !(lor_tag _ 6 2), (lor_tag _ 5 6), (lor_tag _ 4 14), (lor_tag _ 3 30), !N.shiftr_div_pow2.
  destruct (N.ltb_spec c 0x80) as [H1|H1]; [reflexivity|].
  destruct (N.ltb_spec c 0x800) as [H2|H2]; [|destruct (N.ltb_spec c 0x10000) as [H3|H3]];
    repeat (apply (f_equal2 cons); [lia_div|]); reflexivity.
Qed.
