(* text writer -> transpiler -> loader = identity (C18) *)
From MS Require Import Base.StrFacts Codec.Model Codec.Proofs Codec.Text.

Definition nonws (c : N) : bool := negb (is_ws c).

(* What the round trip needs of an opcode: the table names it; the transpiler finds that name on the line
   (it cuts the line at the first space, refuses a deprecated name, reads `end` as the end of the function)
   and maps it back to the opcode; the binary format can carry the opcode (wf_op).  Of a function name: the
   header line ends at the first line feed, and the transpiler trims the end of what it finds there. *)
Definition op_ok (o : N) : bool :=
  match name_of o with
  | Some n => negb (is_nil n) && forallb nonws n && negb (deprecated n) && negb (str_eqb s_end n)
              && (match op_of n with Some o' => o' =? o | None => false end)
              && negb (o =? c_nul) && negb (o =? c_e)
  | None => false
  end.

Definition wf_instr_t (i : instr) : Prop := op_ok (op i) = true /\ Forall nul_free (args i).
Definition wf_func_t (f : func) : Prop :=
  nul_free (fname f) /\ ~ In c_lf (fname f) /\ trim_end (fname f) = fname f /\ Forall wf_instr_t (body f).

Lemma op_ok_inv o : op_ok o = true ->
  exists n, name_of o = Some n /\ n <> [] /\ forallb nonws n = true /\ deprecated n = false /\
            str_eqb s_end n = false /\ op_of n = Some o /\ o <> c_nul /\ o <> c_e.
Proof.
  unfold op_ok. destruct (name_of o) as [n|]; [|discriminate]. intros H. exists n.
  apply andb_prop in H as [H He]. apply andb_prop in H as [H H0]. apply andb_prop in H as [H Hop].
  apply andb_prop in H as [H Hend]. apply andb_prop in H as [H Hdep]. apply andb_prop in H as [Hnil Hnw].
  apply Bool.negb_true_iff in He, H0, Hend, Hdep. apply N.eqb_neq in He, H0.
  destruct (op_of n) as [o'|]; [|discriminate]. apply N.eqb_eq in Hop. subst o'.
  repeat split; try assumption. intros ->. discriminate Hnil.
Qed.

Lemma nonws_not_in c n : is_ws c = true -> forallb nonws n = true -> ~ In c n.
Proof.
  intros Hc H Hin. rewrite forallb_forall in H. apply H in Hin. unfold nonws in Hin.
  rewrite Hc in Hin. discriminate.
Qed.

Lemma not_in_app {A} (x : A) a b : ~ In x a -> ~ In x b -> ~ In x (a ++ b).
Proof. intros Ha Hb H; apply in_app_or in H; tauto. Qed.

Lemma emit_args_lf_free l : ~ In c_lf (emit_args l).
Proof.
  apply not_in_Forall, emit_args_Forall; [repeat split; discriminate|].
  apply Forall_forall. intros s _. apply Forall_forall. auto.
Qed.

Lemma lines_chunk r rest : ~ In c_lf r -> lines (r ++ c_lf :: rest) = (r ++ [c_lf]) :: lines rest.
Proof. exact (split_keep_chunk c_lf [] r rest). Qed.

Lemma trim_end_ws t : forallb is_ws t = true -> trim_end t = [].
Proof.
  induction t as [|c t IH]; [reflexivity|]. cbn [forallb trim_end]. intros H.
  apply Bool.andb_true_iff in H as [Hc Ht]. rewrite (IH Ht), Hc. reflexivity.
Qed.

Lemma trim_end_fixed_app l t : trim_end l = l -> forallb is_ws t = true -> trim_end (l ++ t) = l.
Proof.
  induction l as [|c l IH]; intros Hl Ht; cbn [app]; [now apply trim_end_ws|].
  cbn [trim_end] in *.
  destruct (is_nil (trim_end l) && is_ws c) eqn:E; [discriminate|].
  injection Hl as Hl. rewrite (IH Hl Ht). rewrite Hl in E. rewrite E. reflexivity.
Qed.

Lemma trim_end_last l c : is_ws c = false -> trim_end (l ++ [c]) = l ++ [c].
Proof.
  intros Hc. induction l as [|x l IH]; cbn [app trim_end].
  - rewrite Hc. reflexivity.
  - rewrite IH. destruct l; reflexivity.
Qed.

Lemma trim_end_nonws n : forallb nonws n = true -> trim_end n = n.
Proof.
  intros H. destruct n as [|x n] using rev_ind; [reflexivity|].
  apply trim_end_last. rewrite forallb_app in H. apply Bool.andb_true_iff in H as [_ H].
  cbn in H. unfold nonws in H. destruct (is_ws x); [discriminate|reflexivity].
Qed.

Lemma trim_line x w :
  is_ws x = false -> trim_end (x :: w) = x :: w -> trim (c_tab :: (x :: w) ++ [c_lf]) = x :: w.
Proof.
  intros Hx Hw. unfold trim.
  change (c_tab :: (x :: w) ++ [c_lf]) with ([c_tab] ++ ((x :: w) ++ [c_lf])).
  cbn [app]. cbn [trim_end]. fold (trim_end (w ++ [c_lf])).
  assert (H := trim_end_fixed_app (x :: w) [c_lf] Hw eq_refl). cbn [app trim_end] in H.
  rewrite H. cbn [is_nil andb trim_start]. change (is_ws c_tab) with true. cbn [trim_start].
  rewrite Hx. reflexivity.
Qed.

Lemma split_once_sp_at p q : ~ In c_sp p -> split_once_sp (p ++ c_sp :: q) = Some (p, q).
Proof.
  rewrite not_in_Forall. induction 1 as [|c p Hc Hp IH]; cbn [app split_once_sp]; [reflexivity|].
  destruct (N.eqb_spec c c_sp); [contradiction|]. now rewrite IH.
Qed.
Lemma split_once_sp_none l : ~ In c_sp l -> split_once_sp l = None.
Proof.
  rewrite not_in_Forall. induction 1 as [|c l Hc Hl IH]; cbn [split_once_sp]; [reflexivity|].
  destruct (N.eqb_spec c c_sp); [contradiction|]. now rewrite IH.
Qed.

Lemma split_args_line l : l <> [] -> split true (tl (emit_args l) ++ [c_lf]) = Some l.
Proof. intros H. unfold split. rewrite (emit_args_tail_read l [c_lf] H). now destruct l. Qed.

Lemma str_eqb_false_in a b c : In c b -> ~ In c a -> str_eqb a b = false.
Proof.
  intros Hb Ha. destruct (str_eqb a b) eqn:E; [|reflexivity].
  apply str_eqb_eq in E. subst. contradiction.
Qed.

Lemma emit_args_last l : l <> [] -> exists pre, emit_args l = pre ++ [c_dq].
Proof.
  induction l as [|a l IH]; intros H; [contradiction|]. cbn [emit_args flat_map]. fold (emit_args l).
  destruct l as [|a1 l].
  - exists (c_sp :: c_dq :: escape a). cbn [emit_args flat_map]. rewrite app_nil_r. unfold quote.
    cbn [app]. reflexivity.
  - destruct (IH ltac:(discriminate)) as [pre Hpre]. rewrite Hpre.
    exists ((c_sp :: quote a) ++ pre). now rewrite <- app_assoc.
Qed.

Definition push_i (s : tp) (i : instr) : tp :=
  {| t_name := t_name s; t_ibuf := t_ibuf s ++ [i]; t_out := t_out s |}.

Lemma instr_line s i :
  wf_instr_t i ->
  exists r, emit_instr_text i = Some (r ++ [c_lf]) /\ ~ In c_lf r /\ tp_step s (r ++ [c_lf]) = Some (push_i s i).
Proof.
  intros [Hop Ha]. destruct (op_ok_inv _ Hop) as (n & En & Hnil & Hnw & Hdep & Hend & Eo & _).
  destruct n as [|x n]; [contradiction|].
  assert (Hx : is_ws x = false).
  { cbn [forallb] in Hnw. apply Bool.andb_true_iff in Hnw as [Hx' _]. unfold nonws in Hx'. now destruct (is_ws x). }
  assert (Hnsp : ~ In c_sp (x :: n)) by (apply nonws_not_in; auto).
  assert (Hnlf : ~ In c_lf (x :: n)) by (apply nonws_not_in; auto).
  destruct i as [o a]; cbn [op args] in *.
  (* the line is TAB, name, arguments, LF; trimmed it is name and arguments, and that is not `end` *)
  set (w := n ++ emit_args a).
  assert (Hw : trim_end (x :: w) = x :: w /\ str_eqb s_end (x :: w) = false).
  { unfold w. destruct a as [|a0 a].
    - cbn [emit_args flat_map]. rewrite app_nil_r. auto using trim_end_nonws.
    - split.
      + destruct (emit_args_last (a0 :: a) ltac:(discriminate)) as [pre ->].
        change (x :: n ++ pre ++ [c_dq]) with ((x :: n) ++ pre ++ [c_dq]).
        rewrite app_assoc. now apply trim_end_last.
      + apply (str_eqb_false_in _ _ c_sp); [|cbn; intuition discriminate].
        right. apply in_or_app. right. now left. }
  destruct Hw as [Htrim Hend'].
  exists (c_tab :: (x :: n) ++ emit_args a). split; [|split].
  - unfold emit_instr_text. cbn [op args]. rewrite En. cbn [app]. now rewrite <- app_assoc.
  - intros [H'|H']; [discriminate|]. revert H'. apply not_in_app; [exact Hnlf|apply emit_args_lf_free].
  - unfold tp_step. change ((c_tab :: (x :: n) ++ emit_args a) ++ [c_lf]) with (c_tab :: (x :: w) ++ [c_lf]).
    rewrite trim_line by auto. cbn [is_nil].
    replace (strip_prefix s_function_sp (c_tab :: (x :: w) ++ [c_lf])) with (@None str) by reflexivity.
    rewrite Hend'. unfold tp_push, push_i. cbn [t_name t_ibuf t_out]. unfold w. destruct a as [|a0 a].
    + cbn [emit_args flat_map]. rewrite app_nil_r, split_once_sp_none, Hdep, Eo; [reflexivity|].
      intros [H'|H']; [discriminate|]. change (In c_sp ((x :: n) ++ [c_lf])) in H'.
      apply in_app_or in H'. destruct H' as [H'|[H'|[]]]; [now apply Hnsp|discriminate].
    + replace (c_tab :: (x :: n ++ emit_args (a0 :: a)) ++ [c_lf])
        with ((c_tab :: x :: n) ++ c_sp :: (tl (emit_args (a0 :: a)) ++ [c_lf]))
        by (cbn [emit_args flat_map app tl]; fold (emit_args a); do 2 f_equal;
            rewrite <- !app_assoc; cbn [app]; now rewrite <- !app_assoc).
      rewrite split_once_sp_at by (intros [H'|H']; [discriminate|auto]).
      rewrite split_args_line by discriminate.
      cbn [trim_start]. change (is_ws c_tab) with true. cbn [trim_start]. now rewrite Hx, Hdep, Eo.
Qed.

Lemma body_lines s l rest :
  Forall wf_instr_t l ->
  exists txt, emit_body_text l = Some txt /\
    tp_run s (lines (txt ++ rest)) =
    tp_run {| t_name := t_name s; t_ibuf := t_ibuf s ++ l; t_out := t_out s |} (lines rest).
Proof.
  revert s; induction l as [|i l IH]; intros s Hwf.
  - exists []. split; [reflexivity|]. cbn [app]. rewrite app_nil_r. now destruct s.
  - inversion Hwf as [|? ? Hi Hl]; subst.
    destruct (instr_line s i Hi) as (r & Er & Hlf & Hstep).
    destruct (IH (push_i s i) Hl) as (txt & Et & Hrun).
    exists ((r ++ [c_lf]) ++ txt). split.
    + cbn [emit_body_text]. now rewrite Er, Et.
    + rewrite <- !app_assoc. cbn [app]. rewrite lines_chunk by exact Hlf.
      cbn [tp_run]. rewrite Hstep, Hrun. cbn [push_i t_name t_ibuf t_out]. now rewrite <- app_assoc.
Qed.

Lemma in_trim_end c l : In c l -> is_ws c = false -> In c (trim_end l).
Proof.
  intros Hin Hc. induction l as [|x l IH]; [contradiction|]. cbn [trim_end].
  destruct Hin as [->|Hin].
  - rewrite Hc, Bool.andb_false_r. now left.
  - specialize (IH Hin). destruct (trim_end l) eqn:E; [contradiction|]. cbn [is_nil andb]. now right.
Qed.
Lemma in_trim_start c l : In c l -> is_ws c = false -> In c (trim_start l).
Proof.
  intros Hin Hc. induction l as [|x l IH]; [contradiction|]. cbn [trim_start].
  destruct (is_ws x) eqn:Ex; [|exact Hin].
  destruct Hin as [->|Hin]; [congruence|auto].
Qed.
Lemma trim_nonempty c l : In c l -> is_ws c = false -> is_nil (trim l) = false.
Proof.
  intros Hin Hc. assert (H : In c (trim l)) by (apply in_trim_start; auto using in_trim_end).
  destruct (trim l); [contradiction|reflexivity].
Qed.

Lemma strip_prefix_app p l : strip_prefix p (p ++ l) = Some l.
Proof. induction p as [|x p IH]; [reflexivity|]. cbn [app strip_prefix]. now rewrite N.eqb_refl. Qed.

Lemma header_line s name : trim_end name = name ->
  tp_step s (s_function_sp ++ name ++ [c_lf]) = Some {| t_name := Some name; t_ibuf := t_ibuf s; t_out := t_out s |}.
Proof.
  intros H. unfold tp_step. rewrite (trim_nonempty 102) by (reflexivity || (cbn; auto)).
  now rewrite strip_prefix_app, (trim_end_fixed_app name [c_lf] H eq_refl).
Qed.

Lemma end_line s n : t_name s = Some n ->
  tp_step s (s_end ++ [c_lf]) =
  Some {| t_name := None; t_ibuf := []; t_out := t_out s ++ emit_fn {| fname := n; body := t_ibuf s |} |}.
Proof. intros H. unfold tp_step. rewrite H. reflexivity. Qed.

Lemma fn_lines out f rest :
  wf_func_t f ->
  exists txt, emit_fn_text f = Some txt /\
    tp_run {| t_name := None; t_ibuf := []; t_out := out |} (lines (txt ++ rest)) =
    tp_run {| t_name := None; t_ibuf := []; t_out := out ++ emit_fn f |} (lines rest).
Proof.
  intros (Hnul & Hlf & Htrim & Hb).
  destruct (body_lines {| t_name := Some (fname f); t_ibuf := []; t_out := out |} (body f) (s_end ++ c_lf :: rest) Hb)
    as (b & Eb & Hrun).
  exists (s_function_sp ++ fname f ++ [c_lf] ++ b ++ s_end ++ [c_lf]). split.
  - unfold emit_fn_text. now rewrite Eb.
  - rewrite <- !app_assoc.
    change (s_function_sp ++ fname f ++ [c_lf] ++ ?x) with ((s_function_sp ++ fname f) ++ c_lf :: x).
    rewrite lines_chunk by (apply not_in_app; [cbn; intuition discriminate | exact Hlf]).
    cbn [tp_run]. rewrite <- app_assoc, (header_line _ _ Htrim). cbn [t_ibuf t_out].
    change ([c_lf] ++ rest) with (c_lf :: rest). rewrite Hrun.
    rewrite lines_chunk by (cbn; intuition discriminate).
    cbn [tp_run]. rewrite (end_line _ (fname f)) by reflexivity. reflexivity.
Qed.

Lemma all_lines out fs :
  Forall wf_func_t fs ->
  exists txt, emit_text fs = Some txt /\
    tp_run {| t_name := None; t_ibuf := []; t_out := out |} (lines txt) =
    Some {| t_name := None; t_ibuf := []; t_out := out ++ emit_bin fs |}.
Proof.
  revert out; induction fs as [|f fs IH]; intros out Hwf.
  - exists []. split; [reflexivity|]. cbn. now rewrite app_nil_r.
  - inversion Hwf as [|? ? Hf Hfs]; subst.
    destruct (IH (out ++ emit_fn f) Hfs) as (t2 & E2 & R2).
    destruct (fn_lines out f t2 Hf) as (t1 & E1 & R1).
    exists (t1 ++ t2). split.
    + cbn [emit_text]. now rewrite E1, E2.
    + rewrite R1, R2. cbn [emit_bin flat_map]. now rewrite <- app_assoc.
Qed.

Theorem transpile_emits_binary : forall fs, Forall wf_func_t fs ->
  exists txt, emit_text fs = Some txt /\ transpile txt = Some (emit_bin fs).
Proof.
  intros fs Hwf. destruct (all_lines [] fs Hwf) as (txt & E & R).
  exists txt. split; [exact E|]. unfold transpile. change tp0 with {| t_name := None; t_ibuf := []; t_out := [] |}.
  now rewrite R.
Qed.

Lemma wf_t_wf f : wf_func_t f -> wf_func f.
Proof.
  intros (Hn & _ & _ & Hb). split; [exact Hn|].
  eapply Forall_impl; [|exact Hb]. intros i [Hop Ha]. split; [|exact Ha].
  destruct (op_ok_inv _ Hop) as (n & _ & _ & _ & _ & _ & _ & H0 & He). split; assumption.
Qed.

Theorem text_roundtrip : forall fs, Forall wf_func_t fs -> NoDup (names fs) ->
  exists txt bin, emit_text fs = Some txt /\ transpile txt = Some bin /\ load bin = Some fs.
Proof.
  intros fs Hwf Hnd. destruct (transpile_emits_binary fs Hwf) as (txt & E & T).
  exists txt, (emit_bin fs). repeat split; auto.
  apply file_roundtrip; [|exact Hnd]. eapply Forall_impl; [|exact Hwf]. exact wf_t_wf.
Qed.

(* the generated opcode table: every opcode but the deprecated `nop` has a usable name *)
Definition all_ops : list N := map fst opnames.
Theorem table_ok : forallb (fun o => (o =? 0) || op_ok o) all_ops = true.
Proof. vm_compute. reflexivity. Qed.
Theorem table_dense : map fst opnames = map N.of_nat (seq 0 (length opnames)).
Proof. vm_compute. reflexivity. Qed.
