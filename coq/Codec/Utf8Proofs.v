(* records_bytes / ld_step_bytes / load_bytes mirror MScriptFile::get_functions on what it really reads
   (bytes): read_until(0x00), the byte patterns, String::from_utf8 on the function name,
   String::from_utf8_lossy on the argument text, the opcode being ONE byte.  The writer writes a Rust
   String, `encode (emit_bin fs)`.  On the encoding of a scalar file whose records start with an ASCII
   character the byte-level loader does, record by record, what the scalar-level loader does on the file; so
   the round trip of Codec/Proofs.v holds on bytes.  For that opcodes must be < 128: the writer emits
   `id as char`, which is two bytes from 128 on, while the loader takes one byte. *)
From MS Require Import Codec.Model Codec.Proofs Codec.Utf8.

(* BufRead::read_until(0x00): chunks including the terminating zero byte; a last chunk without
   terminator is returned as it is *)
Fixpoint records_bytes_aux (cur : list N) (l : list N) : list (list N) :=
  match l with
  | [] => if is_nil cur then [] else [cur]
  | b :: l => if b =? 0 then (cur ++ [b]) :: records_bytes_aux [] l
              else records_bytes_aux (cur ++ [b]) l
  end.
Definition records_bytes := records_bytes_aux [].

Lemma encode_is_nil s : is_nil (encode s) = is_nil s.
Proof.
  destruct s as [|c s]; [reflexivity|]. rewrite encode_cons. cbn [is_nil].
  pose proof (encode_char_nonempty c). now destruct (encode_char c).
Qed.

Lemma records_bytes_aux_encode l : forall cur,
  records_bytes_aux (encode cur) (encode l) = map encode (records_aux cur l).
Proof.
  induction l as [|c l IH]; intros cur.
  - cbn [encode flat_map records_bytes_aux records_aux]. fold (encode cur).
    rewrite encode_is_nil. now destruct (is_nil cur).
  - rewrite encode_cons. cbn [records_aux]. destruct (N.eqb_spec c c_nul) as [->|Hc].
    + change (encode_char c_nul) with [0]. cbn [app records_bytes_aux N.eqb map].
      pose proof (IH []) as IH0. change (encode []) with (@nil N) in IH0.
      now rewrite IH0, encode_app.
    + (* [records_bytes_aux] is [split_keep 0] by conversion *)
      rewrite (split_keep_skip 0 (encode_char c)).
      * rewrite <- IH, encode_app. cbn [encode flat_map]. now rewrite app_nil_r.
      * intros H. apply (ascii_byte_char c 0) in H; [|lia]. now apply Hc.
Qed.

Theorem records_bytes_encode : forall f, records_bytes (encode f) = map encode (records f).
Proof. intros f. exact (records_bytes_aux_encode f []). Qed.

Corollary records_bytes_decode : forall f, scalars f ->
  map decode (records_bytes (encode f)) = map Some (records f).
Proof.
  intros f Hf. rewrite records_bytes_encode, map_map.
  assert (H : Forall scalars (records f)) by (apply split_keep_Forall; [constructor|exact Hf]).
  induction H as [|r rs Hr Hrs IH]; [reflexivity|]. cbn [map]. now rewrite decode_encode, IH.
Qed.

Definition ld_step_bytes (s : ld) (rec : list N) : option ld :=
  match split_last rec with
  | None => None
  | Some (b, z) =>
    if negb (z =? 0) then None else
    match b with
    | c0 :: c1 :: name =>
      if (c0 =? 102) && (c1 =? 32) && negb (in_fn s) then        (* [b'f', b' ', name @ .., 0] *)
        match decode name with                                  (* String::from_utf8(name)? *)
        | Some n => Some {| in_fn := true; cur_name := Some n; ibuf := []; fns := fns s |}
        | None => None end
      else if (c0 =? 101) && in_fn s then                        (* [b'e', .., 0] *)
        match cur_name s with
        | Some n => Some {| in_fn := false; cur_name := None; ibuf := [];
                            fns := insert_fn {| fname := n; body := ibuf s |} (fns s) |}
        | None => None end
      else if (c1 =? 32) && in_fn s then                         (* [instruction, b' ', args @ .., 0] *)
        match split true (decode_lossy name) with               (* split_string(from_utf8_lossy(args))? *)
        | Some a => Some {| in_fn := true; cur_name := cur_name s;
                            ibuf := ibuf s ++ [{| op := c0; args := a |}]; fns := fns s |}
        | None => None end
      else None
    | [c0] =>
      if (c0 =? 101) && in_fn s then                             (* [b'e', 0] *)
        match cur_name s with
        | Some n => Some {| in_fn := false; cur_name := None; ibuf := [];
                            fns := insert_fn {| fname := n; body := ibuf s |} (fns s) |}
        | None => None end
      else if in_fn s then                                       (* [instruction, 0] *)
        Some {| in_fn := true; cur_name := cur_name s;
                ibuf := ibuf s ++ [{| op := c0; args := [] |}]; fns := fns s |}
      else None
    | [] => None
    end
  end.

Fixpoint ld_run_bytes (s : ld) (rs : list (list N)) : option ld :=
  match rs with
  | [] => Some s
  | r :: rs => match ld_step_bytes s r with Some s' => ld_run_bytes s' rs | None => None end
  end.

Definition load_bytes (file : list N) : option (list func) :=
  match ld_run_bytes ld0 (records_bytes file) with Some s => Some (fns s) | None => None end.

(* `f`, `e`, or an opcode < 128 *)
Definition ascii_head (r : str) : Prop := match r with c :: _ => c < 128 | [] => True end.

Lemma encode_char_last c : c <> 0 -> exists p z, encode_char c = p ++ [z] /\ z <> 0.
Proof.
  intros Hc. destruct (exists_last (encode_char_nonempty c)) as (p & z & E).
  exists p, z. split; [exact E|]. intros ->.
  assert (H : In 0 (encode_char c)) by (rewrite E; apply in_or_app; right; now left).
  apply ascii_byte_char in H; [|lia]. now apply Hc.
Qed.

Lemma encode_char_first c : 128 <= c -> exists b t, encode_char c = b :: t /\ 128 <= b.
Proof.
  intros Hc. pose proof (encode_char_high c Hc) as Hf. pose proof (encode_char_nonempty c) as Hn.
  destruct (encode_char c) as [|b t]; [congruence|]. exists b, t. split; [reflexivity|].
  now inversion Hf.
Qed.

Lemma ld_step_bytes_encode s r :
  scalars r -> ascii_head r -> ld_step_bytes s (encode r) = ld_step s r.
Proof.
  intros Hr Ha. unfold ld_step_bytes, ld_step.
  destruct (split_last r) as [[b z]|] eqn:E.
  2:{ apply split_last_none in E. subst r. reflexivity. }
  apply split_last_some in E. subst r. rewrite encode_app. cbn [encode flat_map]. rewrite app_nil_r.
  apply Forall_app in Hr as [Hb _].
  destruct (N.eqb_spec z c_nul) as [->|Hz].
  2:{ destruct (encode_char_last z Hz) as (p & y & Ep & Hy). rewrite Ep, app_assoc, split_last_snoc.
      now replace (y =? 0) with false by lia. }
  change (encode_char c_nul) with [0]. rewrite split_last_snoc. cbn [N.eqb negb].
  destruct b as [|c0 [|c1 name]].
  - reflexivity.
  - cbn [app ascii_head] in Ha. cbn [encode flat_map]. rewrite encode_char_ascii by exact Ha.
    reflexivity.
  - cbn [app ascii_head] in Ha. rewrite !encode_cons, (encode_char_ascii c0 Ha). cbn [app].
    inversion Hb as [|? ? _ Hb1]; subst. inversion Hb1 as [|? ? _ Hn]; subst.
    destruct (N.lt_ge_cases c1 128) as [H1|H1].
    + rewrite (encode_char_ascii c1 H1). cbn [app].
      rewrite (decode_encode name Hn), (decode_lossy_encode name Hn). reflexivity.
    + (* neither c1 nor the first byte of its encoding is a space: both loaders take the same branch, one
         that does not look at the rest of the record *)
      destruct (encode_char_first c1 H1) as (b1 & t & E1 & Hb1'). rewrite E1. cbn [app].
      replace (b1 =? 32) with false by lia. replace (c1 =? c_sp) with false by (unfold c_sp; lia).
      rewrite !Bool.andb_false_r. cbn [andb]. reflexivity.
Qed.

Lemma ld_run_bytes_encode rs : forall s,
  Forall scalars rs -> Forall ascii_head rs -> ld_run_bytes s (map encode rs) = ld_run s rs.
Proof.
  induction rs as [|r rs IH]; intros s Hs Ha; [reflexivity|].
  inversion Hs; inversion Ha; subst. cbn [map ld_run_bytes ld_run].
  rewrite ld_step_bytes_encode by assumption. destruct (ld_step s r); [now apply IH|reflexivity].
Qed.

Theorem load_bytes_encode : forall f,
  Forall scalars (records f) -> Forall ascii_head (records f) -> load_bytes (encode f) = load f.
Proof.
  intros f Hs Ha. unfold load_bytes, load. now rewrite records_bytes_encode, ld_run_bytes_encode.
Qed.

(* what the byte level adds to wf_func: names and arguments are Rust Strings (scalar sequences),
   and the opcode is written as ONE byte *)
Definition wf_instr_b (i : instr) : Prop := op i < 128 /\ Forall scalars (args i).
Definition wf_func_b (f : func) : Prop := scalars (fname f) /\ Forall wf_instr_b (body f).

Lemma instr_rec_scalars i : wf_instr_b i -> scalars (emit_instr_rec i).
Proof.
  intros [Ho Ha]. constructor; [unfold scalar; lia|]. apply emit_args_keeps; [now repeat split | exact Ha].
Qed.

Theorem emit_bin_scalars : forall fs, Forall wf_func_b fs -> scalars (emit_bin fs).
Proof.
  induction 1 as [|f fs [Hn Hb] Hfs IH]; [constructor|]. cbn [emit_bin flat_map].
  apply Forall_app. split; [|exact IH]. unfold emit_fn. rewrite !Forall_app. repeat split.
  - now repeat constructor.
  - exact Hn.
  - now repeat constructor.
  - apply Forall_flat_map. eapply Forall_impl; [|exact Hb]. intros i Hi.
    change (emit_instr i) with (emit_instr_rec i ++ [c_nul]).
    apply Forall_app. split; [now apply instr_rec_scalars|now repeat constructor].
  - now repeat constructor.
Qed.

Lemma fn_records_ascii f : wf_func_b f -> Forall ascii_head (fn_records f).
Proof.
  intros [_ Hb]. unfold fn_records. constructor; [reflexivity|]. apply Forall_app. split; [|now repeat constructor].
  apply Forall_map. eapply Forall_impl; [|exact Hb]. intros i [Ho _]. exact Ho.
Qed.

Theorem file_roundtrip_bytes : forall fs : list func,
  Forall wf_func fs -> Forall wf_func_b fs -> NoDup (names fs) ->
  load_bytes (encode (emit_bin fs)) = Some fs.
Proof.
  intros fs Hwf Hb Hnd. rewrite load_bytes_encode.
  - now apply file_roundtrip.
  - apply split_keep_Forall; [constructor | exact (emit_bin_scalars fs Hb)].
  - rewrite records_emit_bin by exact Hwf. apply Forall_flat_map.
    eapply Forall_impl; [|exact Hb]. exact fn_records_ascii.
Qed.

(* why `op < 128` is needed: an opcode from 128 on is written as two bytes and the byte-level
   loader no longer reads the record the scalar-level model reads *)
Example op_128_differs :
  let s := {| in_fn := true; cur_name := Some [97]; ibuf := []; fns := [] |} in
  ld_step s [200; c_nul] <> ld_step_bytes s (encode [200; c_nul]).
Proof. vm_compute. discriminate. Qed.
