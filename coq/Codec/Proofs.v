(* C04: the tokenizer reads back the argument list the writer wrote and the loader the functions it wrote,
   for all argument lists and all files of well-formed functions *)
From MS Require Import Base.StrFacts Codec.Model.

Definition st_q (b : str) (a : list str) : tk := {| inq := true; esc := false; buf := b; acc := a |}.
Definition st_o (a : list str) : tk := {| inq := false; esc := false; buf := []; acc := a |}.

Lemma tk_run_app multi s l1 l2 :
  tk_run multi s (l1 ++ l2) =
  match tk_run multi s l1 with Some s' => tk_run multi s' l2 | None => None end.
Proof.
  revert s; induction l1 as [|c l1 IH]; intros s; cbn [tk_run app]; [reflexivity|].
  destruct (tk_step multi s c); [apply IH|reflexivity].
Qed.

Lemma esc_char_read multi b a c :
  tk_run multi (st_q b a) (esc_char c) = Some (st_q (b ++ [c]) a).
Proof.
  unfold esc_char.
  destruct (N.eqb_spec c c_bs) as [->|Hbs]; [reflexivity|].
  destruct (N.eqb_spec c c_dq) as [->|Hdq]; [reflexivity|].
  destruct (N.eqb_spec c c_lf) as [->|Hlf]; [reflexivity|].
  destruct (N.eqb_spec c c_cr) as [->|Hcr]; [reflexivity|].
  destruct (N.eqb_spec c c_tab) as [->|Htab]; [reflexivity|].
  cbn [tk_run tk_step st_q inq esc buf acc negb andb].
  destruct (N.eqb_spec c c_bs); [contradiction|].
  destruct (N.eqb_spec c c_dq); [contradiction|]. reflexivity.
Qed.

Lemma escape_read multi b a s :
  tk_run multi (st_q b a) (escape s) = Some (st_q (b ++ s) a).
Proof.
  revert b; induction s as [|c s IH]; intros b; cbn [escape flat_map].
  - now rewrite app_nil_r.
  - rewrite tk_run_app, esc_char_read. fold (escape s). rewrite IH.
    now rewrite <- app_assoc.
Qed.

Lemma quote_read a s : tk_run true (st_o a) (quote s) = Some (st_o (a ++ [s])).
Proof.
  unfold quote. cbn [tk_run].
  replace (tk_step true (st_o a) c_dq) with (Some (st_q [] a)) by reflexivity.
  rewrite tk_run_app, escape_read. reflexivity.
Qed.

Lemma emit_args_read a l : tk_run true (st_o a) (emit_args l) = Some (st_o (a ++ l)).
Proof.
  revert a; induction l as [|s l IH]; intros a; cbn [emit_args flat_map].
  - now rewrite app_nil_r.
  - cbn [app tk_run]. replace (tk_step true (st_o a) c_sp) with (Some (st_o a)) by reflexivity.
    rewrite tk_run_app, quote_read. fold (emit_args l). rewrite IH.
    now rewrite <- app_assoc.
Qed.

(* the loader hands the tokenizer everything after the opcode and ONE space; the text transpiler the
   same with the rest [w] of the line after it *)
Lemma emit_args_tail_read l w :
  l <> [] -> tk_run true tk0 (tl (emit_args l) ++ w) = tk_run true (st_o l) w.
Proof.
  intros H. destruct l as [|s l]; [contradiction|]. cbn [emit_args flat_map app tl]. fold (emit_args l).
  change tk0 with (st_o []). now rewrite <- app_assoc, tk_run_app, quote_read, tk_run_app, emit_args_read.
Qed.

Theorem args_roundtrip : forall l : list str, l <> [] -> split true (tl (emit_args l)) = Some l.
Proof.
  intros l H. unfold split. rewrite <- (app_nil_r (tl (emit_args l))), (emit_args_tail_read l [] H).
  now destruct l.
Qed.

(* the compiler decodes a string literal in the single-target mode (compiler/src/ast/string.rs:
   split_string_v2 of the quoted source text, false); that mode too reads back what the writer wrote *)
Lemma split_false_quote s : split false (quote s) = Some [s].
Proof.
  unfold split, quote. cbn [tk_run].
  replace (tk_step false tk0 c_dq) with (Some (st_q [] [])) by reflexivity.
  rewrite tk_run_app, escape_read. now destruct s.
Qed.

Theorem quote_roundtrip_single : forall s : str, split false (quote s) = Some [s] \/ s = [].
Proof. intros s. left. apply split_false_quote. Qed.

Definition nul_free (s : str) : Prop := ~ In c_nul s.

Lemma not_in_Forall {A} (c : A) l : ~ In c l <-> Forall (fun x => x <> c) l.
Proof.
  rewrite Forall_forall. split; [intros H x Hx ->; exact (H Hx) | intros H Hc; exact (H c Hc eq_refl)].
Qed.

(* [P] holds of the characters the writer adds.  A line feed of the source is replaced, so nothing is
   asked of it below. *)
Definition writer_ok (P : N -> Prop) : Prop := P c_bs /\ P c_dq /\ P c_n /\ P c_r /\ P c_t /\ P c_sp.

Lemma esc_char_Forall P c : writer_ok P -> (c <> c_lf -> P c) -> Forall P (esc_char c).
Proof.
  intros (Hbs & Hdq & Hn & Hr & Ht & _) Hc. unfold esc_char.
  destruct (N.eqb_spec c c_bs) as [->|]; [now repeat constructor|].
  destruct (N.eqb_spec c c_dq) as [->|]; [now repeat constructor|].
  destruct (N.eqb_spec c c_lf); [now repeat constructor|].
  destruct (c =? c_cr); [now repeat constructor|]. destruct (c =? c_tab); repeat constructor; auto.
Qed.

Lemma escape_Forall P s : writer_ok P -> Forall (fun c => c <> c_lf -> P c) s -> Forall P (escape s).
Proof.
  intros W. induction 1 as [|c s Hc Hs IH]; [constructor|]. cbn [escape flat_map].
  apply Forall_app. split; [now apply esc_char_Forall|exact IH].
Qed.

Lemma emit_args_Forall P l :
  writer_ok P -> Forall (Forall (fun c => c <> c_lf -> P c)) l -> Forall P (emit_args l).
Proof.
  intros W. pose proof W as (_ & Hdq & _ & _ & _ & Hsp).
  induction 1 as [|a l Ha Hl IH]; [constructor|]. cbn [emit_args flat_map]. fold (emit_args l).
  constructor; [exact Hsp|]. apply Forall_app. split; [|exact IH].
  constructor; [exact Hdq|]. apply Forall_app. split; [now apply escape_Forall|now repeat constructor].
Qed.

Lemma emit_args_keeps P l : writer_ok P -> Forall (Forall P) l -> Forall P (emit_args l).
Proof.
  intros W H. apply emit_args_Forall; [exact W|].
  eapply Forall_impl; [|exact H]. intros s. apply Forall_impl. auto.
Qed.

Lemma emit_args_nul_free l : Forall nul_free l -> nul_free (emit_args l).
Proof.
  intros H. apply not_in_Forall, emit_args_keeps; [repeat split; discriminate|].
  eapply Forall_impl; [|exact H]. intros s. apply not_in_Forall.
Qed.

(* [records] of the loader (read_until) is [split_keep c_nul []] and [lines] of the transpiler is
   [split_keep c_lf []], both by conversion *)
Definition split_keep (sep : N) : str -> str -> list str :=
  fix go (cur l : str) : list str :=
    match l with
    | [] => if is_nil cur then [] else [cur]
    | c :: l => if c =? sep then (cur ++ [c]) :: go [] l else go (cur ++ [c]) l
    end.

Lemma split_keep_skip sep r : ~ In sep r -> forall cur rest,
  split_keep sep cur (r ++ rest) = split_keep sep (cur ++ r) rest.
Proof.
  rewrite not_in_Forall. induction 1 as [|c r Hc Hr IH]; intros cur rest; cbn [app split_keep].
  - now rewrite app_nil_r.
  - destruct (N.eqb_spec c sep); [contradiction|]. now rewrite IH, <- app_assoc.
Qed.

Lemma split_keep_chunk sep cur r rest :
  ~ In sep r -> split_keep sep cur (r ++ sep :: rest) = (cur ++ r ++ [sep]) :: split_keep sep [] rest.
Proof. intros H. rewrite (split_keep_skip sep r H). cbn [split_keep]. now rewrite N.eqb_refl, app_assoc. Qed.

Lemma split_keep_Forall (P : N -> Prop) sep l : forall cur,
  Forall P cur -> Forall P l -> Forall (Forall P) (split_keep sep cur l).
Proof.
  induction l as [|c l IH]; intros cur Hcur Hl; cbn [split_keep].
  - destruct (is_nil cur); repeat constructor; exact Hcur.
  - inversion Hl as [|? ? Hc Hl']; subst.
    assert (Forall P (cur ++ [c])) by (apply Forall_app; split; [exact Hcur|now constructor]).
    destruct (c =? sep); [constructor; [assumption|apply IH; [constructor|assumption]]|now apply IH].
Qed.

Lemma records_chunk r rest :
  nul_free r -> records (r ++ c_nul :: rest) = (r ++ [c_nul]) :: records rest.
Proof. intros H. exact (split_keep_chunk c_nul [] r rest H). Qed.

Lemma split_last_snoc l c : split_last (l ++ [c]) = Some (l, c).
Proof.
  induction l as [|x l IH]; [reflexivity|].
  cbn [app split_last]. rewrite IH. now destruct l.
Qed.

Lemma split_last_some l b z : split_last l = Some (b, z) -> l = b ++ [z].
Proof.
  destruct l as [|x l _] using rev_ind; [discriminate|]. rewrite split_last_snoc. now intros [= <- <-].
Qed.

Lemma split_last_none l : split_last l = None -> l = [].
Proof. destruct l as [|x l _] using rev_ind; [reflexivity|]. now rewrite split_last_snoc. Qed.

(* what the format can carry: it reserves two opcode characters, NUL terminates a record, `e` ends a function *)
Definition wf_op (o : N) : Prop := o <> c_nul /\ o <> c_e.
Definition wf_instr (i : instr) : Prop := wf_op (op i) /\ Forall nul_free (args i).
Definition wf_func (f : func) : Prop := nul_free (fname f) /\ Forall wf_instr (body f).

Definition emit_instr_rec (i : instr) : str := op i :: emit_args (args i).

Definition fn_records (f : func) : list str :=
  ([c_f; c_sp] ++ fname f ++ [c_nul])
  :: map (fun i => emit_instr_rec i ++ [c_nul]) (body f) ++ [[c_e; c_nul]].

Lemma instr_rec_nul_free i : wf_instr i -> nul_free (emit_instr_rec i).
Proof.
  intros [[Ho _] Ha] [H|H]; [now apply Ho|]. now apply (emit_args_nul_free (args i) Ha).
Qed.

Lemma records_body l rest :
  Forall wf_instr l ->
  records (flat_map emit_instr l ++ rest) = map (fun i => emit_instr_rec i ++ [c_nul]) l ++ records rest.
Proof.
  induction 1 as [|i l Hi Hl IH]; [reflexivity|]. cbn [flat_map map].
  change (emit_instr i) with (emit_instr_rec i ++ [c_nul]). rewrite <- !app_assoc. cbn [app].
  now rewrite records_chunk, IH by now apply instr_rec_nul_free.
Qed.

Lemma records_emit_fn f rest :
  wf_func f -> records (emit_fn f ++ rest) = fn_records f ++ records rest.
Proof.
  intros [Hn Hb]. unfold emit_fn, fn_records. rewrite <- !app_assoc.
  change ([c_f; c_sp] ++ fname f ++ [c_nul] ++ ?x) with (([c_f; c_sp] ++ fname f) ++ c_nul :: x).
  rewrite records_chunk by (intros [H|[H|H]]; [discriminate..|exact (Hn H)]).
  rewrite records_body by exact Hb.
  change ([c_e; c_nul] ++ rest) with ([c_e] ++ c_nul :: rest).
  rewrite records_chunk by (intros [H|[]]; discriminate).
  cbn [app]. now rewrite <- !app_assoc.
Qed.

Lemma records_emit_bin fs : Forall wf_func fs -> records (emit_bin fs) = flat_map fn_records fs.
Proof.
  induction 1 as [|f fs Hf Hfs IH]; [reflexivity|]. cbn [emit_bin flat_map].
  rewrite records_emit_fn by exact Hf. fold (emit_bin fs). now rewrite IH.
Qed.

Lemma ld_run_app s r1 r2 :
  ld_run s (r1 ++ r2) = match ld_run s r1 with Some s' => ld_run s' r2 | None => None end.
Proof.
  revert s; induction r1 as [|r r1 IH]; intros s; cbn [ld_run app]; [reflexivity|].
  destruct (ld_step s r); [apply IH|reflexivity].
Qed.

Lemma ld_instr s i :
  wf_instr i -> in_fn s = true ->
  ld_step s (emit_instr_rec i ++ [c_nul]) =
  Some {| in_fn := true; cur_name := cur_name s; ibuf := ibuf s ++ [i]; fns := fns s |}.
Proof.
  intros [[_ Ho] Ha] Hin. apply N.eqb_neq in Ho. destruct i as [o a]; cbn [op args] in *.
  unfold ld_step, emit_instr_rec. rewrite split_last_snoc. cbn [op args].
  destruct a as [|x a].
  - cbn [emit_args flat_map]. rewrite Ho, Hin. reflexivity.
  - (* opcode, ONE space, and what the tokenizer is handed *)
    change (emit_args (x :: a)) with (c_sp :: tl (emit_args (x :: a))).
    rewrite Hin, Ho, N.eqb_refl, Bool.andb_false_r, args_roundtrip by discriminate. reflexivity.
Qed.

Lemma ld_body l : forall s, Forall wf_instr l -> in_fn s = true ->
  ld_run s (map (fun i => emit_instr_rec i ++ [c_nul]) l) =
  Some {| in_fn := true; cur_name := cur_name s; ibuf := ibuf s ++ l; fns := fns s |}.
Proof.
  induction l as [|i l IH]; intros s Hwf Hin; cbn [map ld_run].
  - rewrite app_nil_r. destruct s; cbn in *; now subst.
  - inversion Hwf as [|? ? Hi Hl]; subst. rewrite ld_instr, IH by auto.
    cbn [cur_name ibuf fns]. now rewrite <- app_assoc.
Qed.

Definition names (fs : list func) := map fname fs.

Lemma insert_fresh f fs : ~ In (fname f) (names fs) -> insert_fn f fs = fs ++ [f].
Proof.
  intros H. unfold insert_fn. f_equal. induction fs as [|g fs IH]; [reflexivity|].
  cbn [filter]. destruct (str_eqb (fname g) (fname f)) eqn:E.
  - apply str_eqb_eq in E. exfalso. apply H. left. exact E.
  - cbn [negb]. f_equal. apply IH. intros H'. apply H. now right.
Qed.

Lemma ld_fn done f :
  wf_func f -> ~ In (fname f) (names done) ->
  ld_run {| in_fn := false; cur_name := None; ibuf := []; fns := done |} (fn_records f) =
  Some {| in_fn := false; cur_name := None; ibuf := []; fns := done ++ [f] |}.
Proof.
  intros [Hn Hb] Hfresh. unfold fn_records. cbn [ld_run].
  unfold ld_step at 1. rewrite app_assoc, split_last_snoc. cbn.
  rewrite ld_run_app, ld_body by auto. cbn -[insert_fn].
  rewrite insert_fresh by exact Hfresh. now destruct f.
Qed.

Lemma ld_all fs : forall done,
  Forall wf_func fs -> NoDup (names (done ++ fs)) ->
  ld_run {| in_fn := false; cur_name := None; ibuf := []; fns := done |} (flat_map fn_records fs) =
  Some {| in_fn := false; cur_name := None; ibuf := []; fns := done ++ fs |}.
Proof.
  induction fs as [|f fs IH]; intros done Hwf Hnd; cbn [flat_map].
  - now rewrite app_nil_r.
  - inversion Hwf as [|? ? Hf Hfs]; subst.
    rewrite ld_run_app, ld_fn, IH; rewrite <- ?app_assoc; auto.
    unfold names in *. rewrite map_app in Hnd. apply NoDup_remove_2 in Hnd.
    intros H. apply Hnd, in_or_app. now left.
Qed.

Theorem file_roundtrip : forall fs : list func,
  Forall wf_func fs -> NoDup (names fs) -> load (emit_bin fs) = Some fs.
Proof.
  intros fs Hwf Hnd. unfold load, ld0. now rewrite records_emit_bin, (ld_all fs [] Hwf Hnd).
Qed.
