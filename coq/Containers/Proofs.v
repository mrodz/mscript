(* C13 -- the impl-model of the containers (Model.v, fixed behaviour) refines the specification (Spec.v) on every
   operation history the latter is defined on: a relation R between the model's heap and the specification's state
   that every operation preserves while both compute related results.  What the specification takes for granted
   about identities is proved of the model alone: two names of one container cannot be told apart, an operation
   writes its receiver only, a clone and its original are independent. *)
From MS Require Import Base.StrFacts Containers.Model Containers.Spec.
From Coq Require Import Permutation.

Local Open Scope N_scope.

Lemma key_eqb_eq : forall a b, key_eqb a b = true <-> a = b.
Proof.
  destruct a, b; cbn [key_eqb]; rewrite ?Z.eqb_eq, ?str_eqb_eq; split; intro H; congruence.
Qed.

Lemma key_eqb_spec : forall a b, reflect (a = b) (key_eqb a b).
Proof. intros a b. apply iff_reflect. symmetry. apply key_eqb_eq. Qed.

Lemma key_eqb_neq : forall a b, a <> b -> key_eqb a b = false.
Proof. intros a b H. destruct (key_eqb_spec a b); [contradiction | reflexivity]. Qed.

Lemma bind_ret : forall A (r : res A), (do x <- r; Ok x) = r.
Proof. intros A [a|e]; reflexivity. Qed.

Lemma bind_assoc : forall A B C (r : res A) (f : A -> res B) (g : B -> res C),
  (do y <- (do x <- r; f x); g y) = (do x <- r; do y <- f x; g y).
Proof. intros A B C [a|e] f g; reflexivity. Qed.

Definition undef (f : fail) : Prop := match f with Stuck | Fuel | Range => True | Err | Panic => False end.

(* where the specification is not defined nothing is asked of the model *)
Definition rsim {A B} (P : A -> B -> Prop) (r : res A) (r' : res B) : Prop :=
  match r' with
  | Ok b => exists a, r = Ok a /\ P a b
  | Fail e => undef e \/ r = Fail e
  end.

Lemma rsim_ok : forall A B (P : A -> B -> Prop) a b, P a b -> rsim P (Ok a) (Ok b).
Proof. intros A B P a b H. exists a. auto. Qed.

Lemma rsim_bind : forall A B C D (P : A -> B -> Prop) (Q : C -> D -> Prop) r r' k k',
  rsim P r r' -> (forall a b, P a b -> rsim Q (k a) (k' b)) -> rsim Q (bind r k) (bind r' k').
Proof.
  intros A B C D P Q r r' k k' H Hk. destruct r' as [b|e]; cbn [rsim bind] in *.
  - destruct H as [a [-> Hab]]. apply Hk. exact Hab.
  - destruct H as [H| ->]; [left; exact H | right; reflexivity].
Qed.

Lemma rsim_bind_same : forall A C D (Q : C -> D -> Prop) (r : res A) k k',
  (forall a, r = Ok a -> rsim Q (k a) (k' a)) -> rsim Q (bind r k) (bind r k').
Proof. intros A C D Q [a|e] k k' H; [apply H; reflexivity | right; reflexivity]. Qed.

Lemma rsim_spec_bind : forall B C D (Q : C -> D -> Prop) r (r' : res B) k',
  (forall e, r' = Fail e -> undef e) -> (forall b, r' = Ok b -> rsim Q r (k' b)) -> rsim Q r (bind r' k').
Proof. intros B C D Q r [b|e] k' Hf Hk; [apply Hk; reflexivity | left; apply Hf; reflexivity]. Qed.

Lemma hget_hset : forall h l c l', hget (hset h l c) l' = if l =? l' then Some c else hget h l'.
Proof. reflexivity. Qed.

Lemma hget_hset_same : forall h l c, hget (hset h l c) l = Some c.
Proof. intros h l c. rewrite hget_hset, N.eqb_refl. reflexivity. Qed.

Lemma hget_hset_other : forall h l c l', l <> l' -> hget (hset h l c) l' = hget h l'.
Proof. intros h l c l' H. rewrite hget_hset. apply N.eqb_neq in H. rewrite H. reflexivity. Qed.

Lemma upd_same : forall A (f : N -> option A) l a, upd f l a l = Some a.
Proof. intros A f l a. unfold upd. rewrite N.eqb_refl. reflexivity. Qed.

Lemma upd_other : forall A (f : N -> option A) l a l', l <> l' -> upd f l a l' = f l'.
Proof. intros A f l a l' H. unfold upd. apply N.eqb_neq in H. rewrite H. reflexivity. Qed.

Definition wf (st : state) : Prop := forall l, next st <= l -> hget (hp st) l = None.

Lemma wf0 : wf st0.
Proof. intros l _. reflexivity. Qed.

Lemma wf_lt : forall st l c, wf st -> hget (hp st) l = Some c -> l < next st.
Proof.
  intros st l c H Hg. destruct (N.ltb_spec l (next st)) as [Hl|Hl]; [exact Hl|]. rewrite (H l Hl) in Hg. discriminate.
Qed.

Lemma wf_alloc : forall st x c, wf st -> wf (alloc st x c).
Proof.
  intros st x c H l Hl. cbn [alloc hp next] in *. rewrite hget_hset_other by lia. apply H. lia.
Qed.

Lemma wf_upd : forall st l c0 c, wf st -> hget (hp st) l = Some c0 -> wf (set_hp st (hset (hp st) l c)).
Proof.
  intros st l c0 c H Hg l' Hl. cbn [set_hp hp next] in *. pose proof (wf_lt _ _ _ H Hg).
  rewrite hget_hset_other by lia. apply H. exact Hl.
Qed.

Lemma in_i32_bounds : forall i, in_i32 i = true -> (-2147483648 <= i <= 2147483647)%Z.
Proof. unfold in_i32, i32_min, i32_max. intros i H. apply andb_true_iff in H. lia. Qed.

(* the bounds check of `[i]` is the specification's 0 <= i < len: a negative int wraps above isize::MAX *)
Lemma vec_index_get : forall xs i, vec_index xs i = (do _ <- seq_get xs i; Ok (Z.to_nat i)).
Proof.
  intros xs i. unfold vec_index, seq_get. destruct (in_i32 i) eqn:Hi; cbn [negb]; [|reflexivity].
  apply in_i32_bounds in Hi. unfold in_range, as_usize, two64, isize_max. rewrite Z.geb_leb, Z.leb_antisym.
  destruct (i <? 0)%Z eqn:Hn.
  - replace (0 <=? i)%Z with false by lia.
    replace (9223372036854775807 <? 18446744073709551616 + i)%Z with true by lia. rewrite orb_true_r. reflexivity.
  - replace (0 <=? i)%Z with true by lia. replace (9223372036854775807 <? i)%Z with false by lia.
    rewrite orb_false_r. destruct (i <? Z.of_nat (length xs))%Z; reflexivity.
Qed.

Lemma in_range_lt : forall xs i, in_range xs i = true -> (Z.to_nat i < length xs)%nat.
Proof. unfold in_range. intros xs i H. apply andb_true_iff in H. lia. Qed.

Lemma seq_get_lt : forall xs i x, seq_get xs i = Ok x -> (Z.to_nat i < length xs)%nat.
Proof.
  unfold seq_get. intros xs i x H. destruct (negb (in_i32 i)); [discriminate|].
  destruct (in_range xs i) eqn:Hr; [apply in_range_lt; exact Hr | discriminate].
Qed.

Lemma vec_at_lt : forall xs n, (n < length xs)%nat -> vec_at xs n = Ok (nth n xs VNil).
Proof. intros xs n H. unfold vec_at. rewrite (nth_error_nth' _ VNil H). reflexivity. Qed.

Lemma bind_index : forall A (k : nat -> val -> res A) xs i,
  (do n <- vec_index xs i; do x <- vec_at xs n; k n x) = (do x <- seq_get xs i; k (Z.to_nat i) x).
Proof.
  intros A k xs i. rewrite vec_index_get. unfold seq_get. destruct (negb (in_i32 i)); [reflexivity|].
  destruct (in_range xs i) eqn:Hr; [|reflexivity]. cbn [bind]. rewrite (vec_at_lt _ _ (in_range_lt _ _ Hr)). reflexivity.
Qed.

Lemma index_get : forall xs i, (do n <- vec_index xs i; vec_at xs n) = seq_get xs i.
Proof.
  intros xs i. rewrite <- (bind_ret _ (seq_get xs i)), <- (bind_index _ (fun _ x => Ok x)).
  destruct (vec_index xs i); cbn [bind]; [|reflexivity]. rewrite bind_ret. reflexivity.
Qed.

(* the guards of `remove`: `try_into` for the sign, then the length *)
Lemma remove_guards : forall A (f : fail) xs i (k : res A),
  (if negb (in_i32 i) then Fail Stuck
   else if (i <? 0)%Z then Fail Err
   else if (i >=? Z.of_nat (length xs))%Z then Fail f else k) =
  (if negb (in_i32 i) then Fail Stuck
   else if in_range xs i then k else Fail (if (0 <=? i)%Z then f else Err)).
Proof.
  intros A f xs i k. unfold in_range. rewrite Z.geb_leb, Z.leb_antisym, (Z.ltb_antisym 0 i).
  destruct (negb (in_i32 i)), (0 <=? i)%Z, (i <? Z.of_nat (length xs))%Z; reflexivity.
Qed.

Lemma vec_set_at_spec : forall xs n x, (n < length xs)%nat ->
  vec_set_at xs n x = firstn n xs ++ x :: skipn (S n) xs.
Proof.
  induction xs as [|y xs IH]; intros n x H; cbn [length] in H; [lia|].
  destruct n as [|n]; cbn [vec_set_at firstn skipn app]; [reflexivity|].
  rewrite IH by lia. reflexivity.
Qed.

Lemma vec_remove_at_spec : forall xs n, (n < length xs)%nat ->
  vec_remove_at xs n = firstn n xs ++ skipn (S n) xs.
Proof.
  induction xs as [|y xs IH]; intros n H; cbn [length] in H; [lia|].
  destruct n as [|n]; cbn [vec_remove_at firstn skipn app]; [reflexivity|].
  rewrite IH by lia. reflexivity.
Qed.

Lemma skipn_nth_cons : forall (xs : list val) n, (n < length xs)%nat -> skipn n xs = nth n xs VNil :: skipn (S n) xs.
Proof.
  induction xs as [|y xs IH]; intros [|n] H; cbn [length] in H; try lia; [reflexivity|].
  apply (IH n). lia.
Qed.

Lemma map_loop_spec : forall lk f xs fuel idx acc,
  (idx < length xs)%nat -> (length xs - idx <= fuel)%nat ->
  map_loop fuel lk f xs idx acc = do ys <- seq_map lk f (skipn idx xs); Ok (acc ++ ys).
Proof.
  intros lk f xs. induction fuel as [|fuel IH]; intros idx acc Hi Hf; [lia|].
  cbn [map_loop]. rewrite (vec_at_lt _ _ Hi), (skipn_nth_cons _ _ Hi). cbn [bind seq_map].
  destruct (apply_fn lk f (nth idx xs VNil)) as [y|e]; cbn [bind]; [|reflexivity].
  destruct (Nat.ltb (S idx) (length xs)) eqn:Hl.
  - apply Nat.ltb_lt in Hl. rewrite IH by lia.
    destruct (seq_map lk f (skipn (S idx) xs)) as [ys|e]; cbn [bind]; [|reflexivity].
    rewrite <- app_assoc. reflexivity.
  - apply Nat.ltb_ge in Hl. rewrite skipn_all2 by lia. reflexivity.
Qed.

Lemma vec_map_spec : forall lk f xs, vec_map false lk f xs = seq_map lk f xs.
Proof.
  intros lk f xs. unfold vec_map. cbn [negb andb]. destruct xs as [|x xs]; [reflexivity|].
  cbn [is_nil]. rewrite map_loop_spec by (cbn [length]; lia). apply bind_ret.
Qed.

Lemma filter_loop_spec : forall lk p xs fuel idx acc,
  (idx < length xs)%nat -> (length xs - idx <= fuel)%nat ->
  filter_loop fuel lk p xs idx acc = do ys <- seq_filter lk p (skipn idx xs); Ok (acc ++ ys).
Proof.
  intros lk p xs. induction fuel as [|fuel IH]; intros idx acc Hi Hf; [lia|].
  cbn [filter_loop]. rewrite (vec_at_lt _ _ Hi), (skipn_nth_cons _ _ Hi). cbn [bind seq_filter].
  destruct (apply_pred lk p (nth idx xs VNil)) as [b|e]; cbn [bind]; [|reflexivity].
  destruct (Nat.ltb (S idx) (length xs)) eqn:Hl.
  - apply Nat.ltb_lt in Hl. destruct b; cbn [bind]; rewrite IH by lia;
      destruct (seq_filter lk p (skipn (S idx) xs)) as [ys|e]; cbn [bind]; try reflexivity.
    rewrite <- app_assoc. reflexivity.
  - apply Nat.ltb_ge in Hl. rewrite skipn_all2 by lia. destruct b; cbn [seq_filter bind]; rewrite ?app_nil_r; reflexivity.
Qed.

Lemma vec_filter_spec : forall lk p xs, vec_filter false lk p xs = seq_filter lk p xs.
Proof.
  intros lk p xs. unfold vec_filter. cbn [negb andb]. destruct xs as [|x xs]; [reflexivity|].
  cbn [is_nil]. rewrite filter_loop_spec by (cbn [length]; lia). apply bind_ret.
Qed.

(* the anonymous `fix go` loops of `deep`, `deep_all` and `veq` in the model, under a name so that lemmas can be stated about them *)

Fixpoint mapM {A B} (f : A -> res B) (l : list A) : res (list B) :=
  match l with
  | [] => Ok []
  | x :: l => do y <- f x; do ys <- mapM f l; Ok (y :: ys)
  end.

Fixpoint all2M {A} (f : A -> A -> res bool) (xs ys : list A) : res bool :=
  match xs, ys with
  | x :: xs, y :: ys => do r <- f x y; if r then all2M f xs ys else Ok false
  | _, _ => Ok true
  end.

Lemma mapM_ext : forall A B (f g : A -> res B) l, (forall x, f x = g x) -> mapM f l = mapM g l.
Proof. intros A B f g l H. induction l as [|x l IH]; cbn [mapM]; [reflexivity|]. rewrite H, IH. reflexivity. Qed.

Lemma all2M_ext : forall A (f g : A -> A -> res bool) xs ys, (forall x y, f x y = g x y) -> all2M f xs ys = all2M g xs ys.
Proof.
  intros A f g xs. induction xs as [|x xs IH]; intros [|y ys] H; cbn [all2M]; try reflexivity.
  rewrite H. destruct (g x y) as [[|]|]; cbn [bind]; auto.
Qed.

Lemma mapM_cons_ok : forall A B (f : A -> res B) x l r, mapM f (x :: l) = Ok r ->
  exists y ys, f x = Ok y /\ mapM f l = Ok ys /\ r = y :: ys.
Proof.
  intros A B f x l r H. cbn [mapM] in H. destruct (f x) as [y|]; [|discriminate].
  destruct (mapM f l) as [ys|]; [|discriminate]. injection H as <-. exists y, ys. auto.
Qed.

Lemma mapM_fail : forall A B (f : A -> res B) l e, mapM f l = Fail e -> exists x, In x l /\ f x = Fail e.
Proof.
  intros A B f. induction l as [|x l IH]; intros e H; cbn [mapM] in H; [discriminate|].
  destruct (f x) eqn:E; cbn [bind] in H.
  - destruct (mapM f l) eqn:E2; [discriminate|]. injection H as ->.
    destruct (IH _ eq_refl) as [y [Hy Hf]]. exists y. split; [right; exact Hy | exact Hf].
  - injection H as ->. exists x. split; [left; reflexivity | exact E].
Qed.

Lemma deep_unfold : forall n lk l,
  deep (S n) lk (VRef l) =
  match lk l with
  | KVec xs => do os <- mapM (deep n lk) xs; Ok (OList os)
  | KMap => Fail Stuck
  | KNone => Fail Stuck
  end.
Proof.
  intros n lk l. cbn [deep]. destruct (lk l) as [xs| |]; try reflexivity.
  f_equal. induction xs as [|x xs IH]; [reflexivity|]. cbn [mapM]. rewrite <- IH. reflexivity.
Qed.

Lemma veq_unfold : forall n lk la lb,
  veq (S n) lk (VRef la) (VRef lb) =
  match lk la, lk lb with
  | KVec xs, KVec ys => if negb (Nat.eqb (length xs) (length ys)) then Ok false else all2M (veq n lk) xs ys
  | KNone, _ | _, KNone => Fail Stuck
  | _, _ => Ok false
  end.
Proof.
  intros n lk la lb. cbn [veq]. destruct (lk la) as [xs| |]; destruct (lk lb) as [ys| |]; try reflexivity.
  destruct (negb (Nat.eqb (length xs) (length ys))); [reflexivity|].
  revert ys. induction xs as [|x xs IH]; intros [|y ys]; try reflexivity.
  cbn [all2M]. destruct (veq n lk x y) as [[|]|]; cbn [bind]; try reflexivity. apply IH.
Qed.

Lemma deep_all_mapM : forall lk vs, deep_all lk vs = mapM (deep depth_fuel lk) vs.
Proof. intros lk vs. induction vs as [|v vs IH]; cbn [deep_all mapM]; [reflexivity|]. rewrite IH. reflexivity. Qed.

Section Ext.
  Variables lk1 lk2 : look.
  Hypothesis Hlk : forall l, lk1 l = lk2 l.

  Lemma deep_ext : forall n v, deep n lk1 v = deep n lk2 v.
  Proof.
    induction n as [|n IH]; intros [z|s| |l]; try reflexivity.
    rewrite !deep_unfold, Hlk. destruct (lk2 l); try reflexivity.
    rewrite (mapM_ext _ _ _ _ xs IH). reflexivity.
  Qed.

  Lemma veq_ext : forall n a b, veq n lk1 a b = veq n lk2 a b.
  Proof.
    induction n as [|n IH]; intros [x|x| |la] [y|y| |lb]; try reflexivity.
    rewrite !veq_unfold, !Hlk. destruct (lk2 la), (lk2 lb); try reflexivity.
    rewrite (all2M_ext _ _ _ xs xs0 IH). reflexivity.
  Qed.

  Lemma equals_ext : forall n a b, equals n lk1 a b = equals n lk2 a b.
  Proof.
    intros n [x|x| |la] [y|y| |lb]; try reflexivity.
    unfold equals. rewrite !Hlk, veq_ext. reflexivity.
  Qed.

  Lemma find_from_ext : forall n xs idx p, find_from n lk1 idx xs p = find_from n lk2 idx xs p.
  Proof.
    intros n xs. induction xs as [|x xs IH]; intros idx p; cbn [find_from]; [reflexivity|].
    rewrite equals_ext. destruct (equals n lk2 x p) as [[[|]|]|]; cbn [bind]; auto.
  Qed.

  Lemma apply_fn_ext : forall f x, apply_fn lk1 f x = apply_fn lk2 f x.
  Proof. intros [c|c|s| |r] [z|t| |l]; try reflexivity. cbn [apply_fn]. rewrite Hlk. reflexivity. Qed.

  Lemma apply_pred_ext : forall p x, apply_pred lk1 p x = apply_pred lk2 p x.
  Proof.
    intros p x. destruct p, x; cbn [apply_pred]; rewrite ?equals_ext, ?Hlk; reflexivity.
  Qed.

  Lemma seq_map_ext : forall f xs, seq_map lk1 f xs = seq_map lk2 f xs.
  Proof. intros f xs. induction xs as [|x xs IH]; cbn [seq_map]; [reflexivity|]. rewrite apply_fn_ext, IH. reflexivity. Qed.

  Lemma seq_filter_ext : forall p xs, seq_filter lk1 p xs = seq_filter lk2 p xs.
  Proof. intros p xs. induction xs as [|x xs IH]; cbn [seq_filter]; [reflexivity|]. rewrite apply_pred_ext, IH. reflexivity. Qed.
End Ext.

Lemma deep_fail : forall n lk v e, deep n lk v = Fail e -> undef e.
Proof.
  induction n as [|n IH]; intros lk [z|s| |l] e H; try discriminate.
  - injection H as <-. exact I.
  - rewrite deep_unfold in H. destruct (lk l) as [xs| |]; try (injection H as <-; exact I).
    destruct (mapM (deep n lk) xs) eqn:E; [discriminate|]. injection H as ->.
    destruct (mapM_fail _ _ _ _ _ E) as [x [_ Hx]]. apply (IH _ _ _ Hx).
Qed.

Lemma deep_all_fail : forall lk vs e, deep_all lk vs = Fail e -> undef e.
Proof.
  intros lk vs e H. rewrite deep_all_mapM in H. destruct (mapM_fail _ _ _ _ _ H) as [x [_ Hx]]. apply (deep_fail _ _ _ _ Hx).
Qed.

Fixpoint ovals_eqb (xs ys : list oval) : bool :=
  match xs, ys with
  | [], [] => true
  | x :: xs, y :: ys => oval_eqb x y && ovals_eqb xs ys
  | _, _ => false
  end.

Lemma oval_eqb_list : forall xs ys, oval_eqb (OList xs) (OList ys) = ovals_eqb xs ys.
Proof.
  intros xs. induction xs as [|x xs IH]; intros [|y ys]; reflexivity.
Qed.

Lemma ovals_eqb_length : forall xs ys, length xs <> length ys -> ovals_eqb xs ys = false.
Proof.
  induction xs as [|x xs IH]; intros [|y ys] H; cbn [length] in H; try reflexivity; try congruence.
  cbn [ovals_eqb]. rewrite IH by congruence. apply andb_false_r.
Qed.

Lemma mapM_length : forall A B (f : A -> res B) l r, mapM f l = Ok r -> length r = length l.
Proof.
  intros A B f. induction l as [|x l IH]; intros r H.
  - injection H as <-. reflexivity.
  - destruct (mapM_cons_ok _ _ _ _ _ _ H) as [y [ys [_ [E ->]]]]. cbn [length]. rewrite (IH _ E). reflexivity.
Qed.

(* the step of veq_deep: the hypothesis is its induction hypothesis *)
Lemma all2M_veq : forall n lk,
  (forall a b x y, deep n lk a = Ok x -> deep n lk b = Ok y -> veq n lk a b = Ok (oval_eqb x y)) ->
  forall xs ys os os', length xs = length ys -> mapM (deep n lk) xs = Ok os -> mapM (deep n lk) ys = Ok os' ->
  all2M (veq n lk) xs ys = Ok (ovals_eqb os os').
Proof.
  intros n lk IH. induction xs as [|x xs IHxs]; intros [|y ys] os os' El Exs Eys; try discriminate.
  - injection Exs as <-. injection Eys as <-. reflexivity.
  - destruct (mapM_cons_ok _ _ _ _ _ _ Exs) as [ox [oxs [Ex [Exs' ->]]]].
    destruct (mapM_cons_ok _ _ _ _ _ _ Eys) as [oy [oys [Ey [Eys' ->]]]].
    cbn [all2M ovals_eqb]. rewrite (IH _ _ _ _ Ex Ey). cbn [bind]. destruct (oval_eqb ox oy); [|reflexivity].
    apply IHxs; [injection El as El; exact El | exact Exs' | exact Eys'].
Qed.

Lemma deep_ref_list : forall n lk l y, deep n lk (VRef l) = Ok y -> exists os, y = OList os.
Proof.
  intros [|n] lk l y H; [discriminate|]. rewrite deep_unfold in H. destruct (lk l); try discriminate.
  destruct (mapM (deep n lk) xs) as [os|]; [|discriminate]. injection H as <-. exists os. reflexivity.
Qed.

Lemma veq_deep : forall n lk a b x y,
  deep n lk a = Ok x -> deep n lk b = Ok y -> veq n lk a b = Ok (oval_eqb x y).
Proof.
  induction n as [|n IH]; intros lk a b x y Ha Hb; destruct a as [za|sa| |la], b as [zb|sb| |lb]; try discriminate.
  (* a scalar renders as itself: against a scalar, against a list *)
  all: try (injection Ha as <-; try injection Hb as <-; try (apply deep_ref_list in Hb as [os ->]); reflexivity).
  all: try (injection Hb as <-; apply deep_ref_list in Ha as [os ->]; reflexivity).
  rewrite deep_unfold in Ha, Hb. rewrite veq_unfold.
  destruct (lk la) as [xs| |]; try discriminate. destruct (lk lb) as [ys| |]; try discriminate.
  destruct (mapM (deep n lk) xs) as [os|] eqn:Exs; [|discriminate].
  destruct (mapM (deep n lk) ys) as [os'|] eqn:Eys; [|discriminate].
  injection Ha as <-. injection Hb as <-. rewrite oval_eqb_list.
  destruct (Nat.eqb_spec (length xs) (length ys)) as [El|El]; cbn [negb].
  - apply (all2M_veq n lk (IH lk) _ _ _ _ El Exs Eys).
  - rewrite ovals_eqb_length; [reflexivity|]. rewrite (mapM_length _ _ _ _ _ Exs), (mapM_length _ _ _ _ _ Eys). exact El.
Qed.

Lemma equals_veq : forall n lk a b, comparable lk a b = true -> equals n lk a b = (do r <- veq n lk a b; Ok (Some r)).
Proof.
  intros n lk a b C. destruct n, a as [za|sa| |la], b as [zb|sb| |lb]; try discriminate; try reflexivity;
    cbn [equals comparable] in *; destruct (lk la), (lk lb); try discriminate; reflexivity.
Qed.

Lemma sem_eq_sim : forall lk a b, rsim (fun o r => o = Some r) (equals depth_fuel lk a b) (sem_eq lk a b).
Proof.
  intros lk a b. unfold sem_eq. destruct (comparable lk a b) eqn:C; [|left; exact I]. rewrite (equals_veq _ _ _ _ C).
  apply rsim_spec_bind; [apply deep_fail|]. intros x Ha. apply rsim_spec_bind; [apply deep_fail|]. intros y Hb.
  rewrite (veq_deep _ _ _ _ _ _ Ha Hb). apply rsim_ok. reflexivity.
Qed.

Lemma find_from_sim : forall lk xs p idx,
  rsim (fun r r' => r = option_map (Nat.add idx) r') (find_from depth_fuel lk idx xs p) (seq_index_of lk xs p).
Proof.
  intros lk xs p. induction xs as [|x xs IH]; intro idx; cbn [find_from seq_index_of].
  - apply rsim_ok. reflexivity.
  - eapply rsim_bind; [apply sem_eq_sim|]. intros o e ->. destruct e.
    + apply rsim_ok. cbn [option_map]. rewrite Nat.add_0_r. reflexivity.
    + rewrite <- (bind_ret _ (find_from _ _ _ _ _)). eapply rsim_bind; [apply IH|]. intros r r' ->.
      apply rsim_ok. destruct r'; cbn [option_map]; [|reflexivity]. rewrite Nat.add_succ_r. reflexivity.
Qed.

Definition keys_of (kv : list (key * val)) : list key := map fst kv.

Lemma mget_none : forall kv k, mget kv k = None <-> ~ In k (keys_of kv).
Proof.
  induction kv as [|[k' v] kv IH]; intros k; cbn [mget keys_of map fst In].
  - split; auto.
  - destruct (key_eqb_spec k' k) as [->|NE].
    + split; [discriminate | intro H; exfalso; apply H; left; reflexivity].
    + rewrite IH. unfold keys_of. split; intro H; [intros [H1|H1]; [contradiction | auto] | auto].
Qed.

Lemma mget_in : forall kv k v, NoDup (keys_of kv) -> (mget kv k = Some v <-> In (k, v) kv).
Proof.
  induction kv as [|[k' v'] kv IH]; intros k v ND; cbn [mget In].
  - split; [discriminate | contradiction].
  - cbn [keys_of map fst] in ND. inversion ND as [|? ? Hn ND']; subst.
    destruct (key_eqb_spec k' k) as [->|NE].
    + split; intro H; [injection H as ->; left; reflexivity|].
      destruct H as [H|H]; [injection H as ->; reflexivity|]. exfalso. apply Hn. apply (in_map fst _ _ H).
    + rewrite (IH k v ND'). split; intro H; [right; exact H|]. destruct H as [H|H]; [congruence | exact H].
Qed.

Definition msim (kv kv' : list (key * val)) : Prop :=
  NoDup (keys_of kv) /\ NoDup (keys_of kv') /\ forall k, mget kv k = mget kv' k.

Lemma msim_mget : forall kv kv', msim kv kv' -> forall k, mget kv k = mget kv' k.
Proof. intros kv kv' H. apply H. Qed.

Lemma msim_perm : forall kv kv', msim kv kv' -> Permutation kv kv'.
Proof.
  intros kv kv' [N1 [N2 H]]. apply NoDup_Permutation; try (apply (NoDup_map_inv fst); assumption).
  intros [k v]. rewrite <- (mget_in kv k v N1), <- (mget_in kv' k v N2), H. reflexivity.
Qed.

Lemma msim_length : forall kv kv', msim kv kv' -> length kv = length kv'.
Proof. intros kv kv' H. apply Permutation_length, msim_perm, H. Qed.

Lemma msim_self : forall kv, NoDup (keys_of kv) -> msim kv kv.
Proof. intros kv H. repeat split; assumption. Qed.

Lemma msim_nil : msim [] [].
Proof. apply msim_self. constructor. Qed.

Lemma fm_has_mget : forall kv k, fm_has kv k = match mget kv k with Some _ => true | None => false end.
Proof.
  induction kv as [|[k' v] kv IH]; intros k; cbn [fm_has existsb mget fst]; [reflexivity|].
  destruct (key_eqb k' k); cbn [orb]; [reflexivity | apply IH].
Qed.

Definition set_at (k : key) (v : val) (p : key * val) : key * val := if key_eqb (fst p) k then (fst p, v) else p.

Lemma keys_set_at : forall kv k v, keys_of (map (set_at k v) kv) = keys_of kv.
Proof.
  induction kv as [|[k' v'] kv IH]; intros k v; cbn [map keys_of fst]; [reflexivity|].
  f_equal; [unfold set_at; destruct (key_eqb (fst (k', v')) k); reflexivity | apply IH].
Qed.

Lemma set_at_absent : forall kv k v, ~ In k (keys_of kv) -> map (set_at k v) kv = kv.
Proof.
  induction kv as [|[k' v'] kv IH]; intros k v H; cbn [map keys_of fst In] in *; [reflexivity|].
  unfold set_at at 1. cbn [fst]. rewrite key_eqb_neq, IH by auto. reflexivity.
Qed.

Lemma mget_set_at : forall kv k v k', mget kv k <> None ->
  mget (map (set_at k v) kv) k' = if key_eqb k k' then Some v else mget kv k'.
Proof.
  induction kv as [|[k0 v0] kv IH]; intros k v k' H; cbn [mget] in H; [congruence|].
  cbn [map mget]. unfold set_at at 1. cbn [fst]. destruct (key_eqb_spec k0 k) as [->|NE]; cbn [mget].
  - destruct (key_eqb_spec k k') as [_|NE']; [reflexivity|]. destruct (mget kv k) eqn:E.
    + rewrite IH by congruence. rewrite (key_eqb_neq _ _ NE'). reflexivity.
    + rewrite set_at_absent by (apply mget_none; exact E). reflexivity.
  - rewrite (IH _ _ _ H). destruct (key_eqb_spec k0 k') as [->|NE']; [rewrite (key_eqb_neq k k') by congruence|]; reflexivity.
Qed.

Lemma mget_app : forall kv kv' k, mget (kv ++ kv') k = match mget kv k with Some v => Some v | None => mget kv' k end.
Proof.
  induction kv as [|[k0 v0] kv IH]; intros kv' k; cbn [app mget]; [reflexivity|].
  destruct (key_eqb k0 k); [reflexivity | apply IH].
Qed.

Lemma nodup_fm_put : forall kv k v, NoDup (keys_of kv) -> NoDup (keys_of (fm_put kv k v)).
Proof.
  intros kv k v H. unfold fm_put. rewrite fm_has_mget. fold (set_at k v). destruct (mget kv k) eqn:E.
  - rewrite keys_set_at. exact H.
  - unfold keys_of. rewrite map_app. apply (Permutation_NoDup (Permutation_cons_append _ _)).
    constructor; [apply mget_none; exact E | exact H].
Qed.

Lemma mget_fm_put : forall kv k v k', mget (fm_put kv k v) k' = if key_eqb k k' then Some v else mget kv k'.
Proof.
  intros kv k v k'. unfold fm_put. rewrite fm_has_mget. fold (set_at k v). destruct (mget kv k) eqn:E.
  - apply mget_set_at. congruence.
  - rewrite mget_app. cbn [mget]. destruct (key_eqb_spec k k') as [<-|NE]; [rewrite E | destruct (mget kv k')]; reflexivity.
Qed.

Lemma keys_fm_del_incl : forall kv k x, In x (keys_of (fm_del kv k)) -> In x (keys_of kv).
Proof.
  intros kv k x H. unfold keys_of, fm_del in *. apply in_map_iff in H. destruct H as [p [Hp Hi]].
  apply filter_In in Hi. destruct Hi as [Hi _]. apply in_map_iff. exists p. split; assumption.
Qed.

Lemma nodup_fm_del : forall kv k, NoDup (keys_of kv) -> NoDup (keys_of (fm_del kv k)).
Proof.
  induction kv as [|[k0 v0] kv IH]; intros k H; cbn [fm_del filter fst]; [exact H|].
  cbn [keys_of map fst] in H. inversion H as [|? ? Hn H']; subst.
  destruct (negb (key_eqb k0 k)); [|apply IH; exact H'].
  cbn [keys_of map fst]. constructor; [|apply IH; exact H'].
  intro Hi. apply Hn. apply (keys_fm_del_incl _ _ _ Hi).
Qed.

Lemma mget_fm_del : forall kv k k', mget (fm_del kv k) k' = if key_eqb k k' then None else mget kv k'.
Proof.
  induction kv as [|[k0 v0] kv IH]; intros k k'; cbn [fm_del filter fst mget].
  - destruct (key_eqb k k'); reflexivity.
  - fold (fm_del kv k). destruct (key_eqb_spec k0 k) as [->|NE]; cbn [negb mget]; rewrite IH.
    + destruct (key_eqb k k'); reflexivity.
    + destruct (key_eqb_spec k0 k') as [->|NE']; [rewrite (key_eqb_neq k k') by congruence|]; reflexivity.
Qed.

Lemma fm_del_absent : forall kv k, ~ In k (keys_of kv) -> fm_del kv k = kv.
Proof.
  induction kv as [|[k' v'] kv IH]; intros k H; cbn [fm_del filter keys_of map fst In] in *; [reflexivity|].
  rewrite key_eqb_neq by auto. cbn [negb]. f_equal. apply IH. auto.
Qed.

(* on a list without duplicate keys the model's operations are the specification's, except that a new key goes in front *)

Lemma mreplace_set_at : forall kv k v, NoDup (keys_of kv) -> mreplace kv k v = map (set_at k v) kv.
Proof.
  induction kv as [|[k' v'] kv IH]; intros k v H; cbn [mreplace map]; [reflexivity|].
  cbn [keys_of map fst] in H. inversion H as [|? ? Hn H']; subst. unfold set_at at 1. cbn [fst].
  destruct (key_eqb_spec k' k) as [->|NE]; [rewrite set_at_absent by exact Hn | rewrite IH by exact H']; reflexivity.
Qed.

Lemma mremove_fm_del : forall kv k, NoDup (keys_of kv) -> mremove kv k = fm_del kv k.
Proof.
  induction kv as [|[k' v'] kv IH]; intros k H; cbn [mremove fm_del filter fst]; [reflexivity|].
  cbn [keys_of map fst] in H. inversion H as [|? ? Hn H']; subst. fold (fm_del kv k).
  destruct (key_eqb_spec k' k) as [->|NE]; cbn [negb]; [rewrite fm_del_absent by exact Hn | rewrite IH by exact H']; reflexivity.
Qed.

Lemma msim_put : forall kv kv' k v, msim kv kv' -> msim (minsert kv k v) (fm_put kv' k v).
Proof.
  intros kv kv' k v [N1 [N2 H]]. unfold minsert. split; [|split; [apply nodup_fm_put; exact N2|]].
  - destruct (mget kv k) eqn:E; [rewrite (mreplace_set_at _ _ _ N1), keys_set_at; exact N1|].
    constructor; [apply mget_none; exact E | exact N1].
  - intro k'. rewrite mget_fm_put, <- H. destruct (mget kv k) eqn:E; [|reflexivity].
    rewrite (mreplace_set_at _ _ _ N1). apply mget_set_at. congruence.
Qed.

Lemma msim_del : forall kv kv' k, msim kv kv' -> msim (mremove kv k) (fm_del kv' k).
Proof.
  intros kv kv' k [N1 [N2 H]]. rewrite (mremove_fm_del _ _ N1). split; [|split]; try (apply nodup_fm_del; assumption).
  intro k'. rewrite !mget_fm_del, H. reflexivity.
Qed.

Lemma mapM_perm : forall A B (f : A -> res B) l l', Permutation l l' ->
  forall r', mapM f l' = Ok r' -> exists r, mapM f l = Ok r /\ Permutation r r'.
Proof.
  intros A B f l l' P. induction P as [|x l l' P IH|x y l|l l' l'' P1 IH1 P2 IH2]; intros r' H.
  - exists r'. split; [exact H | apply Permutation_refl].
  - destruct (mapM_cons_ok _ _ _ _ _ _ H) as [y [ys' [Ex [E ->]]]]. destruct (IH _ E) as [ys [E2 P2]].
    cbn [mapM]. rewrite Ex, E2. exists (y :: ys). split; [reflexivity | apply perm_skip; exact P2].
  - destruct (mapM_cons_ok _ _ _ _ _ _ H) as [b [r1 [Ey [H1 ->]]]].
    destruct (mapM_cons_ok _ _ _ _ _ _ H1) as [a [ys [Ex [E ->]]]].
    cbn [mapM]. rewrite Ex, Ey, E. exists (a :: b :: ys). split; [reflexivity | apply perm_swap].
  - destruct (IH2 _ H) as [r2 [E2 Q2]]. destruct (IH1 _ E2) as [r1 [E1 Q1]].
    exists r1. split; [exact E1 | apply (Permutation_trans Q1 Q2)].
Qed.

Lemma bag_sim : forall A B (f f' : A -> res B) l l',
  Permutation l l' -> (forall x, f x = f' x) -> (forall x e, f' x = Fail e -> undef e) ->
  rsim (@Permutation B) (mapM f l) (mapM f' l').
Proof.
  intros A B f f' l l' P Hf Hu. rewrite (mapM_ext _ _ _ _ l Hf). destruct (mapM f' l') as [r'|e] eqn:E.
  - apply (mapM_perm _ _ _ _ _ P _ E).
  - left. destruct (mapM_fail _ _ _ _ _ E) as [x [_ Hx]]. apply (Hu _ _ Hx).
Qed.

Definition pairf (lk : look) (p : key * val) : res oval :=
  do o <- deep depth_fuel lk (snd p); Ok (OList [key_oval (fst p); o]).

Lemma pairs_mapM : forall lk kv, (do os <- deep_all lk (map snd kv); Ok (pair_ovals kv os)) = mapM (pairf lk) kv.
Proof.
  intros lk kv. induction kv as [|[k v] kv IH]; cbn [map snd deep_all mapM fst]; [reflexivity|].
  unfold pairf at 1. cbn [fst snd]. destruct (deep depth_fuel lk v) as [o|]; cbn [bind]; [|reflexivity].
  rewrite <- IH. destruct (deep_all lk (map snd kv)); reflexivity.
Qed.

Lemma pairs_bind : forall A (k : list oval -> res A) lk kv,
  (do os <- deep_all lk (map snd kv); k (pair_ovals kv os)) = (do r <- mapM (pairf lk) kv; k r).
Proof. intros A k lk kv. rewrite <- pairs_mapM. destruct (deep_all lk (map snd kv)); reflexivity. Qed.

Lemma pairf_ext : forall lk1 lk2, (forall l, lk1 l = lk2 l) -> forall p, pairf lk1 p = pairf lk2 p.
Proof. intros lk1 lk2 H p. unfold pairf. rewrite (deep_ext _ _ H). reflexivity. Qed.

Lemma pairf_fail : forall lk p e, pairf lk p = Fail e -> undef e.
Proof.
  intros lk p e H. unfold pairf in H. destruct (deep depth_fuel lk (snd p)) eqn:E; [discriminate|].
  injection H as ->. apply (deep_fail _ _ _ _ E).
Qed.

Record R (st : state) (ss : sstate) : Prop := {
  R_next : next st = snext ss;
  R_env : forall x, eget (env st) x = senv ss x;
  R_heap : forall l, match hget (hp st) l with
                     | Some (CVec xs) => vecs ss l = Some xs /\ maps ss l = None
                     | Some (CMap kv) => vecs ss l = None /\ exists kv', maps ss l = Some kv' /\ msim kv kv'
                     | None => vecs ss l = None /\ maps ss l = None
                     end;
  R_wf : wf st }.

Lemma R0 : R st0 ss0.
Proof. split; [reflexivity | reflexivity | intro l; split; reflexivity | exact wf0]. Qed.

Lemma R_look : forall st ss, R st ss -> forall l, hlook (hp st) l = slook ss l.
Proof.
  intros st ss HR l. pose proof (R_heap _ _ HR l) as H. unfold hlook, slook.
  destruct (hget (hp st) l) as [[xs|kv]|]; [destruct H as [-> _] | destruct H as [-> [kv' [-> _]]] | destruct H as [-> ->]];
    reflexivity.
Qed.

Lemma R_vecs : forall st ss l xs, R st ss -> vecs ss l = Some xs -> hget (hp st) l = Some (CVec xs) /\ maps ss l = None.
Proof.
  intros st ss l xs HR Hv. pose proof (R_heap _ _ HR l) as H.
  destruct (hget (hp st) l) as [[xs'|kv]|]; destruct H as [H1 H2]; [|congruence..].
  rewrite H1 in Hv. injection Hv as ->. auto.
Qed.

Lemma R_maps : forall st ss l kv', R st ss -> maps ss l = Some kv' ->
  exists kv, hget (hp st) l = Some (CMap kv) /\ msim kv kv' /\ vecs ss l = None.
Proof.
  intros st ss l kv' HR Hm. pose proof (R_heap _ _ HR l) as H.
  destruct (hget (hp st) l) as [[xs'|kv]|]; destruct H as [H1 H2]; [congruence| |congruence].
  destruct H2 as [kv2 [H2 H3]]. rewrite H2 in Hm. injection Hm as ->. exists kv. auto.
Qed.

Lemma s_vec_inv : forall ss x l xs, s_vec ss x = Ok (l, xs) -> senv ss x = Some l /\ vecs ss l = Some xs.
Proof.
  intros ss x l xs H. unfold s_vec in H. destruct (senv ss x) as [l'|]; [|discriminate].
  destruct (vecs ss l') as [xs'|] eqn:E; [|discriminate]. injection H as -> ->. auto.
Qed.

Lemma s_map_inv : forall ss x l kv, s_map ss x = Ok (l, kv) -> senv ss x = Some l /\ maps ss l = Some kv.
Proof.
  intros ss x l kv H. unfold s_map in H. destruct (senv ss x) as [l'|]; [|discriminate].
  destruct (maps ss l') as [kv'|] eqn:E; [|discriminate]. injection H as -> ->. auto.
Qed.

Lemma R_get_vec : forall st ss x, R st ss -> get_vec st x = s_vec ss x.
Proof.
  intros st ss x HR. unfold get_vec, s_vec. rewrite (R_env _ _ HR). destruct (senv ss x) as [l|]; [|reflexivity].
  pose proof (R_heap _ _ HR l) as H. destruct (hget (hp st) l) as [[xs|kv]|]; destruct H as [-> _]; reflexivity.
Qed.

Lemma vec_bind : forall st ss, R st ss -> forall C D (Q : C -> D -> Prop) x k k',
  (forall l xs, vecs ss l = Some xs -> rsim Q (k (l, xs)) (k' (l, xs))) ->
  rsim Q (bind (get_vec st x) k) (bind (s_vec ss x) k').
Proof.
  intros st ss HR C D Q x k k' H. rewrite (R_get_vec _ _ _ HR). apply rsim_bind_same. intros [l xs] E.
  apply H, (s_vec_inv _ _ _ _ E).
Qed.

Lemma map_bind : forall st ss, R st ss -> forall C D (Q : C -> D -> Prop) x k k',
  (forall l kv kv', msim kv kv' -> maps ss l = Some kv' -> rsim Q (k (l, kv)) (k' (l, kv'))) ->
  rsim Q (bind (get_map st x) k) (bind (s_map ss x) k').
Proof.
  intros st ss HR C D Q x k k' H. destruct (s_map ss x) as [[l kv']|e] eqn:E.
  - destruct (s_map_inv _ _ _ _ E) as [Ex Em]. destruct (R_maps _ _ _ _ HR Em) as [kv [Hg [Hs _]]].
    unfold get_map. rewrite (R_env _ _ HR), Ex, Hg. apply H; assumption.
  - left. unfold s_map in E. destruct (senv ss x) as [l|]; [destruct (maps ss l)|]; try discriminate;
      injection E as <-; exact I.
Qed.

Lemma R_map_get : forall st ss m k, R st ss ->
  (do lkv <- get_map st m; Ok (opt_val (mget (snd lkv) k))) = (do lkv <- s_map ss m; Ok (opt_val (mget (snd lkv) k))).
Proof.
  intros st ss m k HR. unfold get_map, s_map. rewrite (R_env _ _ HR). destruct (senv ss m) as [l|]; [|reflexivity].
  pose proof (R_heap _ _ HR l) as H. destruct (hget (hp st) l) as [[xs|kv]|].
  - destruct H as [_ ->]. reflexivity.
  - destruct H as [_ [kv' [-> Hs]]]. cbn [bind snd]. rewrite (msim_mget _ _ Hs). reflexivity.
  - destruct H as [_ ->]. reflexivity.
Qed.

Lemma R_upd_vec : forall st ss l xs0 xs, R st ss -> vecs ss l = Some xs0 ->
  R (upd_vec st l xs) (s_setvec ss l xs).
Proof.
  intros st ss l xs0 xs HR Hv. destruct (R_vecs _ _ _ _ HR Hv) as [Hg Hm]. destruct HR as [Hn He H Hw].
  split; [exact Hn | exact He | | apply (wf_upd _ _ _ _ Hw Hg)].
  intro l'. cbn [upd_vec set_hp hp s_setvec vecs maps]. destruct (N.eqb_spec l l') as [<-|NE].
  - rewrite hget_hset_same, upd_same. auto.
  - rewrite hget_hset_other, upd_other by exact NE. apply H.
Qed.

Lemma R_upd_map : forall st ss l kv0 kv kv', R st ss -> maps ss l = Some kv0 -> msim kv kv' ->
  R (upd_map st l kv) (s_setmap ss l kv').
Proof.
  intros st ss l kv0 kv kv' HR Hm Hs. destruct (R_maps _ _ _ _ HR Hm) as [kv1 [Hg [_ Hv]]]. destruct HR as [Hn He H Hw].
  split; [exact Hn | exact He | | apply (wf_upd _ _ _ _ Hw Hg)].
  intro l'. cbn [upd_map set_hp hp s_setmap vecs maps]. destruct (N.eqb_spec l l') as [<-|NE].
  - rewrite hget_hset_same, upd_same. eauto.
  - rewrite hget_hset_other, upd_other by exact NE. apply H.
Qed.

Lemma R_bind : forall st ss x l, R st ss -> R (bind_var st x l) (s_bind ss x l).
Proof.
  intros st ss x l [Hn He H Hw]. split; [exact Hn | | exact H | exact Hw].
  intro y. cbn [bind_var env eget s_bind senv]. unfold upd. destruct (x =? y); [reflexivity | apply He].
Qed.

Lemma R_fresh : forall st ss, R st ss -> vecs ss (snext ss) = None /\ maps ss (snext ss) = None.
Proof.
  intros st ss [Hn _ H Hw]. specialize (H (snext ss)). rewrite (Hw (snext ss)) in H by lia. exact H.
Qed.

Lemma R_alloc_env : forall st ss x y, R st ss -> eget ((x, next st) :: env st) y = upd (senv ss) x (snext ss) y.
Proof.
  intros st ss x y HR. cbn [eget]. unfold upd. rewrite (R_next _ _ HR). destruct (x =? y); [reflexivity | apply (R_env _ _ HR)].
Qed.

Lemma R_alloc_vec : forall st ss x xs, R st ss -> R (alloc st x (CVec xs)) (s_newvec ss x xs).
Proof.
  intros st ss x xs HR. destruct (R_fresh _ _ HR) as [Fv Fm]. pose proof HR as [Hn _ H Hw].
  split; [cbn [alloc next s_newvec snext]; rewrite Hn; reflexivity | intro y; apply (R_alloc_env _ _ _ _ HR) | | apply wf_alloc, Hw].
  intro l'. cbn [alloc hp s_newvec vecs maps]. rewrite Hn. destruct (N.eqb_spec (snext ss) l') as [<-|NE].
  - rewrite hget_hset_same, upd_same. auto.
  - rewrite hget_hset_other, upd_other by exact NE. apply H.
Qed.

Lemma R_alloc_map : forall st ss x kv kv', R st ss -> msim kv kv' -> R (alloc st x (CMap kv)) (s_newmap ss x kv').
Proof.
  intros st ss x kv kv' HR Hs. destruct (R_fresh _ _ HR) as [Fv Fm]. pose proof HR as [Hn _ H Hw].
  split; [cbn [alloc next s_newmap snext]; rewrite Hn; reflexivity | intro y; apply (R_alloc_env _ _ _ _ HR) | | apply wf_alloc, Hw].
  intro l'. cbn [alloc hp s_newmap vecs maps]. rewrite Hn. destruct (N.eqb_spec (snext ss) l') as [<-|NE].
  - rewrite hget_hset_same, upd_same. eauto.
  - rewrite hget_hset_other, upd_other by exact NE. apply H.
Qed.

Lemma R_operand : forall st ss o, R st ss -> eval_operand st o = s_operand ss o.
Proof.
  intros st ss o HR. destruct o as [v|x|x i|x i]; cbn [eval_operand s_operand]; try reflexivity.
  2,3: rewrite (R_get_vec _ _ _ HR); destruct (s_vec ss x) as [[l xs]|]; [apply index_get | reflexivity].
  rewrite (R_env _ _ HR). destruct (senv ss x) as [l|]; [|reflexivity].
  rewrite <- (R_look _ _ HR l). unfold hlook. destruct (hget (hp st) l) as [[xs|kv]|]; reflexivity.
Qed.

Lemma R_operands : forall st ss os, R st ss -> eval_operands st os = s_operands ss os.
Proof.
  intros st ss os HR. induction os as [|o os IH]; cbn [eval_operands s_operands]; [reflexivity|].
  rewrite (R_operand _ _ _ HR), IH. reflexivity.
Qed.

Lemma R_render : forall st ss v, R st ss -> render st v = s_render ss v.
Proof. intros st ss v HR. unfold render, s_render. rewrite (deep_ext _ _ (R_look _ _ HR)). reflexivity. Qed.

Lemma R_maplit : forall st ss kvs kv kv', R st ss -> msim kv kv' -> rsim msim (map_lit st kv kvs) (s_maplit ss kv' kvs).
Proof.
  intros st ss kvs. induction kvs as [|[k o] kvs IH]; intros kv kv' HR Hs; cbn [s_maplit map_lit].
  - apply rsim_ok. exact Hs.
  - rewrite (R_operand _ _ _ HR). apply rsim_bind_same. intros v _. apply IH; [exact HR | apply msim_put; exact Hs].
Qed.

Definition step_rel (a : state * list obs) (b : sstate * list obs) : Prop :=
  R (fst a) (fst b) /\ Forall2 obs_eq (snd a) (snd b).

Lemma obs_eq_refl : forall os, Forall2 obs_eq os os.
Proof. induction os as [|[o|b|l] os IH]; constructor; try exact IH; constructor. apply Permutation_refl. Qed.

Lemma step_same : forall st ss os, R st ss -> rsim step_rel (Ok (st, os)) (Ok (ss, os)).
Proof. intros st ss os HR. apply rsim_ok. split; [exact HR | apply obs_eq_refl]. Qed.

Lemma step_bag : forall st ss l l', R st ss -> Permutation l l' -> rsim step_rel (Ok (st, [ObsBag l])) (Ok (ss, [ObsBag l'])).
Proof. intros st ss l l' HR P. apply rsim_ok. split; [exact HR | repeat constructor; exact P]. Qed.

Lemma step_sim : forall st ss c, R st ss -> rsim step_rel (step false st c) (sstep ss c).
Proof.
  intros st ss c HR. pose proof (R_look _ _ HR) as LK. destruct c; cbn [sstep step].
  - (* NewVec *)
    rewrite (R_operands _ _ _ HR). apply rsim_bind_same. intros vs _. apply step_same, R_alloc_vec, HR.
  - (* Alias *)
    rewrite (R_env _ _ HR). destruct (senv ss src) as [l|]; [|right; reflexivity].
    rewrite <- (LK l). unfold hlook. destruct (hget (hp st) l) as [[xs|kv]|]; [| |right; reflexivity];
      apply step_same, R_bind, HR.
  - (* Push *)
    rewrite (R_operand _ _ _ HR). apply (vec_bind _ _ HR). intros l xs Hv. apply rsim_bind_same. intros y _.
    apply step_same, (R_upd_vec _ _ _ _ _ HR Hv).
  - (* Remove *)
    apply (vec_bind _ _ HR). intros l xs Hv. cbn [fst snd]. rewrite remove_guards. unfold seq_get.
    destruct (negb (in_i32 i)); [right; reflexivity|].
    destruct (in_range xs i) eqn:Hr; [|destruct (0 <=? i)%Z; right; reflexivity].
    apply in_range_lt in Hr. rewrite (vec_at_lt _ _ Hr). cbn [bind]. rewrite (R_render _ _ _ HR). apply rsim_bind_same. intros o _.
    rewrite (vec_remove_at_spec _ _ Hr). apply step_same, (R_upd_vec _ _ _ _ _ HR Hv).
  - (* IndexRead *)
    apply (vec_bind _ _ HR). intros l xs Hv. rewrite bind_index. apply rsim_bind_same. intros x _.
    rewrite (R_render _ _ _ HR). apply rsim_bind_same. intros o _. apply step_same, HR.
  - (* IndexWrite *)
    rewrite (R_operand _ _ _ HR). apply rsim_bind_same. intros y _. apply (vec_bind _ _ HR). intros l xs Hv.
    cbn [fst snd]. rewrite vec_index_get, bind_assoc. apply rsim_bind_same. intros x0 Hx.
    cbn [bind]. rewrite (vec_set_at_spec _ _ _ (seq_get_lt _ _ _ Hx)). apply step_same, (R_upd_vec _ _ _ _ _ HR Hv).
  - (* OpAssign *)
    apply (vec_bind _ _ HR). intros l xs Hv. cbn [fst snd]. rewrite bind_index. apply rsim_bind_same. intros cur Hc.
    apply rsim_bind_same. intros y _.
    rewrite (vec_set_at_spec _ _ _ (seq_get_lt _ _ _ Hc)). apply step_same, (R_upd_vec _ _ _ _ _ HR Hv).
  - (* Reverse *)
    apply (vec_bind _ _ HR). intros l xs Hv. cbn [fst snd]. rewrite <- rev_alt.
    apply step_same, (R_upd_vec _ _ _ _ _ HR Hv).
  - (* Join *)
    apply (vec_bind _ _ HR). intros la xs Ha. apply (vec_bind _ _ HR). intros lb ys Hb.
    apply step_same, R_bind, (R_upd_vec _ _ _ _ _ HR Ha).
  - (* Clear *)
    apply (vec_bind _ _ HR). intros l xs Hv. apply step_same, (R_upd_vec _ _ _ _ _ HR Hv).
  - (* Clone *)
    apply (vec_bind _ _ HR). intros l xs Hv. apply step_same, R_alloc_vec, HR.
  - (* MapF *)
    apply (vec_bind _ _ HR). intros l xs Hv. rewrite vec_map_spec, (seq_map_ext _ _ LK).
    apply rsim_bind_same. intros ys _. apply step_same, R_alloc_vec, HR.
  - (* MapElem *)
    apply (vec_bind _ _ HR). intros l xs Hv.
    rewrite vec_map_spec, (seq_map_ext _ _ LK), (R_operand _ _ (OElem w i) HR).
    apply rsim_bind_same. intros ys _. apply step_same, R_alloc_vec, HR.
  - (* MapKeyElem *)
    apply (vec_bind _ _ HR). intros l xs Hv.
    rewrite vec_map_spec, (seq_map_ext _ _ LK), (R_map_get _ _ _ _ HR).
    apply rsim_bind_same. intros ys _. apply step_same, R_alloc_vec, HR.
  - (* FilterF *)
    apply (vec_bind _ _ HR). intros l xs Hv. rewrite vec_filter_spec, (seq_filter_ext _ _ LK).
    apply rsim_bind_same. intros ys _. apply step_same, R_alloc_vec, HR.
  - (* IndexOf *)
    rewrite (R_operand _ _ _ HR). apply (vec_bind _ _ HR). intros l xs Hv. apply rsim_bind_same. intros y _.
    rewrite (find_from_ext _ _ LK). eapply rsim_bind; [apply find_from_sim|]. intros r r' ->.
    destruct r'; apply step_same, HR.
  - (* Len *)
    apply (vec_bind _ _ HR). intros l xs Hv. apply step_same, HR.
  - (* Eq *)
    apply (vec_bind _ _ HR). intros la xs Ha. apply (vec_bind _ _ HR). intros lb ys Hb.
    rewrite (veq_ext _ _ LK). apply rsim_spec_bind; [apply deep_fail|]. intros x Dx.
    apply rsim_spec_bind; [apply deep_fail|]. intros y Dy. rewrite (veq_deep _ _ _ _ _ _ Dx Dy). apply step_same, HR.
  - (* Print *)
    apply (vec_bind _ _ HR). intros l xs Hv. rewrite (R_render _ _ _ HR). apply rsim_bind_same. intros o _.
    apply step_same, HR.
  - (* Concat *)
    apply (vec_bind _ _ HR). intros l xs Hv.
    rewrite bind_index. apply rsim_bind_same. intros x _. apply rsim_bind_same. intros sx _.
    rewrite bind_index. apply rsim_bind_same. intros y _. apply rsim_bind_same. intros sy _. apply step_same, HR.
  - (* MapLit *)
    eapply rsim_bind; [apply (R_maplit _ _ _ _ _ HR msim_nil)|]. intros kv kv' Hs. apply step_same, R_alloc_map; assumption.
  - (* MapGet *)
    apply (map_bind _ _ HR). intros l kv kv' Hs Hm. cbn [fst snd].
    rewrite (msim_mget _ _ Hs), (R_render _ _ _ HR). apply rsim_bind_same. intros o _. apply step_same, HR.
  - (* MapSet *)
    rewrite (R_operand _ _ _ HR). apply rsim_bind_same. intros y _. apply (map_bind _ _ HR). intros l kv kv' Hs Hm.
    apply step_same, (R_upd_map _ _ _ _ _ _ HR Hm), msim_put, Hs.
  - (* MapOpAssign *)
    apply (map_bind _ _ HR). intros l kv kv' Hs Hm. cbn [fst snd]. rewrite (msim_mget _ _ Hs).
    apply rsim_bind_same. intros y _. apply step_same, (R_upd_map _ _ _ _ _ _ HR Hm), msim_put, Hs.
  - (* Replace *)
    apply (map_bind _ _ HR). intros l kv kv' Hs Hm. cbn [fst snd].
    rewrite (R_operand _ _ _ HR). apply rsim_bind_same. intros y _.
    rewrite (msim_mget _ _ Hs), (R_render _ _ _ HR). apply rsim_bind_same. intros o _.
    apply step_same, (R_upd_map _ _ _ _ _ _ HR Hm), msim_put, Hs.
  - (* MapRemove *)
    apply (map_bind _ _ HR). intros l kv kv' Hs Hm. cbn [fst snd].
    rewrite (msim_mget _ _ Hs), (R_render _ _ _ HR). apply rsim_bind_same. intros o _.
    apply step_same, (R_upd_map _ _ _ _ _ _ HR Hm), msim_del, Hs.
  - (* ContainsKey *)
    apply (map_bind _ _ HR). intros l kv kv' Hs Hm. cbn [fst snd].
    rewrite fm_has_mget, <- (msim_mget _ _ Hs). apply step_same, HR.
  - (* MapLen *)
    apply (map_bind _ _ HR). intros l kv kv' Hs Hm. cbn [fst snd]. rewrite (msim_length _ _ Hs).
    apply step_same, HR.
  - (* Keys *)
    apply (map_bind _ _ HR). intros l kv kv' Hs Hm. apply (step_bag _ _ _ _ HR), Permutation_map, msim_perm, Hs.
  - (* Values *)
    apply (map_bind _ _ HR). intros l kv kv' Hs Hm. unfold render_all. rewrite !deep_all_mapM.
    eapply rsim_bind; [|intros os os' P; apply (step_bag _ _ _ _ HR P)].
    apply bag_sim; [apply Permutation_map, msim_perm, Hs | apply deep_ext, LK | intros x e; apply deep_fail].
  - (* Pairs *)
    apply (map_bind _ _ HR). intros l kv kv' Hs Hm. unfold render_all. cbn [fst snd].
    rewrite (pairs_bind _ (fun r => Ok (st, [ObsBag r]))), (pairs_bind _ (fun r => Ok (ss, [ObsBag r]))).
    eapply rsim_bind; [|intros os os' P; apply (step_bag _ _ _ _ HR P)].
    apply bag_sim; [apply msim_perm, Hs | apply pairf_ext, LK | intros x e; apply pairf_fail].
  - (* MapClear *)
    apply (map_bind _ _ HR). intros l kv kv' Hs Hm. apply step_same, (R_upd_map _ _ _ _ _ _ HR Hm), msim_nil.
  - (* MapClone *)
    apply (map_bind _ _ HR). intros l kv kv' Hs Hm. apply step_same, R_alloc_map; assumption.
Qed.

Lemma run_sim : forall h st ss os f, R st ss -> srun_from ss h = (os, f) -> defined f ->
  exists os', run_from false st h = (os', f) /\ Forall2 obs_eq os' os.
Proof.
  induction h as [|c h IH]; intros st ss os f HR Hs Hd; cbn [srun_from run_from] in *.
  - injection Hs as <- <-. exists []. split; [reflexivity | constructor].
  - pose proof (step_sim st ss c HR) as Hc. destruct (sstep ss c) as [[ss' o]|e].
    + destruct Hc as [[st' o'] [-> [HR' Ho]]]. cbn [fst snd] in HR', Ho.
      destruct (srun_from ss' h) as [os1 f1] eqn:Er. injection Hs as <- <-.
      destruct (IH st' ss' os1 f1 HR' Er Hd) as [os1' [-> F1]].
      exists (o' ++ os1'). split; [reflexivity | apply Forall2_app; assumption].
    + injection Hs as <- <-. destruct Hc as [Hu| ->].
      * destruct e; contradiction.
      * exists []. split; [reflexivity | constructor].
Qed.

(* C13: on every history on which the specification is defined (well-typed, nesting within the rendering fuel,
   op= within i32) the impl-model produces the same observations - keys / values / pairs as bags - and ends the
   same way: to the end, or stopped by the same failure (run_sim: at the same operation). *)
Theorem containers_refine : forall h, defined (snd (spec_run h)) -> refines (run false h) (spec_run h).
Proof.
  intros h Hd. unfold spec_run, run in *. destruct (srun_from ss0 h) as [os f] eqn:E. cbn [snd] in Hd.
  destruct (run_sim h st0 ss0 os f R0 E Hd) as [os' [E' F]]. rewrite E'. split; [exact F | reflexivity].
Qed.

(* C13: an index outside 0 <= i < len is a failure in every form that reads or writes an element, never a value;
   before fixes/c13-remove-bounds.diff only the class of `remove`'s failure was wrong (a Rust panic).  The failure of
   an index write may be that of its operand, which is evaluated first. *)
Theorem out_of_range_fails : forall legacy st v l xs i,
  get_vec st v = Ok (l, xs) -> in_i32 i = true -> in_range xs i = false ->
  step legacy st (IndexRead v i) = Fail Err /\
  (forall op y, step legacy st (OpAssign v i op y) = Fail Err) /\
  (forall x, exists f, step legacy st (IndexWrite v i x) = Fail f) /\
  (forall j, step legacy st (Concat v i j) = Fail Err) /\
  (forall dst, step legacy st (NewVec dst [OElem v i]) = Fail Err) /\
  step legacy st (Remove v i) = Fail (if legacy && (0 <=? i)%Z then Panic else Err).
Proof.
  intros legacy st v l xs i Hg Hi Hr.
  assert (E : vec_index xs i = Fail Err) by (rewrite vec_index_get; unfold seq_get; rewrite Hi, Hr; reflexivity).
  repeat split; try intros; cbn [step eval_operands eval_operand]; rewrite ?Hg; cbn [bind fst snd]; rewrite ?E; try reflexivity.
  - destruct (eval_operand st x) as [y|f]; cbn [bind]; eexists; reflexivity.
  - rewrite remove_guards, Hi, Hr. destruct legacy, (0 <=? i)%Z; reflexivity.
Qed.

Definition sv (a b x : var) : var := if x =? a then b else x.

Definition so (a b : var) (o : operand) : operand :=
  match o with
  | OLit v => OLit v
  | OVar x => OVar (sv a b x)
  | OElem x i => OElem (sv a b x) i
  | OCall x i => OCall (sv a b x) i
  end.

Definition subst_uses (a b : var) (c : cop) : cop :=
  match c with
  | NewVec dst es => NewVec dst (map (so a b) es)
  | Alias dst src => Alias dst (sv a b src)
  | Push v x => Push (sv a b v) (so a b x)
  | Remove v i => Remove (sv a b v) i
  | IndexRead v i => IndexRead (sv a b v) i
  | IndexWrite v i x => IndexWrite (sv a b v) i (so a b x)
  | OpAssign v i op x => OpAssign (sv a b v) i op x
  | Reverse v => Reverse (sv a b v)
  | Join dst x y => Join dst (sv a b x) (sv a b y)
  | Clear v => Clear (sv a b v)
  | Clone dst src => Clone dst (sv a b src)
  | MapF dst src f => MapF dst (sv a b src) f
  | MapElem dst src w i => MapElem dst (sv a b src) (sv a b w) i
  | MapKeyElem dst src m k => MapKeyElem dst (sv a b src) (sv a b m) k
  | FilterF dst src p => FilterF dst (sv a b src) p
  | IndexOf v x => IndexOf (sv a b v) (so a b x)
  | Len v => Len (sv a b v)
  | Eq x y => Eq (sv a b x) (sv a b y)
  | Print v => Print (sv a b v)
  | Concat v i j => Concat (sv a b v) i j
  | MapLit dst kvs => MapLit dst (map (fun p => (fst p, so a b (snd p))) kvs)
  | MapGet m k => MapGet (sv a b m) k
  | MapSet m k x => MapSet (sv a b m) k (so a b x)
  | MapOpAssign m k op x => MapOpAssign (sv a b m) k op x
  | Replace m k x => Replace (sv a b m) k (so a b x)
  | MapRemove m k => MapRemove (sv a b m) k
  | ContainsKey m k => ContainsKey (sv a b m) k
  | MapLen m => MapLen (sv a b m)
  | Keys m => Keys (sv a b m)
  | Values m => Values (sv a b m)
  | Pairs m => Pairs (sv a b m)
  | MapClear m => MapClear (sv a b m)
  | MapClone dst src => MapClone dst (sv a b src)
  end.

Section Alias.
  Variables (st : state) (a b : var).
  Hypothesis Hab : eget (env st) a = eget (env st) b.

  Lemma eget_sv : forall x, eget (env st) (sv a b x) = eget (env st) x.
  Proof. intro x. unfold sv. destruct (x =? a) eqn:E; [apply N.eqb_eq in E; subst; symmetry; exact Hab | reflexivity]. Qed.

  Lemma get_vec_sv : forall x, get_vec st (sv a b x) = get_vec st x.
  Proof. intro x. unfold get_vec. rewrite eget_sv. reflexivity. Qed.

  Lemma get_map_sv : forall x, get_map st (sv a b x) = get_map st x.
  Proof. intro x. unfold get_map. rewrite eget_sv. reflexivity. Qed.

  Lemma operand_so : forall o, eval_operand st (so a b o) = eval_operand st o.
  Proof. intros [v|x|x i|x i]; cbn [so eval_operand]; rewrite ?eget_sv, ?get_vec_sv; reflexivity. Qed.

  Lemma elem_sv : forall w i, eval_operand st (OElem (sv a b w) i) = eval_operand st (OElem w i).
  Proof. intros w i. exact (operand_so (OElem w i)). Qed.

  Lemma operands_so : forall os, eval_operands st (map (so a b) os) = eval_operands st os.
  Proof. induction os as [|o os IH]; cbn [map eval_operands]; [reflexivity|]. rewrite operand_so, IH. reflexivity. Qed.

  Lemma map_lit_so : forall kvs kv, map_lit st kv (map (fun p => (fst p, so a b (snd p))) kvs) = map_lit st kv kvs.
  Proof.
    induction kvs as [|[k o] kvs IH]; intro kv; cbn [map map_lit fst snd]; [reflexivity|].
    rewrite operand_so. destruct (eval_operand st o); cbn [bind]; [apply IH | reflexivity].
  Qed.

  (* an operation cannot tell which of two names of one container it was given: every alias sees and makes every update *)
  Theorem alias_indistinguishable : forall legacy c, step legacy st (subst_uses a b c) = step legacy st c.
  Proof.
    intros legacy c. destruct c; cbn [subst_uses step]; rewrite ?get_vec_sv, ?get_map_sv; try reflexivity;
      rewrite ?operands_so, ?operand_so, ?elem_sv, ?eget_sv, ?map_lit_so; reflexivity.
  Qed.
End Alias.

Theorem alias_binds_same_container : forall legacy st dst src st' os,
  step legacy st (Alias dst src) = Ok (st', os) ->
  eget (env st') dst = eget (env st') src /\ hp st' = hp st /\ os = [].
Proof.
  intros legacy st dst src st' os H. cbn [step] in H.
  destruct (eget (env st) src) as [l|] eqn:E; [|discriminate].
  destruct (hget (hp st) l); [|discriminate]. injection H as <- <-.
  split; [|split; reflexivity]. cbn [bind_var env eget]. rewrite N.eqb_refl.
  destruct (dst =? src) eqn:E2; [reflexivity | symmetry; exact E].
Qed.

(* the one existing container an operation mutates: its receiver *)
Definition target (st : state) (c : cop) : option loc :=
  match c with
  | Push v _ | Remove v _ | IndexWrite v _ _ | OpAssign v _ _ _ | Reverse v | Clear v | Join _ v _
  | MapSet v _ _ | MapOpAssign v _ _ _ | Replace v _ _ | MapRemove v _ | MapClear v => eget (env st) v
  | _ => None
  end.

Lemma get_vec_inv : forall st x l xs, get_vec st x = Ok (l, xs) ->
  eget (env st) x = Some l /\ hget (hp st) l = Some (CVec xs).
Proof.
  intros st x l xs H. unfold get_vec in H. destruct (eget (env st) x) as [l'|]; [|discriminate].
  destruct (hget (hp st) l') as [[xs'|kv]|] eqn:E; try discriminate. injection H as -> ->. auto.
Qed.

Lemma get_map_inv : forall st x l kv, get_map st x = Ok (l, kv) ->
  eget (env st) x = Some l /\ hget (hp st) l = Some (CMap kv).
Proof.
  intros st x l kv H. unfold get_map in H. destruct (eget (env st) x) as [l'|]; [|discriminate].
  destruct (hget (hp st) l') as [[xs'|kv']|] eqn:E; try discriminate. injection H as -> ->. auto.
Qed.

Inductive effect (st : state) (c : cop) : state -> Prop :=
| eff_same : effect st c st
| eff_write l c0 c1 : target st c = Some l -> hget (hp st) l = Some c0 -> effect st c (set_hp st (hset (hp st) l c1))
| eff_alloc x c1 : effect st c (alloc st x c1)
| eff_bind st1 x l : effect st c st1 -> effect st c (bind_var st1 x l).

Definition leaves (st : state) (c : cop) (r : res (state * list obs)) : Prop :=
  forall st' os, r = Ok (st', os) -> effect st c st'.

Lemma leaves_bind : forall A st c (r : res A) k, (forall a, r = Ok a -> leaves st c (k a)) -> leaves st c (bind r k).
Proof. intros A st c [a|e] k H; [apply H; reflexivity | discriminate]. Qed.

Lemma leaves_ok : forall st c st' os, effect st c st' -> leaves st c (Ok (st', os)).
Proof. intros st c st' os H st2 os2 E. injection E as <- <-. exact H. Qed.

Lemma leaves_if : forall st c (b : bool) r r', leaves st c r -> leaves st c r' -> leaves st c (if b then r else r').
Proof. intros st c [|] r r' H H'; assumption. Qed.

Lemma leaves_fail : forall st c e, leaves st c (Fail e).
Proof. discriminate. Qed.

Lemma write_vec : forall st c v a ys, get_vec st v = Ok a -> target st c = eget (env st) v -> effect st c (upd_vec st (fst a) ys).
Proof. intros st c v [l xs] ys E T. destruct (get_vec_inv _ _ _ _ E) as [Ee Eh]. rewrite Ee in T. exact (eff_write _ _ _ _ _ T Eh). Qed.

Lemma write_map : forall st c v a kv, get_map st v = Ok a -> target st c = eget (env st) v -> effect st c (upd_map st (fst a) kv).
Proof. intros st c v [l xs] ys E T. destruct (get_map_inv _ _ _ _ E) as [Ee Eh]. rewrite Ee in T. exact (eff_write _ _ _ _ _ T Eh). Qed.

Lemma step_effect : forall st c st' os, step false st c = Ok (st', os) -> effect st c st'.
Proof.
  intros st c. change (leaves st c (step false st c)).
  (* every operation is a chain of binds and guards that ends in an Ok: walk down the chain *)
  destruct c; cbn [step]; repeat first [apply leaves_bind; intros ? ?E | apply leaves_if | apply leaves_fail];
    try (apply leaves_ok; eauto using effect, write_vec, write_map).
  - (* Alias *) destruct (eget (env st) src); [|discriminate]. destruct (hget (hp st) l); [|discriminate].
    apply leaves_ok, eff_bind, eff_same.
Qed.

Lemma step_frame : forall st c st' os, step false st c = Ok (st', os) ->
  forall l, l <> next st -> target st c <> Some l -> hget (hp st') l = hget (hp st) l.
Proof.
  intros st c st' os H l Hn Ht. apply step_effect in H. induction H as [|l0 c0 c1 T _|x c1|st1 x l1 _ IH].
  - reflexivity.
  - apply hget_hset_other. congruence.
  - apply hget_hset_other. auto.
  - exact IH.
Qed.

Lemma step_wf : forall st c st' os, wf st -> step false st c = Ok (st', os) -> wf st' /\ next st <= next st'.
Proof.
  intros st c st' os Hw H. apply step_effect in H. induction H as [|l0 c0 c1 _ Hg|x c1|st1 x l1 _ IH].
  - split; [exact Hw | lia].
  - split; [apply (wf_upd _ _ _ _ Hw Hg) | cbn [set_hp next]; lia].
  - split; [apply wf_alloc, Hw | cbn [alloc next]; lia].
  - exact IH.
Qed.

Fixpoint exec (st : state) (h : list cop) : option state :=
  match h with
  | [] => Some st
  | c :: h => match step false st c with Ok (st', _) => exec st' h | Fail _ => None end
  end.

Fixpoint untouched (l : loc) (st : state) (h : list cop) : Prop :=
  match h with
  | [] => True
  | c :: h => target st c <> Some l /\ forall st' os, step false st c = Ok (st', os) -> untouched l st' h
  end.

Lemma frame : forall h st st' l, wf st -> l < next st -> untouched l st h -> exec st h = Some st' ->
  hget (hp st') l = hget (hp st) l.
Proof.
  induction h as [|c h IH]; intros st st' l Hw Hl Hu He; cbn [exec untouched] in *.
  - injection He as <-. reflexivity.
  - destruct (step false st c) as [[st1 os]|] eqn:Es; [|discriminate]. destruct Hu as [Ht Hu].
    destruct (step_wf _ _ _ _ Hw Es) as [Hw1 Hn].
    rewrite (IH st1 st' l Hw1 ltac:(lia) (Hu _ _ eq_refl) He).
    apply (step_frame _ _ _ _ Es); [lia | exact Ht].
Qed.

Lemma alloc_independent : forall st x c la c0, wf st -> hget (hp st) la = Some c0 ->
  let st1 := alloc st x c in
  eget (env st1) x = Some (next st) /\ la <> next st /\
  hget (hp st1) (next st) = Some c /\ hget (hp st1) la = Some c0 /\
  (forall h st2, untouched (next st) st1 h -> exec st1 h = Some st2 -> hget (hp st2) (next st) = Some c) /\
  (forall h st2, untouched la st1 h -> exec st1 h = Some st2 -> hget (hp st2) la = Some c0).
Proof.
  intros st x c la c0 Hw Hg st1. pose proof (wf_lt _ _ _ Hw Hg) as Hlt.
  assert (H1 : hget (hp st1) (next st) = Some c) by apply hget_hset_same.
  assert (H2 : hget (hp st1) la = Some c0) by (rewrite <- Hg; apply hget_hset_other; lia).
  assert (Hf : forall l h st2, l < next st1 -> untouched l st1 h -> exec st1 h = Some st2 -> hget (hp st2) l = hget (hp st1) l).
  { intros l h st2 Hl Hu He. apply (frame h st1 st2 l (wf_alloc _ _ _ Hw) Hl Hu He). }
  split; [cbn [st1 alloc env eget]; rewrite N.eqb_refl; reflexivity|]. split; [lia|]. split; [exact H1|]. split; [exact H2|].
  split; intros h st2 Hu He; [rewrite <- H1 | rewrite <- H2]; apply (Hf _ h); try assumption; cbn [st1 alloc next]; lia.
Qed.

(* a clone is a NEW container with the contents its original has at that moment; whatever is done afterwards to
   either (through any of its names) leaves the other as it is *)
Theorem clone_independent : forall st a c st1 o1, wf st -> step false st (Clone c a) = Ok (st1, o1) ->
  exists la xs,
    get_vec st a = Ok (la, xs) /\ eget (env st1) c = Some (next st) /\ la <> next st /\
    hget (hp st1) (next st) = Some (CVec xs) /\ hget (hp st1) la = Some (CVec xs) /\
    (forall h st2, untouched (next st) st1 h -> exec st1 h = Some st2 -> hget (hp st2) (next st) = Some (CVec xs)) /\
    (forall h st2, untouched la st1 h -> exec st1 h = Some st2 -> hget (hp st2) la = Some (CVec xs)).
Proof.
  intros st a c st1 o1 Hw H. cbn [step] in H. destruct (get_vec st a) as [[la xs]|] eqn:E; [|discriminate].
  injection H as <- <-. exists la, xs. split; [reflexivity|].
  apply (alloc_independent _ _ _ _ _ Hw), (get_vec_inv _ _ _ _ E).
Qed.

Theorem map_clone_independent : forall st a c st1 o1, wf st -> step false st (MapClone c a) = Ok (st1, o1) ->
  exists la kv,
    get_map st a = Ok (la, kv) /\ eget (env st1) c = Some (next st) /\ la <> next st /\
    hget (hp st1) (next st) = Some (CMap kv) /\ hget (hp st1) la = Some (CMap kv) /\
    (forall h st2, untouched (next st) st1 h -> exec st1 h = Some st2 -> hget (hp st2) (next st) = Some (CMap kv)) /\
    (forall h st2, untouched la st1 h -> exec st1 h = Some st2 -> hget (hp st2) la = Some (CMap kv)).
Proof.
  intros st a c st1 o1 Hw H. cbn [step] in H. destruct (get_map st a) as [[la kv]|] eqn:E; [|discriminate].
  injection H as <- <-. exists la, kv. split; [reflexivity|].
  apply (alloc_independent _ _ _ _ _ Hw), (get_map_inv _ _ _ _ E).
Qed.

(* the behaviour before fixes/c13-*.diff (legacy = true) does not refine the specification, even when a Rust panic
   is taken for a failure like any other (refines_stops) *)

(* a.join(b) emptied b (Vec::append) *)
Lemma join_legacy_refuted :
  exists h, defined (snd (spec_run h)) /\ ~ refines_stops (run true h) (spec_run h).
Proof.
  exists [NewVec 0 [OLit (VInt 1); OLit (VInt 2)]; NewVec 1 [OLit (VInt 7)]; Join 2 0 1; Print 1].
  split; [vm_compute; exact I|]. vm_compute. intros [H _]. inversion H as [|? ? ? ? Ho _]; subst. inversion Ho.
Qed.

(* a.join(a) panicked: GcCell already borrowed *)
Lemma join_self_legacy_refuted :
  exists h, defined (snd (spec_run h)) /\ ~ refines_stops (run true h) (spec_run h).
Proof.
  exists [NewVec 0 [OLit (VInt 1)]; Join 1 0 0; Print 0].
  split; [vm_compute; exact I|]. vm_compute. intros [H _]. inversion H.
Qed.

(* map / filter on the empty list panicked in the callback bridge *)
Lemma map_empty_legacy_refuted :
  exists h, defined (snd (spec_run h)) /\ ~ refines_stops (run true h) (spec_run h).
Proof.
  exists [NewVec 0 []; MapF 1 0 (FAdd 1); Print 1].
  split; [vm_compute; exact I|]. vm_compute. intros [H _]. inversion H.
Qed.

Lemma filter_empty_legacy_refuted :
  exists h, defined (snd (spec_run h)) /\ ~ refines_stops (run true h) (spec_run h).
Proof.
  exists [NewVec 0 []; FilterF 1 0 PTrue; Print 1].
  split; [vm_compute; exact I|]. vm_compute. intros [H _]. inversion H.
Qed.

(* remove out of range stopped the program, but with a Rust panic instead of an mscript error *)
Lemma remove_legacy_panics :
  run true [NewVec 0 [OLit (VInt 1)]; Remove 0 1] = ([], Some Panic) /\
  run false [NewVec 0 [OLit (VInt 1)]; Remove 0 1] = ([], Some Err) /\
  spec_run [NewVec 0 [OLit (VInt 1)]; Remove 0 1] = ([], Some Err).
Proof. vm_compute. auto. Qed.

Section OvalInd.
  Variable P : oval -> Prop.
  Hypothesis Hi : forall z, P (OInt z).
  Hypothesis Hs : forall s, P (OStr s).
  Hypothesis Hn : P ONil.
  Hypothesis Hl : forall l, Forall P l -> P (OList l).
  Fixpoint oval_ind' (o : oval) : P o :=
    match o with
    | OInt z => Hi z
    | OStr s => Hs s
    | ONil => Hn
    | OList l => Hl l ((fix go (l : list oval) : Forall P l :=
                          match l with [] => Forall_nil P | x :: l => Forall_cons x (oval_ind' x) (go l) end) l)
    end.
End OvalInd.

Lemma oval_eqb_eq : forall a b, oval_eqb a b = true <-> a = b.
Proof.
  induction a as [x|x| |xs IH] using oval_ind'; intros [y|y| |ys]; split; intro H; try discriminate; try reflexivity.
  - cbn in H. apply Z.eqb_eq in H. congruence.
  - injection H as ->. apply Z.eqb_refl.
  - cbn in H. apply str_eqb_eq in H. congruence.
  - injection H as ->. apply str_eqb_eq. reflexivity.
  - rewrite oval_eqb_list in H. f_equal. revert ys H. induction IH as [|x xs Hx _ IHxs]; intros [|y ys] H; cbn [ovals_eqb] in H; try discriminate.
    + reflexivity.
    + apply andb_true_iff in H. destruct H as [H1 H2]. apply Hx in H1. rewrite (IHxs _ H2), H1. reflexivity.
  - injection H as <-. rewrite oval_eqb_list. induction IH as [|x xs Hx _ IHxs]; cbn [ovals_eqb]; [reflexivity|].
    rewrite IHxs, andb_true_r. apply Hx. reflexivity.
Qed.
