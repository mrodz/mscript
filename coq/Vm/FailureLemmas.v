(* C17: what the VM model (Vm/Model.v) reports when a run fails.
   `calls` / `steps` restate the interpreter as a big-step relation that also records which activations have been
   entered and not left (function name + the block frames it has opened and not closed).  For a checked program
   (Verify.Check) every run of the executable interpreter is a derivation of it, and the call stack at a failure
   is exactly the rendering of the recorded activations, innermost first (`run_chain`).
   The rest holds for all programs: `fail_case` lists the ways one instruction can fail, and from it and
   `exec_d_effect` are read off the facts on output, on assert and on panics. *)
From MS Require Import Vm.Model Verify.Check Verify.Sound.
From Coq Require Import Lia.
Open Scope nat_scope.

Definition activation := (list flabel * str)%type.        (* open blocks (innermost first), function *)
Definition render (c : list activation) : list flabel := flat_map (fun x => fst x ++ [LFun (snd x)]) c.
Definition wf_chain (c : list activation) : Prop := Forall (fun x => Forall (fun l => special l = true) (fst x)) c.

Fixpoint fun_names (st : list flabel) : list str :=
  match st with [] => [] | LFun n :: r => n :: fun_names r | _ :: r => fun_names r end.

Definition tick (name : str) (a : act) (i : instr) (g : gstate) : gstate :=
  add_trace g (name, N.of_nat (a_ip a), op i, N.of_nat (length (frames g)), N.of_nat (length (a_ops a))).
Definition ret_flag (rv : option value) : bool := match rv with Some _ => true | None => false end.
Definition deliver (a : act) (rv : option value) : act :=
  match rv with Some v => set_ops a (a_ops a ++ [v]) | None => a end.

Section Sem.
  Variable rc : str -> nat -> bool -> bool.
  Variable p : program.

  (* `steps name code bl a g r c`: the activation of `name` (code `code`), having `bl` open blocks, continues
     from (a, g) and ends with `r`; if `r` is a failure, `c` lists the activations that were active when it
     happened (innermost first, ending with this one), otherwise `c = []`.
     `calls name argv cb g r c`: the same for a whole call. *)
  Inductive steps : str -> list instr -> list flabel -> act -> gstate -> rres -> list activation -> Prop :=
  | st_end : forall name code bl a g g', nth_error code (a_ip a) = None -> pop_frame g = Some g' ->
      steps name code bl a g (RDone None g') []
  | st_end_bad : forall name code bl a g, nth_error code (a_ip a) = None -> pop_frame g = None ->
      steps name code bl a g (RFail (E_panic 0%N) g) [(bl, name)]
  | st_fail : forall name code bl a g i e, nth_error code (a_ip a) = Some i ->
      exec i a (tick name a i g) = SFail e ->
      steps name code bl a g (RFail e (tick name a i g)) [(bl, name)]
  | st_next : forall name code bl a g i a' g' r c, nth_error code (a_ip a) = Some i ->
      exec i a (tick name a i g) = SNext a' g' ->
      steps name code bl (set_ip a' (S (a_ip a'))) g' r c -> steps name code bl a g r c
  | st_goto : forall name code bl a g i off a' g' t r c, nth_error code (a_ip a) = Some i ->
      exec i a (tick name a i g) = SGoto off a' g' -> goto (length code) (a_ip a') off = Some t ->
      steps name code bl (set_ip a' t) g' r c -> steps name code bl a g r c
  | st_goto_bad : forall name code bl a g i off a' g', nth_error code (a_ip a) = Some i ->
      exec i a (tick name a i g) = SGoto off a' g' -> goto (length code) (a_ip a') off = None ->
      steps name code bl a g (RFail E_goto_range g') [(bl, name)]
  | st_push : forall name code bl a g i l a' g' r c, nth_error code (a_ip a) = Some i ->
      exec i a (tick name a i g) = SPush l a' g' ->
      steps name code (l :: bl) (set_ip (set_ss a' (S (a_ss a'))) (S (a_ip a'))) (push_frame g' l) r c ->
      steps name code bl a g r c
  | st_gotopop : forall name code bl a g i off n a' g' t g'' r c, nth_error code (a_ip a) = Some i ->
      exec i a (tick name a i g) = SGotoPop off n a' g' -> goto (length code) (a_ip a') off = Some t ->
      pop_frames n g' = Some g'' ->
      steps name code (skipn n bl) (set_ip a' t) g'' r c -> steps name code bl a g r c
  | st_gotopop_range : forall name code bl a g i off n a' g', nth_error code (a_ip a) = Some i ->
      exec i a (tick name a i g) = SGotoPop off n a' g' -> goto (length code) (a_ip a') off = None ->
      steps name code bl a g (RFail E_goto_range g') [(bl, name)]
  | st_gotopop_bad : forall name code bl a g i off n a' g' t, nth_error code (a_ip a) = Some i ->
      exec i a (tick name a i g) = SGotoPop off n a' g' -> goto (length code) (a_ip a') off = Some t ->
      pop_frames n g' = None ->
      steps name code bl a g (RFail (E_panic OP_JMP_POP) g') [(bl, name)]
  | st_done0 : forall name code bl a g i a' g' r c, nth_error code (a_ip a) = Some i ->
      exec i a (tick name a i g) = SPopScope a' g' -> a_ss a' = 0 ->
      steps name code bl (set_ip a' (S (a_ip a'))) g' r c -> steps name code bl a g r c
  | st_done : forall name code bl a g i a' g' k g'' r c, nth_error code (a_ip a) = Some i ->
      exec i a (tick name a i g) = SPopScope a' g' -> a_ss a' = S k -> pop_frame g' = Some g'' ->
      steps name code (tl bl) (set_ip (set_ss a' k) (S (a_ip a'))) g'' r c -> steps name code bl a g r c
  | st_done_bad : forall name code bl a g i a' g' k, nth_error code (a_ip a) = Some i ->
      exec i a (tick name a i g) = SPopScope a' g' -> a_ss a' = S k -> pop_frame g' = None ->
      steps name code bl a g (RFail (E_panic OP_DONE) g') [(bl, name)]
  | st_ret : forall name code bl a g i rv a' g', nth_error code (a_ip a) = Some i ->
      exec i a (tick name a i g) = SRet rv a' g' ->
      steps name code bl a g (RDone rv (with_frames g' (drop_to_function (frames g')))) []
  | st_call_done : forall name code bl a g i dest cb' argv' a' g' rv g2 r c, nth_error code (a_ip a) = Some i ->
      exec i a (tick name a i g) = SCall dest cb' argv' a' g' ->
      calls dest argv' cb' g' (RDone rv g2) [] -> rc name (a_ip a') (ret_flag rv) = true ->
      steps name code bl (set_ip (deliver a' rv) (S (a_ip a'))) g2 r c -> steps name code bl a g r c
  | st_call_arity : forall name code bl a g i dest cb' argv' a' g' rv g2, nth_error code (a_ip a) = Some i ->
      exec i a (tick name a i g) = SCall dest cb' argv' a' g' ->
      calls dest argv' cb' g' (RDone rv g2) [] -> rc name (a_ip a') (ret_flag rv) = false ->
      steps name code bl a g (RFail E_arity g2) [(bl, name)]
  | st_call_fail : forall name code bl a g i dest cb' argv' a' g' e g2 c, nth_error code (a_ip a) = Some i ->
      exec i a (tick name a i g) = SCall dest cb' argv' a' g' ->
      calls dest argv' cb' g' (RFail e g2) c ->
      steps name code bl a g (RFail e g2) (c ++ [(bl, name)])          (* the callee's activations, then this one *)
  with calls : str -> list value -> option (list (str * N)) -> gstate -> rres -> list activation -> Prop :=
  | c_missing : forall name argv cb g, assoc name p = None ->
      calls name argv cb g (RFail (E_no_function name) g) []            (* never entered *)
  | c_enter : forall name argv cb g code r c, assoc name p = Some code ->
      steps name code [] (act0 name argv cb) (push_frame g (LFun name)) r c ->
      calls name argv cb g r c.

  Lemma steps_done_nil : forall name code bl a g r c, steps name code bl a g r c ->
    forall rv g', r = RDone rv g' -> c = [].
  Proof.
    induction 1; intros rv0 g0' E; try discriminate; try reflexivity; eauto.
  Qed.
  Lemma steps_fail_last : forall name code bl a g r c, steps name code bl a g r c ->
    forall e g', r = RFail e g' -> exists c' bl', c = c' ++ [(bl', name)].
  Proof.
    induction 1; intros e0 g0' E; try discriminate; eauto;
      try (exists [], bl; reflexivity); try (exists c, bl; reflexivity).
  Qed.
  Lemma calls_done_nil : forall name argv cb g rv g' c, calls name argv cb g (RDone rv g') c -> c = [].
  Proof. intros name argv cb g rv g' c H. inversion H; subst. eapply steps_done_nil; [eassumption|reflexivity]. Qed.
  Lemma calls_fail_last : forall name argv cb g e g' c, calls name argv cb g (RFail e g') c ->
    assoc name p <> None -> exists c' bl', c = c' ++ [(bl', name)].
  Proof.
    intros name argv cb g e g' c H Hn. inversion H; subst; [congruence|].
    eapply steps_fail_last; [eassumption|reflexivity].
  Qed.
End Sem.

Lemma render_app : forall c1 c2, render (c1 ++ c2) = render c1 ++ render c2.
Proof. intros. unfold render. apply flat_map_app. Qed.
Lemma render_one : forall bl n, render [(bl, n)] = bl ++ [LFun n].
Proof. intros. unfold render. cbn. apply app_nil_r. Qed.

Lemma fun_names_app : forall x y, fun_names (x ++ y) = fun_names x ++ fun_names y.
Proof.
  induction x as [|l x IH]; intros y; [reflexivity|]. destruct l; cbn [app fun_names]; rewrite IH; reflexivity.
Qed.
Lemma fun_names_special : forall bl, Forall (fun l => special l = true) bl -> fun_names bl = [].
Proof.
  induction 1 as [|l bl Hl _ IH]; [reflexivity|]. destruct l; try discriminate; exact IH.
Qed.
Lemma fun_names_render : forall c, wf_chain c -> fun_names (render c) = map snd c.
Proof.
  induction 1 as [|[bl n] c Hx _ IH]; [reflexivity|].
  change (render ((bl, n) :: c)) with ((bl ++ [LFun n]) ++ render c).
  rewrite !fun_names_app, IH. cbn [fst] in Hx. rewrite (fun_names_special _ Hx). reflexivity.
Qed.

(* Sound's `shape` counts the open blocks of an activation; shapeL says which they are *)
Definition shapeL (name : str) (base : list frame) (bl : list flabel) (fs : list frame) : Prop :=
  exists bf vs, fs = bf ++ {| lab := LFun name; vars := vs |} :: base /\ map lab bf = bl /\ Forall is_special bf.

Lemma shapeL_iff : forall name base bl fs,
  shapeL name base bl fs <-> shape name base (length bl) fs /\ map lab fs = bl ++ LFun name :: map lab base.
Proof.
  intros name base bl fs. split.
  - intros (bf & vs & -> & <- & F). split; [exists bf, vs; rewrite map_length; auto|apply map_app].
  - intros [(bf & vs & -> & _ & F) M]. exists bf, vs. split; [reflexivity|]. split; [|exact F].
    rewrite map_app in M. apply app_inv_tail in M. exact M.
Qed.

Lemma shapeL_shape : forall name base bl fs, shapeL name base bl fs -> shape name base (length bl) fs.
Proof. intros name base bl fs H. apply shapeL_iff, H. Qed.

Lemma shapeL_labels : forall name base bl fs, shapeL name base bl fs ->
  map lab fs = render [(bl, name)] ++ map lab base /\ Forall (fun l => special l = true) bl.
Proof.
  intros name base bl fs H. split.
  - rewrite render_one, <- app_assoc. apply shapeL_iff, H.
  - destruct H as (bf & vs & _ & <- & F). apply Forall_map. exact F.
Qed.

Lemma shapeL_top_upd : forall name base bl fs fs', shapeL name base bl fs -> top_upd fs fs' -> shapeL name base bl fs'.
Proof.
  intros name base bl fs fs' [S M]%shapeL_iff U. apply shapeL_iff.
  split; [eapply shape_top_upd; eassumption|]. destruct U as [->|(f & r & vs & -> & ->)]; exact M.
Qed.

Lemma shapeL_push : forall name base bl fs l, shapeL name base bl fs -> special l = true ->
  shapeL name base (l :: bl) ({| lab := l; vars := [] |} :: fs).
Proof.
  intros name base bl fs l [S M]%shapeL_iff Hl. apply shapeL_iff.
  split; [apply shape_push; assumption|]. cbn [map lab app]. rewrite M. reflexivity.
Qed.

Lemma shapeL_pop_frame : forall name base l bl g, shapeL name base (l :: bl) (frames g) ->
  exists g', pop_frame g = Some g' /\ shapeL name base bl (frames g').
Proof.
  intros name base l bl g [S M]%shapeL_iff. destruct (shape_pop_frame _ _ _ _ S) as (g' & P & S' & _).
  exists g'. split; [exact P|]. apply shapeL_iff. split; [exact S'|].
  destruct (pop_frame_Some _ _ P) as (f & E & _). rewrite E in M. injection M as _ M. exact M.
Qed.

Lemma shapeL_pop_frames : forall name base k bl g, k <= length bl -> shapeL name base bl (frames g) ->
  exists g', pop_frames k g = Some g' /\ shapeL name base (skipn k bl) (frames g').
Proof.
  induction k as [|k IH]; intros bl g Hk Hs.
  - exists g. cbn. auto.
  - destruct bl as [|l bl]; [cbn in Hk; lia|]. destruct (shapeL_pop_frame _ _ _ _ _ Hs) as [g1 [P1 S1]].
    cbn [length] in Hk. destruct (IH bl g1 ltac:(lia) S1) as [g2 [P2 S2]].
    exists g2. cbn [pop_frames skipn]. rewrite P1. auto.
Qed.

Section Chain.
  Variable rc : str -> nat -> bool -> bool.
  Variable p : program.

  Definition call_ok (r : rres) (dest : str) (argv : list value) (cb : option (list (str * N))) (g : gstate) : Prop :=
    match r with
    | RDone rv g' => frames g' = frames g /\ calls rc p dest argv cb g (RDone rv g') []
    | RFail e g' => exists c, map lab (frames g') = render c ++ map lab (frames g) /\ wf_chain c
                              /\ calls rc p dest argv cb g (RFail e g') c
    | RFuel => True end.

  Definition concl (name : str) (code : list instr) (base : list frame) (bl : list flabel) (a : act) (g : gstate)
             (r : rres) : Prop :=
    match r with
    | RDone rv g' => frames g' = base /\ steps rc p name code bl a g (RDone rv g') []
    | RFail e g' => exists c, map lab (frames g') = render c ++ map lab base /\ wf_chain c
                              /\ steps rc p name code bl a g (RFail e g') c
    | RFuel => True end.

  Lemma concl_lift : forall name code base bl a g bl2 a2 g2 r,
    (forall r c, steps rc p name code bl2 a2 g2 r c -> steps rc p name code bl a g r c) ->
    concl name code base bl2 a2 g2 r -> concl name code base bl a g r.
  Proof.
    intros name code base bl a g bl2 a2 g2 r H C. destruct r as [rv g'|e g'|]; cbn [concl] in *.
    - destruct C as [C1 C2]. split; [exact C1|apply H; exact C2].
    - destruct C as [c [C1 [C2 C3]]]. exists c. split; [exact C1|]. split; [exact C2|apply H; exact C3].
    - exact I.
  Qed.

  Lemma concl_here : forall name code base bl a g e g1,
    shapeL name base bl (frames g1) -> steps rc p name code bl a g (RFail e g1) [(bl, name)] ->
    concl name code base bl a g (RFail e g1).
  Proof.
    intros name code base bl a g e g1 Hsh Hst. destruct (shapeL_labels _ _ _ _ Hsh) as [L W].
    exists [(bl, name)]. split; [exact L|]. split; [|exact Hst]. constructor; [exact W|constructor].
  Qed.

  (* Sound.check_step says which branch of `loop` is taken; each branch is one rule of `steps` *)
  Lemma loop_chain : forall callee name code ds base,
    check code ds = true ->
    (forall dest argv cb g, call_ok (callee dest argv cb g) dest argv cb g) ->
    forall fuel a g bl,
      shapeL name base bl (frames g) -> pos_ok (length code) ds (a_ip a) (length bl) -> length bl <= a_ss a ->
      concl name code base bl a g (loop rc callee name code fuel a g).
  Proof.
    intros callee name code ds base Hc Hcal.
    induction fuel as [|fuel IH]; intros a g bl Hsh Hpos Hss; cbn [loop]; [exact I|].
    destruct Hpos as [[Hip Hd]|[Hip [s Hl]]].
    - assert (E : nth_error code (a_ip a) = None) by (apply nth_error_None; lia). rewrite E.
      assert (Ep := shapeL_shape _ _ _ _ Hsh). rewrite Hd in Ep. apply shape_0 in Ep.
      rewrite Ep. split; [reflexivity|]. apply st_end; assumption.
    - destruct (check_step _ _ _ _ _ Hc Hl) as (i & d & Hi & Hd & Hstep).
      rewrite Hi. cbv zeta.
      change (add_trace g (name, N.of_nat (a_ip a), op i, N.of_nat (length (frames g)), N.of_nat (length (a_ops a))))
        with (tick name a i g).
      set (g1 := tick name a i g). specialize (Hstep g1).
      assert (Hsh1 : shapeL name base bl (frames g1)) by exact Hsh.
      assert (Hex : exec i a g1 = exec_d d a g1) by (unfold exec; rewrite Hd; reflexivity).
      rewrite Hex.
      destruct (exec_d d a g1) as [a' g'|off a' g'|l a' g'|off k a' g'|a' g'|rv a' g'|dest cb' argv' a' g'|e] eqn:Eex;
        clear Eex.
      + destruct Hstep as (Hup & Ess & Hp).
        eapply concl_lift; [intros r c Hst; eapply st_next; eassumption|].
        apply IH; [eapply shapeL_top_upd; [exact Hsh1|apply Hup]|exact Hp|cbn [set_ip a_ss]; lia].
      + destruct Hstep as (-> & Ess & t & Hgo & Hp). rewrite Hgo.
        eapply concl_lift; [intros r c Hst; eapply st_goto; eassumption|].
        apply IH; [exact Hsh1|exact Hp|cbn [set_ip a_ss]; lia].
      + destruct Hstep as (-> & Ess & Hl' & Hp).
        eapply concl_lift; [intros r c Hst; eapply st_push; eassumption|].
        apply IH; [apply shapeL_push; assumption|exact Hp|cbn [set_ip set_ss a_ss length]; lia].
      + destruct Hstep as (-> & Ess & Hk & t & Hgo & Hp). rewrite Hgo.
        destruct (shapeL_pop_frames _ _ _ _ _ Hk Hsh1) as [g2 [P2 S2]]. rewrite P2.
        eapply concl_lift; [intros r c Hst; eapply st_gotopop; eassumption|].
        apply IH; [exact S2|rewrite skipn_length; exact Hp|rewrite skipn_length; cbn [set_ip a_ss]; lia].
      + destruct Hstep as (-> & Ess & k & Ek & Hp).
        destruct bl as [|l bl]; [discriminate|]. cbn [length] in Ek, Hss. injection Ek as <-.
        destruct (a_ss a') as [|k'] eqn:Ess'; [lia|].
        destruct (shapeL_pop_frame _ _ _ _ _ Hsh1) as [g2 [P2 S2]]. rewrite P2.
        eapply concl_lift; [intros r c Hst; eapply st_done; eassumption|].
        apply IH; [exact S2|exact Hp|cbn [set_ip set_ss a_ss tl]; lia].
      + subst g'. cbn [concl with_frames frames]. split; [|eapply st_ret; eassumption].
        eapply shape_drop, shapeL_shape, Hsh1.
      + destruct Hstep as (-> & Ess & Hp). specialize (Hcal dest argv' cb' g1).
        destruct (callee dest argv' cb' g1) as [rv g2|e g2|]; cbn [call_ok] in Hcal; [| |exact I].
        * destruct Hcal as [Hfr2 Hcs].
          assert (Hsh2 : shapeL name base bl (frames g2)) by (rewrite Hfr2; exact Hsh1).
          change (match rv with Some _ => true | None => false end) with (ret_flag rv).
          change (match rv with Some v => set_ops a' (a_ops a' ++ [v]) | None => a' end) with (deliver a' rv).
          destruct (rc name (a_ip a') (ret_flag rv)) eqn:Erc; cbn [negb].
          -- eapply concl_lift; [intros r c Hst; eapply st_call_done; eassumption|].
             apply IH; [exact Hsh2|exact Hp|destruct rv; cbn [deliver set_ip set_ops a_ss]; lia].
          -- apply concl_here; [exact Hsh2|]. eapply st_call_arity; eassumption.
        * destruct Hcal as [c0 [L0 [W0 Hcs]]]. destruct (shapeL_labels _ _ _ _ Hsh1) as [L1 W1].
          exists (c0 ++ [(bl, name)]). split; [|split].
          -- rewrite L0, L1, render_app, <- app_assoc. reflexivity.
          -- apply Forall_app. split; [exact W0|]. constructor; [exact W1|constructor].
          -- eapply st_call_fail; eassumption.
      + apply concl_here; [exact Hsh1|]. eapply st_fail; eassumption.
  Qed.

  Lemma run_chain : checked p -> forall fuel name argv cb g,
    call_ok (run_fn_gen rc fuel p name argv cb g) name argv cb g.
  Proof.
    intros Hp. induction fuel as [|fuel IH]; intros name argv cb g; [exact I|].
    rewrite run_fn_gen_S. destruct (assoc name p) as [code|] eqn:Ea.
    - destruct (Hp _ _ Ea) as [ds Hc].
      assert (Hsh : shapeL name (frames g) [] (frames (push_frame g (LFun name)))) by (exists [], []; cbn; auto).
      assert (H := loop_chain (run_fn_gen rc fuel p) name code ds (frames g) Hc IH fuel
                              (act0 name argv cb) (push_frame g (LFun name)) [] Hsh (pos_ok_entry _ _ Hc) (le_n 0)).
      destruct (loop rc (run_fn_gen rc fuel p) name code fuel (act0 name argv cb) (push_frame g (LFun name)))
        as [rv g2|e g2|]; cbn [concl call_ok] in *.
      + destruct H as [H1 H2]. split; [exact H1|]. eapply c_enter; eassumption.
      + destruct H as [c [H1 [H2 H3]]]. exists c. split; [exact H1|]. split; [exact H2|]. eapply c_enter; eassumption.
      + exact I.
    - cbn [call_ok]. exists []. split; [reflexivity|]. split; [constructor|]. apply c_missing. exact Ea.
  Qed.
End Chain.

(* for every checked program: a failing call leaves on the stack exactly the activations the derivation records *)
Theorem fail_stack_is_active_calls : forall rc p, checked p ->
  forall fuel name argv cb g e g', run_fn_gen rc fuel p name argv cb g = RFail e g' ->
  exists c, calls rc p name argv cb g (RFail e g') c
         /\ map lab (frames g') = render c ++ map lab (frames g)
         /\ fun_names (render c) = map snd c.
Proof.
  intros rc p Hp fuel name argv cb g e g' H. assert (C := run_chain rc p Hp fuel name argv cb g).
  rewrite H in C. destruct C as [c [C1 [C2 C3]]]. exists c. split; [exact C3|]. split; [exact C1|].
  apply fun_names_render. exact C2.
Qed.

Theorem done_is_derivation : forall rc p, checked p ->
  forall fuel name argv cb g rv g', run_fn_gen rc fuel p name argv cb g = RDone rv g' ->
  calls rc p name argv cb g (RDone rv g') [].
Proof.
  intros rc p Hp fuel name argv cb g rv g' H. assert (C := run_chain rc p Hp fuel name argv cb g).
  rewrite H in C. apply C.
Qed.

(* Program::execute: the reported trace *)
Theorem trace_is_call_chain : forall p, checked p ->
  forall fuel entry o e st tr, execute fuel p entry = (o, RuntimeErr e st, tr) ->
  exists g' c, calls (fun _ _ _ => true) p entry [] None g0 (RFail e g') c
            /\ st = render c
            /\ fun_names st = map snd c
            /\ (assoc entry p <> None -> exists c' bl, c = c' ++ [(bl, entry)]).
Proof.
  intros p Hp fuel entry o e st tr H. unfold execute, run_fn in H.
  destruct (run_fn_gen (fun _ _ _ => true) fuel p entry [] None g0) as [rv g'|e' g'|] eqn:E.
  - destruct (frames g'); inversion H.
  - inversion H; subst. clear H.
    destruct (fail_stack_is_active_calls _ p Hp _ _ _ _ _ _ _ E) as [c [C1 [C2 C3]]].
    cbn [g0 frames map] in C2. rewrite app_nil_r in C2.
    exists g', c. split; [exact C1|]. split; [exact C2|]. split; [rewrite C2; exact C3|].
    intros Hn. eapply calls_fail_last; eassumption.
  - inversion H.
Qed.

Definition dop (d : dinstr) : N :=
  match d with
  | DMakeInt _ => OP_MAKE_INT | DMakeBool _ => OP_MAKE_BOOL | DMakeStr _ => OP_MAKE_STR
  | DReserve => OP_RESERVE_PRIMITIVE | DVoid => OP_VOID | DPop => OP_POP | DPrint => OP_PRINTN
  | DBinOp _ => OP_BIN_OP | DNeg => OP_NEG | DNot => OP_NOT | DEqu => OP_EQU | DNeq => OP_NEQ | DRev2 => OP_FAST_REV2
  | DStore _ => OP_STORE | DStoreFast _ => OP_STORE_FAST | DStoreObject _ => OP_STORE_OBJECT
  | DLoad _ => OP_LOAD | DLoadFast _ => OP_LOAD_FAST | DLoadCallback _ => OP_LOAD_CALLBACK
  | DDelete _ => OP_DELETE_NAME_SCOPED | DDeleteRef _ => OP_DELETE_NAME_REFERENCE_SCOPED | DArg _ => OP_ARG
  | DIf _ => OP_IF_STMT | DWhile _ => OP_WHILE_LOOP | DElse => OP_ELSE_STMT | DDone => OP_DONE
  | DJmp _ => OP_JMP | DJmpPop _ _ => OP_JMP_POP | DStoreSkip _ _ _ => OP_STORE_SKIP
  | DAssert _ => OP_ASSERT | DUnwrap _ => OP_UNWRAP | DUnwrapInto _ => OP_UNWRAP_INTO | DJmpNotNil _ => OP_JMP_NOT_NIL
  | DMakeFunction _ _ => OP_MAKE_FUNCTION | DCall _ => OP_CALL | DCallSelf => OP_CALL_SELF | DRet => OP_RET
  | DRetMod => OP_RET_MOD | DBinOpAssign _ _ => OP_BIN_OP_ASSIGN
  end.

(* `decode` is a chain of tests `op i =? OP_X`: in the branch of OP_X the result is a form of that opcode,
   or an error that names it *)
Lemma decode_spec : forall i,
  match decode i with
  | DOk d => dop d = op i
  | DErr e => e = E_bad_arg (op i) \/ e = E_unsupported (op i) end.
Proof.
  intros [o ar]. unfold decode, dec_name, dec_off, arg1. cbn [op args]. cbv zeta.
  repeat lazymatch goal with
  | |- match (if (o =? ?c)%N then _ else _) with _ => _ end =>
      destruct (N.eqb_spec o c) as [->|_]; [break; cbn [dop]; auto|]
  end.
  auto.
Qed.

Lemma decode_op : forall i d, decode i = DOk d -> dop d = op i.
Proof. intros i d H. assert (S := decode_spec i). rewrite H in S. exact S. Qed.

Lemma decode_err : forall i e, decode i = DErr e -> e = E_bad_arg (op i) \/ e = E_unsupported (op i).
Proof. intros i e H. assert (S := decode_spec i). rewrite H in S. exact S. Qed.

Lemma decode_assert : forall i, op i = OP_ASSERT -> decode i = DOk (DAssert (arg1 i)).
Proof. intros [o args] H. cbn [op] in H. subst o. reflexivity. Qed.
Lemma decode_assert_inv : forall i s, decode i = DOk (DAssert s) -> op i = OP_ASSERT /\ s = arg1 i.
Proof.
  intros i s H. assert (Ho := decode_op _ _ H). cbn [dop] in Ho. split; [congruence|].
  rewrite decode_assert in H by congruence. inversion H. reflexivity.
Qed.
Lemma decode_print : forall i, decode i = DOk DPrint -> op i = OP_PRINTN.
Proof. intros i H. apply decode_op in H. cbn [dop] in H. congruence. Qed.

Lemma delete_names_some : forall ns vs, delete_names ns vs <> inl None.
Proof.
  induction ns as [|n ns IH]; intros vs; cbn [delete_names]; [discriminate|].
  destruct (assoc n vs); [apply IH|discriminate].
Qed.

Lemma bind_local_none : forall g n v, bind_local g n v = None -> frames g = [].
Proof. intros g n v H. unfold bind_local in H. destruct (frames g); [reflexivity|]. cbn in H. discriminate. Qed.
Lemma store_var_none : forall g n v, store_var g n v = None -> frames g = [].
Proof.
  intros g n v H. unfold store_var in H. destruct (find_in_function n (frames g)); [discriminate|].
  eapply bind_local_none; exact H.
Qed.

(* the model errors E_panic o that stand for a Rust panic, by cause *)
Definition empty_operands (o : N) : Prop := o = OP_NEG \/ o = OP_NOT \/ o = OP_UNWRAP \/ o = OP_JMP_NOT_NIL.
Definition no_frame (o : N) : Prop :=
  o = OP_STORE \/ o = OP_STORE_FAST \/ o = OP_DELETE_NAME_SCOPED \/ o = OP_DELETE_NAME_REFERENCE_SCOPED
  \/ o = OP_STORE_SKIP \/ o = OP_UNWRAP_INTO.
Definition dangling (o : N) : Prop :=
  o = OP_LOAD \/ o = OP_LOAD_FAST \/ o = OP_LOAD_CALLBACK \/ o = OP_DELETE_NAME_REFERENCE_SCOPED \/ o = OP_BIN_OP_ASSIGN.

(* the errors nothing below speaks of: operands of the wrong type or number, unbound names,
   `get` of nil, division by zero *)
Definition plain_err (e : err) : Prop :=
  match e with
  | E_invalid_op | E_not_bool | E_not_callable | E_load_before_store _ | E_cb _ | E_unwrap_nil _ | E_stack_shape _
  | E_div_zero => True
  | _ => False end.

Definition arith_instr (d : dinstr) : Prop := (exists sym, d = DBinOp sym) \/ (exists sym n, d = DBinOpAssign sym n).

Inductive fail_case (a : act) (g : gstate) : dinstr -> err -> Prop :=
| fc_plain : forall d e, plain_err e -> fail_case a g d e
| fc_print : fail_case a g DPrint (E_unsupported OP_PRINTN)
| fc_arg : forall k, fail_case a g (DArg k) (E_bad_arg OP_ARG)
| fc_assign_bool : forall sym n, fail_case a g (DBinOpAssign sym n) (E_unsupported OP_BIN_OP_ASSIGN)
| fc_bin_unsupported : forall d, arith_instr d -> fail_case a g d (E_unsupported OP_BIN_OP)
| fc_bin_overflow : forall d, arith_instr d -> fail_case a g d (E_overflow OP_BIN_OP)
| fc_neg_overflow : forall r z, a_ops a = r ++ [VInt z] -> i32_ok (- z) = false ->
    fail_case a g DNeg (E_overflow OP_NEG)
| fc_assert : forall sp v, a_ops a = [v] -> val_equals 100 v (VBool true) = Some false ->
    fail_case a g (DAssert (Some sp)) (E_assert sp)
| fc_assert_none : fail_case a g (DAssert None) (E_panic OP_ASSERT)
| fc_empty : forall d o, empty_operands o -> a_ops a = [] -> fail_case a g d (E_panic o)
| fc_no_frame : forall d o, no_frame o -> frames g = [] -> fail_case a g d (E_panic o)
| fc_call_self : current_function (frames g) = None -> fail_case a g DCallSelf (E_panic OP_CALL_SELF)
| fc_dangling : forall d o, dangling o -> fail_case a g d (E_panic o).

Lemma exec_d_fails : forall d a g, match exec_d d a g with SFail e => fail_case a g d e | _ => True end.
Proof.
  intros d a g. unfold exec_d. destruct d; cbv beta iota zeta; hide_sym; break; try exact I;
    first
    [ apply fc_plain; exact I
    | constructor; fail                     (* the rows without a premise *)
    | match goal with Hb : bin_op_sem _ _ _ = OE _ |- _ =>
        destruct (bin_op_sem_errs _ _ _ _ Hb) as [->|[->|[-> _]]];
        [apply fc_plain; exact I|apply fc_bin_unsupported|apply fc_bin_overflow]; unfold arith_instr; eauto end
    | eapply fc_neg_overflow; [apply unsnoc_some; eassumption|assumption]
    | eapply fc_assert; eassumption
    | apply fc_call_self; assumption
    | apply fc_empty; [solve [unfold empty_operands; auto 6]|apply unsnoc_none; assumption]
    | apply fc_no_frame; [solve [unfold no_frame; auto 7]|];
      first [assumption | eapply store_var_none; eassumption | eapply bind_local_none; eassumption]
    | apply fc_dangling; solve [unfold dangling; auto 6]
    | match goal with Hd : delete_names _ _ = inl None |- _ => apply delete_names_some in Hd; contradiction end ].
Qed.
Lemma exec_d_fail_inv : forall d a g e, exec_d d a g = SFail e -> fail_case a g d e.
Proof. intros d a g e H. assert (F := exec_d_fails d a g). rewrite H in F. exact F. Qed.

Lemma print_step : forall a g a' g', exec_d DPrint a g = SNext a' g' ->
  exists l, join_show (a_ops a) = Some l /\ out g' = out g ++ [l].
Proof. intros a g a' g' H. assert (E := exec_d_effect DPrint a g). rewrite H in E. apply E. Qed.

Definition is_print (ev : tev) : bool := let '(_, _, o, _, _) := ev in (o =? OP_PRINTN)%N.
Definition prints_in (tr : list tev) : nat := length (filter is_print tr).
(* the failing instruction was a `printn` (it is in the trace but wrote nothing) *)
Definition print_failed (e : err) : bool :=
  match e with E_unsupported o | E_bad_arg o => (o =? OP_PRINTN)%N | _ => false end.

Lemma prints_in_app : forall x y, prints_in (x ++ y) = prints_in x + prints_in y.
Proof. intros. unfold prints_in. rewrite filter_app, app_length. reflexivity. Qed.

(* k = 1: the newest record is a printn that failed *)
Definition ext (g g' : gstate) (k : nat) : Prop :=
  exists new lines, trace g' = new ++ trace g /\ out g' = out g ++ lines /\ length lines + k = prints_in new.

Lemma ext_refl : forall g g', trace g' = trace g -> out g' = out g -> ext g g' 0.
Proof. intros g g' T O. exists [], []. rewrite T, O, app_nil_r. auto. Qed.
Lemma ext_trans : forall g1 g2 g3 k, ext g1 g2 0 -> ext g2 g3 k -> ext g1 g3 k.
Proof.
  intros g1 g2 g3 k [n1 [l1 [T1 [O1 C1]]]] [n2 [l2 [T2 [O2 C2]]]]. exists (n2 ++ n1), (l1 ++ l2).
  rewrite T2, T1, O2, O1, !app_assoc, prints_in_app, app_length. split; [reflexivity|]. split; [reflexivity|]. lia.
Qed.

Lemma ext_tick : forall name a i g g' lines k,
  trace g' = trace (tick name a i g) -> out g' = out g ++ lines ->
  length lines + k = (if (op i =? OP_PRINTN)%N then 1 else 0) -> ext g g' k.
Proof.
  intros name a i g g' lines k T O C. eexists [_], lines. split; [exact T|]. split; [exact O|].
  unfold prints_in. cbn [filter is_print]. rewrite C. destruct (op i =? OP_PRINTN)%N; reflexivity.
Qed.

Lemma print_failed_exec_d : forall d a g e, exec_d d a g = SFail e -> print_failed e = true -> d = DPrint.
Proof.
  intros d a g e H P. destruct (exec_d_fail_inv _ _ _ _ H) as [d e Hp| | | | | | | | | | | |];
    try reflexivity; try discriminate P.
  destruct e; try discriminate P; contradiction.
Qed.

Lemma print_failed_print : forall a g e, exec_d DPrint a g = SFail e -> print_failed e = true.
Proof. intros a g e H. cbn in H. destruct (join_show (a_ops a)); inversion H. reflexivity. Qed.

Lemma dop_printn : forall d, d <> DPrint -> (dop d =? OP_PRINTN)%N = false.
Proof. intros d Hn. destruct d; first [reflexivity|contradiction Hn; reflexivity]. Qed.

Lemma instr_ext : forall name i a g,
  match exec i a (tick name a i g) with
  | SNext _ g' | SGoto _ _ g' | SPush _ _ g' | SGotoPop _ _ _ g' | SPopScope _ g' | SRet _ _ g' | SCall _ _ _ _ g' => ext g g' 0
  | SFail e => ext g (tick name a i g) (if print_failed e then 1 else 0) end.
Proof.
  intros name i a g. unfold exec. set (g1 := tick name a i g).
  (* when no line is written, k has to make up for the record if that is a printn's *)
  assert (Hquiet : forall g' k, trace g' = trace g1 -> out g' = out g ->
            k = (if (op i =? OP_PRINTN)%N then 1 else 0) -> ext g g' k).
  { intros g' k T O ->. apply (ext_tick name a i g g' []); [exact T|rewrite app_nil_r; exact O|reflexivity]. }
  destruct (decode i) as [d|e] eqn:Ed.
  2:{ apply Hquiet; try reflexivity. destruct (decode_err _ _ Ed) as [-> | ->]; reflexivity. }
  assert (Ho := decode_op _ _ Ed). assert (Hfx := exec_d_effect d a g1).
  destruct (exec_d d a g1) as [a' g'|off a' g'|l a' g'|off k a' g'|a' g'|rv a' g'|dest cb' argv' a' g'|e] eqn:Eex.
  2-7: destruct Hfx as (-> & _ & _ & Hn); apply Hquiet; try reflexivity; rewrite <- Ho, (dop_printn _ Hn); reflexivity.
  - destruct Hfx as (Hup & _ & _ & Hout).
    assert (Hd : d = DPrint /\ (exists l, out g' = out g1 ++ [l]) \/ d <> DPrint /\ out g' = out g1).
    { destruct d; first [right; split; [discriminate|exact Hout]|left; split; [reflexivity|]].
      destruct Hout as (l & _ & Hout). eauto. }
    destruct Hd as [[-> (l & Hout')]|[Hn Hout']].
    + apply (ext_tick name a i g g' [l]); [apply Hup|exact Hout'|rewrite <- Ho; reflexivity].
    + apply Hquiet; [apply Hup|exact Hout'|rewrite <- Ho, (dop_printn _ Hn); reflexivity].
  - apply Hquiet; try reflexivity. rewrite <- Ho. destruct (print_failed e) eqn:Pf.
    + rewrite (print_failed_exec_d _ _ _ _ Eex Pf). reflexivity.
    + rewrite dop_printn; [reflexivity|]. intros ->. rewrite (print_failed_print _ _ _ Eex) in Pf. discriminate Pf.
Qed.

Definition out_ok (r : rres) (g : gstate) : Prop :=
  match r with
  | RDone _ g' => ext g g' 0
  | RFail e g' => ext g g' (if print_failed e then 1 else 0)
  | RFuel => True end.

Lemma out_ok_trans : forall r g1 g2, ext g1 g2 0 -> out_ok r g2 -> out_ok r g1.
Proof. intros r g1 g2 H12 H. destruct r; cbn [out_ok] in *; [| |exact I]; eapply ext_trans; eassumption. Qed.

Lemma ext_pop_frame : forall g g', pop_frame g = Some g' -> ext g g' 0.
Proof. intros g g' H. destruct (pop_frame_Some _ _ H) as (f & _ & T & O). apply ext_refl; assumption. Qed.
Lemma ext_pop_frames : forall k g g', pop_frames k g = Some g' -> ext g g' 0.
Proof. intros k g g' H. destruct (pop_frames_keeps _ _ _ H). apply ext_refl; assumption. Qed.

Lemma loop_out : forall rc callee name code,
  (forall dest argv cb g, out_ok (callee dest argv cb g) g) ->
  forall fuel a g, out_ok (loop rc callee name code fuel a g) g.
Proof.
  intros rc callee name code Hcal. induction fuel as [|fuel IH]; intros a g; cbn [loop]; [exact I|].
  destruct (nth_error code (a_ip a)) as [i|] eqn:Hi.
  2:{ destruct (pop_frame g) as [g'|] eqn:Ep; [apply ext_pop_frame; exact Ep|apply ext_refl; reflexivity]. }
  cbv zeta.
  change (add_trace g (name, N.of_nat (a_ip a), op i, N.of_nat (length (frames g)), N.of_nat (length (a_ops a))))
    with (tick name a i g).
  assert (Hx := instr_ext name i a g).
  destruct (exec i a (tick name a i g)) as [a' g'|off a' g'|l a' g'|off k a' g'|a' g'|rv a' g'|dest cb' argv' a' g'|e].
  - eapply out_ok_trans; [exact Hx|apply IH].
  - destruct (goto (length code) (a_ip a') off); [eapply out_ok_trans; [exact Hx|apply IH]|exact Hx].
  - eapply out_ok_trans; [exact Hx|]. eapply out_ok_trans; [|apply IH]. apply ext_refl; reflexivity.
  - destruct (goto (length code) (a_ip a') off); [|exact Hx].
    destruct (pop_frames k g') as [g2|] eqn:Ep; [|exact Hx].
    eapply out_ok_trans; [exact Hx|]. eapply out_ok_trans; [eapply ext_pop_frames; exact Ep|apply IH].
  - destruct (a_ss a') as [|k']; [eapply out_ok_trans; [exact Hx|apply IH]|].
    destruct (pop_frame g') as [g2|] eqn:Ep; [|exact Hx].
    eapply out_ok_trans; [exact Hx|]. eapply out_ok_trans; [apply ext_pop_frame; exact Ep|apply IH].
  - cbn [out_ok]. eapply ext_trans; [exact Hx|]. apply ext_refl; reflexivity.
  - specialize (Hcal dest argv' cb' g').
    destruct (callee dest argv' cb' g') as [rv g2|e g2|]; cbn [out_ok] in Hcal.
    + destruct (negb (rc name (a_ip a') match rv with Some _ => true | None => false end)).
      * cbn [out_ok print_failed]. eapply ext_trans; eassumption.
      * eapply out_ok_trans; [exact Hx|]. eapply out_ok_trans; [exact Hcal|apply IH].
    + cbn [out_ok]. eapply ext_trans; eassumption.
    + exact I.
  - exact Hx.
Qed.

Lemma run_out : forall rc p fuel name argv cb g, out_ok (run_fn_gen rc fuel p name argv cb g) g.
Proof.
  intros rc p. induction fuel as [|fuel IH]; intros name argv cb g; [exact I|].
  rewrite run_fn_gen_S. destruct (assoc name p) as [code|].
  - eapply out_ok_trans; [|apply loop_out; exact IH]. apply ext_refl; reflexivity.
  - cbn [out_ok print_failed]. apply ext_refl; reflexivity.
Qed.

(* printed lines are never lost or reordered, whatever the program does and however the call ends *)
Theorem output_monotone : forall rc p fuel name argv cb g,
  match run_fn_gen rc fuel p name argv cb g with
  | RDone _ g' | RFail _ g' => exists lines, out g' = out g ++ lines
  | RFuel => True end.
Proof.
  intros rc p fuel name argv cb g. assert (H := run_out rc p fuel name argv cb g).
  destruct (run_fn_gen rc fuel p name argv cb g); cbn [out_ok] in H; [| |exact I];
    destruct H as [new [lines [_ [O _]]]]; exists lines; exact O.
Qed.

(* the number of lines is the number of `printn` instructions executed, not counting a failing one *)
Theorem output_counts : forall rc p fuel name argv cb g,
  match run_fn_gen rc fuel p name argv cb g with
  | RDone _ g' => exists new lines, trace g' = new ++ trace g /\ out g' = out g ++ lines /\ length lines = prints_in new
  | RFail e g' => exists new lines, trace g' = new ++ trace g /\ out g' = out g ++ lines /\
                                    length lines + (if print_failed e then 1 else 0) = prints_in new
  | RFuel => True end.
Proof.
  intros rc p fuel name argv cb g. assert (H := run_out rc p fuel name argv cb g).
  destruct (run_fn_gen rc fuel p name argv cb g); cbn [out_ok] in H; [| exact H |exact I].
  destruct H as [new [lines [T [O C]]]]. exists new, lines. rewrite Nat.add_0_r in C. auto.
Qed.

Lemma prints_in_rev : forall tr, prints_in (rev tr) = prints_in tr.
Proof.
  unfold prints_in. induction tr as [|ev tr IH]; [reflexivity|].
  cbn [rev]. rewrite filter_app, app_length, IH. cbn [filter]. destruct (is_print ev); cbn [length]; lia.
Qed.

(* Program::execute: the reported output is one line per `printn` executed before the failing instruction *)
Theorem output_before_failure : forall p fuel entry o oc tr, execute fuel p entry = (o, oc, tr) ->
  match oc with
  | Done | StackMismatch _ => length o = prints_in tr
  | RuntimeErr e _ => length o + (if print_failed e then 1 else 0) = prints_in tr
  | OutOfFuel => True end.
Proof.
  intros p fuel entry o oc tr H. unfold execute, run_fn in H.
  assert (C := output_counts (fun _ _ _ => true) p fuel entry [] None g0).
  destruct (run_fn_gen (fun _ _ _ => true) fuel p entry [] None g0) as [rv g'|e g'|].
  - destruct C as [new [lines [T [O C]]]]. cbn [g0 trace out app] in T, O. rewrite app_nil_r in T.
    injection H as Ho Hoc Htr. subst o oc tr. rewrite prints_in_rev, T, O, C. destruct (frames g'); reflexivity.
  - destruct C as [new [lines [T [O C]]]]. cbn [g0 trace out app] in T, O. rewrite app_nil_r in T.
    injection H as Ho Hoc Htr. subst o oc tr. rewrite prints_in_rev, T, O. exact C.
  - inversion H. exact I.
Qed.

(* raised by `loop` / `run_fn_gen` themselves, not by an instruction *)
Definition control_err (e : err) : Prop :=
  e = E_goto_range \/ e = E_panic OP_JMP_POP \/ e = E_panic OP_DONE \/ e = E_panic 0%N \/ e = E_arity
  \/ exists n, e = E_no_function n.
Definition at_instr (p : program) (e : err) (g' : gstate) : Prop :=
  exists fn code a i g, assoc fn p = Some code /\ nth_error code (a_ip a) = Some i /\ g' = tick fn a i g
                        /\ exec i a g' = SFail e.
Definition site (p : program) (e : err) (g' : gstate) : Prop := control_err e \/ at_instr p e g'.

Lemma loop_site : forall rc p callee name code, assoc name p = Some code ->
  (forall dest argv cb g e g', callee dest argv cb g = RFail e g' -> site p e g') ->
  forall fuel a g e g', loop rc callee name code fuel a g = RFail e g' -> site p e g'.
Proof.
  intros rc p callee name code Ha Hcal. induction fuel as [|fuel IH]; intros a g e g' H; cbn [loop] in H; [discriminate|].
  (* every branch of `loop` continues (IH), ends, or is a control failure raised by the loop itself;
     the two others are the instruction's own failure and the callee's *)
  assert (Hctl : forall e0 g0, RFail e0 g0 = RFail e g' -> control_err e0 -> site p e g').
  { intros e0 g0 E C. injection E as <- <-. left. exact C. }
  destruct (nth_error code (a_ip a)) as [i|] eqn:Hi.
  2:{ destruct (pop_frame g); [discriminate|]. apply (Hctl _ _ H). unfold control_err. auto 6. }
  cbv zeta in H.
  change (add_trace g (name, N.of_nat (a_ip a), op i, N.of_nat (length (frames g)), N.of_nat (length (a_ops a))))
    with (tick name a i g) in H.
  destruct (exec i a (tick name a i g)) as [a1 g1|off a1 g1|l a1 g1|off k a1 g1|a1 g1|rv a1 g1|dest cb' argv' a1 g1|e1] eqn:Eex.
  - eapply IH; exact H.
  - destruct (goto (length code) (a_ip a1) off); [eapply IH; exact H|]. apply (Hctl _ _ H). unfold control_err. auto.
  - eapply IH; exact H.
  - destruct (goto (length code) (a_ip a1) off); [|apply (Hctl _ _ H); unfold control_err; auto].
    destruct (pop_frames k g1); [eapply IH; exact H|]. apply (Hctl _ _ H). unfold control_err. auto.
  - destruct (a_ss a1); [eapply IH; exact H|].
    destruct (pop_frame g1); [eapply IH; exact H|]. apply (Hctl _ _ H). unfold control_err. auto.
  - discriminate.
  - destruct (callee dest argv' cb' g1) as [rv g2|e2 g2|] eqn:Ec; [| |discriminate].
    + destruct (negb (rc name (a_ip a1) match rv with Some _ => true | None => false end)); [|eapply IH; exact H].
      apply (Hctl _ _ H). unfold control_err. auto 6.
    + injection H as <- <-. eapply Hcal; exact Ec.
  - injection H as <- <-. right. exists name, code, a, i, g. auto.
Qed.

Theorem fail_site : forall rc p fuel name argv cb g e g',
  run_fn_gen rc fuel p name argv cb g = RFail e g' -> site p e g'.
Proof.
  intros rc p. induction fuel as [|fuel IH]; intros name argv cb g e g' H; [discriminate|].
  rewrite run_fn_gen_S in H. destruct (assoc name p) as [code|] eqn:Ea.
  - eapply loop_site; [exact Ea|exact IH|exact H].
  - injection H as <- <-. left. unfold control_err. eauto 7.
Qed.

Lemma at_instr_inv : forall p e g', at_instr p e g' ->
  exists fn code a i g, assoc fn p = Some code /\ nth_error code (a_ip a) = Some i /\ g' = tick fn a i g /\
    ((exists d, decode i = DOk d /\ exec_d d a g' = SFail e) \/ e = E_bad_arg (op i) \/ e = E_unsupported (op i)).
Proof.
  intros p e g' (fn & code & a & i & g & H1 & H2 & H3 & H4). exists fn, code, a, i, g.
  repeat (split; [assumption|]). unfold exec in H4. destruct (decode i) as [d|e0] eqn:Ed; [eauto|].
  injection H4 as <-. right. apply decode_err, Ed.
Qed.

(* a failing assert instruction with a position argument yields exactly that position *)
Lemma assert_step : forall sp a g v, a_ops a = [v] -> val_equals 100 v (VBool true) = Some false ->
  exec_d (DAssert (Some sp)) a g = SFail (E_assert sp).
Proof. intros sp a g v Ho Hv. unfold exec_d. cbv beta iota zeta. rewrite Ho, Hv. reflexivity. Qed.

Lemma assert_instr_step : forall i sp rest a g v, op i = OP_ASSERT -> args i = sp :: rest ->
  a_ops a = [v] -> val_equals 100 v (VBool true) = Some false -> exec i a g = SFail (E_assert sp).
Proof.
  intros i sp rest a g v Hop Hargs Ho Hv. unfold exec. rewrite (decode_assert _ Hop). unfold arg1. rewrite Hargs.
  eapply assert_step; eassumption.
Qed.

(* E_assert arises nowhere else *)
Lemma exec_d_assert_inv : forall d a g sp, exec_d d a g = SFail (E_assert sp) ->
  d = DAssert (Some sp) /\ exists v, a_ops a = [v] /\ val_equals 100 v (VBool true) = Some false.
Proof.
  intros d a g sp H. apply exec_d_fail_inv in H. inversion H; subst; [contradiction|eauto].
Qed.

Lemma exec_assert_inv : forall i a g sp, exec i a g = SFail (E_assert sp) ->
  op i = OP_ASSERT /\ arg1 i = Some sp /\ exists v, a_ops a = [v] /\ val_equals 100 v (VBool true) = Some false.
Proof.
  intros i a g sp H. unfold exec in H. destruct (decode i) as [d|e] eqn:Ed.
  - apply exec_d_assert_inv in H. destruct H as [Hd Hv]. subst d.
    apply decode_assert_inv in Ed. destruct Ed as [E1 E2]. auto.
  - inversion H; subst. destruct (decode_err _ _ Ed); discriminate.
Qed.

Theorem assert_names_position : forall rc p fuel name argv cb g sp g',
  run_fn_gen rc fuel p name argv cb g = RFail (E_assert sp) g' ->
  exists fn code a i g1, assoc fn p = Some code /\ nth_error code (a_ip a) = Some i /\
    op i = OP_ASSERT /\ arg1 i = Some sp /\ g' = tick fn a i g1.
Proof.
  intros rc p fuel name argv cb g sp g' H. apply fail_site in H. destruct H as [H|H].
  - destruct H as [H|[H|[H|[H|[H|[n H]]]]]]; discriminate H.
  - destruct H as [fn [code [a [i [g1 [H1 [H2 [H3 H4]]]]]]]]. apply exec_assert_inv in H4.
    destruct H4 as [E1 [E2 _]]. exists fn, code, a, i, g1. auto.
Qed.

(* integer overflow (a Rust panic in every build): only the arithmetic of bin_op / bin_op_assign and unary minus *)
Lemma exec_d_overflow_inv : forall d a g o, exec_d d a g = SFail (E_overflow o) ->
  (o = OP_BIN_OP /\ ((exists sym, d = DBinOp sym) \/ (exists sym n, d = DBinOpAssign sym n))) \/
  (o = OP_NEG /\ d = DNeg /\ exists r z, a_ops a = r ++ [VInt z] /\ i32_ok (- z) = false).
Proof.
  intros d a g o H. apply exec_d_fail_inv in H. inversion H; subst; [contradiction|auto|eauto 7].
Qed.

Lemma exec_d_panic_inv : forall d a g o, exec_d d a g = SFail (E_panic o) ->
  (empty_operands o /\ a_ops a = [])                                 (* an operand is missing *)
  \/ (no_frame o /\ frames g = [])                                   (* there is no frame to bind in *)
  \/ (o = OP_CALL_SELF /\ current_function (frames g) = None)        (* call_self outside a function *)
  \/ (o = OP_ASSERT /\ d = DAssert None)                             (* assert without its position argument *)
  \/ dangling o.                                                     (* a name bound to a cell that does not exist
                                                                        (bin_op_assign: or a missing operand) *)
Proof.
  intros d a g o H. apply exec_d_fail_inv in H. inversion H; subst; [contradiction|auto 6..].
Qed.

Lemma current_function_special : forall blocks r, Forall (fun f => special (lab f) = true) blocks ->
  current_function (blocks ++ r) = current_function r.
Proof.
  induction 1 as [|f blocks Hf _ IH]; [reflexivity|]. cbn [app current_function].
  destruct (lab f); [discriminate|exact IH..].
Qed.
Lemma chain_current_function : forall extra r, chain extra -> extra <> [] -> current_function (extra ++ r) <> None.
Proof.
  intros extra r H Hne. destruct H as [|blocks n vs rest F _]; [congruence|].
  rewrite <- app_assoc, current_function_special by exact F. cbn. discriminate.
Qed.

(* In the model a failure that stands for a Rust panic is one of:
     E_overflow OP_BIN_OP / OP_NEG   integer overflow of + - * / % (bin_op, bin_op_assign) and unary minus
                                      -- the recorded finding `overflow-is-a-panic`
     E_panic OP_ASSERT               an assert instruction without position argument (the compiler always emits one)
     E_panic of `dangling`           a name bound to a missing heap cell (excluded by the heap invariant of the
                                      C01/C07 simulation, not here); for bin_op_assign the same error also
                                      stands for a missing operand, which this statement does not tell apart
   for every program accepted by the verified structural checker, run under the arity hook of C09:
   no other missing-operand panic, no frame-structure panic, no missing frame, no call_self outside a function. *)
Definition known_panic (e : err) : Prop :=
  match e with
  | E_overflow o => o = OP_BIN_OP \/ o = OP_NEG
  | E_panic o => o = OP_ASSERT \/ dangling o
  | _ => True end.

Theorem panic_only_known : forall dss p, labelled_by dss p ->
  forall fuel name argv cb g e g', run_fn_gen (rc_of dss p) fuel p name argv cb g = RFail e g' -> known_panic e.
Proof.
  intros dss p Hp fuel name argv cb g e g' H.
  assert (Hc : checked p) by (eapply labelled_checked; exact Hp).
  assert (Hfs := frames_safe (rc_of dss p) p Hc fuel name argv cb g). rewrite H in Hfs.
  destruct Hfs as [Hns [extra [Hfr [Hch [Hno Hne]]]]].
  assert (Hsh := shapes_safe dss p Hp _ _ _ _ _ _ _ H).
  destruct (fail_site _ _ _ _ _ _ _ _ _ H) as [Hs|Hs].
  - destruct Hs as [E|[E|[E|[E|[E|[n E]]]]]]; subst e; try exact I; exfalso; apply Hns; unfold structural; auto.
  - destruct (at_instr_inv _ _ _ Hs) as (fn & code & a & i & g1 & _ & _ & _ & [(d & _ & H4)|[-> | ->]]); try exact I.
    destruct e; try exact I; cbn [known_panic].
    + apply exec_d_overflow_inv in H4. destruct H4 as [[E _]|[E _]]; auto.
    + assert (Hex : extra <> []).
      { apply Hne. intros Hn. destruct (Hno Hn) as [E _]. discriminate E. }
      apply exec_d_panic_inv in H4. destruct H4 as [[Ho _]|[[_ Hf]|[[_ Hcf]|[[Ho _]|Hd]]]].
      * exfalso. apply Hsh. unfold shape_err. destruct Ho as [->|[->|[->| ->]]]; auto.
      * exfalso. rewrite Hfr in Hf. apply app_eq_nil in Hf. destruct Hf. contradiction.
      * exfalso. rewrite Hfr in Hcf. revert Hcf. apply chain_current_function; assumption.
      * left. exact Ho.
      * right. exact Hd.
Qed.

(* any hook, any program: where an integer-overflow panic arises *)
Theorem overflow_sites : forall rc p fuel name argv cb g o g',
  run_fn_gen rc fuel p name argv cb g = RFail (E_overflow o) g' ->
  exists fn code a i g1 d, assoc fn p = Some code /\ nth_error code (a_ip a) = Some i /\ g' = tick fn a i g1 /\
    decode i = DOk d /\
    ((o = OP_BIN_OP /\ ((exists sym, d = DBinOp sym) \/ (exists sym n, d = DBinOpAssign sym n))) \/
     (o = OP_NEG /\ d = DNeg /\ exists r z, a_ops a = r ++ [VInt z] /\ i32_ok (- z) = false)).
Proof.
  intros rc p fuel name argv cb g o g' H. destruct (fail_site _ _ _ _ _ _ _ _ _ H) as [Hs|Hs].
  - destruct Hs as [E|[E|[E|[E|[E|[n E]]]]]]; discriminate E.
  - destruct (at_instr_inv _ _ _ Hs) as (fn & code & a & i & g1 & H1 & H2 & H3 & [(d & Hd & H4)|[E|E]]);
      try discriminate E.
    exists fn, code, a, i, g1, d. repeat (split; [assumption|]). eapply exec_d_overflow_inv; exact H4.
Qed.
