(* VM-level facts behind C07: make_function shares cells, store updates in place, modify writes the
   captured cell, a callee-local binding is a fresh cell.  For all states of the model. *)
From MS Require Import Base.StrFacts Vm.Model.

Lemma assoc_set_same : forall A k (v : A) l, assoc k (assoc_set k v l) = Some v.
Proof.
  induction l as [|[k' v'] l IH]; cbn [assoc_set assoc].
  - now rewrite str_eqb_refl.
  - destruct (str_eqb k' k) eqn:E; cbn [assoc]; [now rewrite str_eqb_refl|]. rewrite E. exact IH.
Qed.
Lemma assoc_set_other : forall A k (v : A) x l, x <> k -> assoc x (assoc_set k v l) = assoc x l.
Proof.
  intros A k v x l Hne. induction l as [|[k' v'] l IH]; cbn [assoc_set assoc].
  - rewrite str_eqb_neq; [reflexivity|congruence].
  - destruct (str_eqb k' k) eqn:E; cbn [assoc].
    + apply str_eqb_eq in E. subst k'. rewrite (str_eqb_neq k x) by congruence. reflexivity.
    + destruct (str_eqb k' x); [reflexivity|exact IH].
Qed.

Theorem capture_shares : forall a g ns m, capture a g ns = Some m ->
  forall n, In n ns -> assoc n m = lookup_var a g n.
Proof.
  intros a g ns. induction ns as [|x ns IH]; intros m H n Hin; [contradiction|].
  cbn [capture] in H.
  destruct (lookup_var a g x) as [cx|] eqn:Ex; [|discriminate].
  destruct (capture a g ns) as [r|] eqn:Er; [|discriminate].
  inversion H; subst; clear H.
  destruct (list_eq_dec N.eq_dec x n) as [->|Hne].
  - now rewrite assoc_set_same.
  - rewrite assoc_set_other by congruence. destruct Hin as [->|Hin]; [contradiction|]. now apply IH.
Qed.

Theorem make_function_shares : forall a g loc ns m, ns <> [] -> capture a g ns = Some m ->
  exec_d (DMakeFunction loc ns) a g = SNext (set_ops a (a_ops a ++ [VFun loc (Some m)])) g.
Proof. intros a g loc ns m Hne H. destruct ns; [contradiction|]. cbn [exec_d]. now rewrite H. Qed.

Theorem store_updates_in_place : forall g n v c,
  find_in_function n (frames g) = Some c -> store_var g n v = Some (cell_set g c v).
Proof. intros g n v c H. unfold store_var. now rewrite H. Qed.

Theorem modify_writes_captured_cell : forall a g n v c,
  a_ops a = [v] -> load_cb a g n = Some c ->
  exec_d (DStoreObject n) a g = SNext (set_ops a []) (cell_set g c v)
  /\ frames (cell_set g c v) = frames g.
Proof. intros a g n v c Ho H. split; [|reflexivity]. cbn [exec_d]. now rewrite Ho, H. Qed.

Theorem bind_local_fresh : forall g n v g', bind_local g n v = Some g' ->
  forall c x, cell_get g c = Some x -> cell_get g' c = Some x.
Proof.
  intros g n v g' H c x Hc. unfold bind_local in H. destruct (frames g) as [|f fs]; [discriminate|].
  cbn in H. inversion H; subst; clear H. unfold cell_get in *. cbn [cells with_frames].
  rewrite nth_error_app1; [exact Hc|]. apply nth_error_Some. congruence.
Qed.

Theorem no_captures_not_closure : forall a g loc,
  exec_d (DMakeFunction loc []) a g = SNext (set_ops a (a_ops a ++ [VFun loc None])) g.
Proof. reflexivity. Qed.
