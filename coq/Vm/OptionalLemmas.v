(* VM-level code lemmas behind C12 (for all states): jmp_not_nil, unwrap, unwrap_into, nil-aware equality *)
From MS Require Import Vm.Model.

Lemma unsnoc_snoc {A} (r : list A) x : unsnoc (r ++ [x]) = Some (r, x).
Proof.
  induction r as [|y r IH]; [reflexivity|]. cbn [app unsnoc]. rewrite IH.
  destruct (r ++ [x]) eqn:E; [now destruct r|reflexivity].
Qed.

(* `(x) or y`: a nil is popped and the fallback code runs; anything else stays on the operand stack and jumps over it *)
Theorem jmp_not_nil_nil : forall a g off r, a_ops a = r ++ [VNil] ->
  exec_d (DJmpNotNil off) a g = SNext (set_ops a r) g.
Proof. intros a g off r H. cbn [exec_d]. now rewrite H, unsnoc_snoc. Qed.
Theorem jmp_not_nil_present : forall a g off r v, a_ops a = r ++ [v] -> v <> VNil ->
  exec_d (DJmpNotNil off) a g = SGoto off a g.
Proof. intros a g off r v H Hv. cbn [exec_d]. rewrite H, unsnoc_snoc. destruct v; try reflexivity. contradiction. Qed.

(* `get x`: nil stops the program with the span the compiler put in the instruction; a present value is left as is *)
Theorem unwrap_nil_fails_with_span : forall a g span r, a_ops a = r ++ [VNil] ->
  exec_d (DUnwrap span) a g = SFail (E_unwrap_nil span).
Proof. intros a g span r H. cbn [exec_d]. now rewrite H, unsnoc_snoc. Qed.
Theorem unwrap_present : forall a g span r v, a_ops a = r ++ [v] -> v <> VNil -> (forall w, v <> VSome w) ->
  exec_d (DUnwrap span) a g = SNext a g.
Proof.
  intros a g span r v H Hv Hs. cbn [exec_d]. rewrite H, unsnoc_snoc.
  destruct v; try reflexivity; [contradiction|exfalso; eapply Hs; reflexivity].
Qed.

(* `a ?= e`: the value is stored into a exactly as `a = ...` would (nil included) and the presence flag is pushed *)
Theorem unwrap_into_flag : forall a g n r v g', a_ops a = r ++ [v] -> (forall w, v <> VSome w) ->
  store_var g n v = Some g' ->
  exec_d (DUnwrapInto n) a g = SNext (set_ops a (r ++ [VBool (match v with VNil => false | _ => true end)])) g'.
Proof.
  intros a g n r v g' H Hs Hb. cbn [exec_d]. rewrite H, unsnoc_snoc.
  destruct v; cbn; rewrite ?Hb; try reflexivity. exfalso; eapply Hs; reflexivity.
Qed.

Theorem equals_nil_iff : forall v, val_equals 100 v VNil = Some (match v with VNil => true | _ => false end).
Proof. intros v. destruct v; reflexivity. Qed.
Theorem present_equals_plain : forall z, val_equals 100 (VSome (VInt z)) (VInt z) = Some true.
Proof. intros z. cbn. now rewrite Z.eqb_refl. Qed.
