(* C06: the model of the constant folder (fold FixedF) agrees with run-time evaluation (eval_rt Fixed, the
   operators of NumImpl) for all literal expression trees.  The folder is compared with the specification
   NumSpec, which the run-time operators meet (NumProofs). *)
From MS Require Import Num.NumImpl Num.NumSpec Num.NumProofs Num.NumFloat Fold.FoldModel.

(* the texts of the fixed folder and of source literals: never a "-" prefix on top of a sign *)
Definition canon_txt (t : txt) (z : Z) : Prop := t = Dec z \/ (t = Src z /\ 0 <= z).

Lemma parse_as_src : forall p z, parse_as p (Src z) = if p_in_range p z then Some z else None.
Proof. intros p z. unfold parse_as. cbn [leading_minus parse_Z]. rewrite andb_false_r. reflexivity. Qed.

Lemma parse_as_canon : forall p t z, canon_txt t z ->
  parse_as p t = if p_in_range p z then Some z else None.
Proof.
  intros p t z [-> | [-> _]]; [|apply parse_as_src]. unfold parse_as. cbn [leading_minus parse_Z].
  (* an unsigned type refuses "-.." at the sign; the range check would refuse it too *)
  destruct p as [[| |]|]; cbn [p_signed signed negb andb p_in_range]; try reflexivity.
  - destruct (Z.ltb_spec z 0); [|reflexivity].
    unfold in_range; cbn [imin]. destruct (Z.leb_spec 0 z); [lia | reflexivity].
  - destruct (Z.ltb_spec z 0); [|reflexivity].
    destruct (Z.leb_spec 0 z); [lia | reflexivity].
Qed.

Lemma parse_f_of_int_canon : forall t z, canon_txt t z -> parse_f_of_int t = Some (F_of_Z z).
Proof. intros t z [-> | [-> _]]; reflexivity. Qed.

Definition good (n : number) (v : value) : Prop :=
  match n, v with
  | NInteger t, Int z => canon_txt t z /\ in_range I32 z = true
  | NBigInt t, Big z => canon_txt t z /\ in_range I128 z = true
  | NByte t, Byte z => canon_txt t z /\ in_range U8 z = true
  | NFloat t, Flt f => parse_f t = Some f
  | _, _ => False
  end.

Lemma good_make : forall n v, good n v -> make n = Ok v.
Proof.
  intros n v H. destruct n, v; cbn [good] in H; try contradiction; cbn [make].
  1,2,4: destruct H as [Hc Hr]; rewrite (parse_as_canon _ _ _ Hc); cbn [p_in_range]; rewrite Hr; reflexivity.
  rewrite H. reflexivity.
Qed.

(* kind, text and constructor of a Number, to speak about the nine integer arms at once *)
Definition nkind (n : number) : kind :=
  match n with NInteger _ => KInt | NBigInt _ => KBig | NByte _ => KByte | NFloat _ => KFloat end.
Definition ntxt (n : number) : txt :=
  match n with NInteger t | NBigInt t | NByte t => t | NFloat _ => Src 0 end.
Definition nmk (k : kind) (t : txt) : number :=
  match k with KInt => NInteger t | KBig => NBigInt t | _ => NByte t end.

Lemma good_inv : forall n v, good n v ->
  kind_of v = Some (nkind n) /\ wf v /\ parse_num_f64 n = Some (Fval v) /\
  (nkind n <> KFloat -> canon_txt (ntxt n) (Zval v)).
Proof.
  intros n v H. destruct n, v; cbn [good] in H; try contradiction; cbn [kind_of nkind wf parse_num_f64 Fval ntxt Zval].
  1,2,4: destruct H as [C R]; repeat split; auto using parse_f_of_int_canon.
  repeat split; auto. intros C. now contradiction C.
Qed.

Lemma good_wf : forall n v, good n v -> wf v.
Proof. intros n v H. destruct n, v; cbn [good] in H; try contradiction; cbn [wf]; tauto. Qed.

Lemma good_mk : forall k z, in_range (ity_of k) z = true -> good (nmk k (Dec z)) (mk k z).
Proof. intros k z R. destruct k; (split; [left; reflexivity | exact R]). Qed.

Definition agrees (fr : fres) (r : res value) : Prop :=
  match fr with
  | FVal (CNum n) => exists v, good n v /\ r = Ok v
  | FVal (CBool b) => r = Ok (Bool b)
  | FErr => is_failure r
  | FNot => True
  end.

Definition folds_to (fr : fres) (s : sres) : Prop :=
  match s with
  | Exact v => exists n, fr = FVal (CNum n) /\ good n v
  | Undefined => fr = FErr
  end.

Lemma folds_to_agrees : forall fr s r, folds_to fr s -> meets s r -> agrees fr r.
Proof.
  intros fr [v|] r; cbn [folds_to meets].
  - intros (n & -> & G) ->. exists v. split; [exact G | reflexivity].
  - intros -> F. exact F.
Qed.

(* the arms of string_arithmetic by promoted kind *)
Lemma int_arms_nf : forall f x y,
  int_arms f x y = match promote (nkind x) (nkind y) with
                   | KFloat => None
                   | k => Some (opt_num (nmk k) (cm_checked (P_ity (ity_of k)) (P_ity (ity_of k)) (f (ity_of k))
                                                            (ntxt x) (ntxt y)))
                   end.
Proof. intros f x y. destruct x, y; reflexivity. Qed.

Lemma fold_shift_nf : forall v o x y,
  fold_shift v o x y = match promote (nkind x) (nkind y) with
                       | KFloat => FErr
                       | k => opt_num (nmk k) (cm_checked (P_ity (ity_of k)) P_u32 (fold_sh_fn v (ity_of k) o)
                                                          (ntxt x) (ntxt y))
                       end.
Proof. intros v o x y. destruct x, y; reflexivity. Qed.

Lemma cm_checked_canon : forall lt rt f a b za zb,
  canon_txt a za -> canon_txt b zb -> p_in_range lt za = true ->
  cm_checked lt rt f a b = if p_in_range rt zb then match f za zb with Some z => Some (Dec z) | None => None end
                           else None.
Proof.
  intros lt rt f a b za zb Ha Hb Ra. unfold cm_checked.
  rewrite (parse_as_canon _ _ _ Ha), Ra, (parse_as_canon _ _ _ Hb). now destruct (p_in_range rt zb).
Qed.

Lemma fold_int_spec : forall t o x y, in_range t x = true -> in_range t y = true ->
  fold_int_fn FixedF t o x y = int_spec t o x y.
Proof.
  intros t o x y Hx Hy. unfold int_spec.
  destruct o; cbn [fold_int_fn is_divlike andb exact_Z]; try reflexivity;
    unfold checked_div, exact_rem, checked; destruct (Z.eqb_spec y 0) as [|Hy0]; try reflexivity.
  - rewrite (min_by_m1_spec t x y Hx Hy Hy0). destruct (in_range t (Z.quot x y)); reflexivity.
  - rewrite (rem_in_range t x y Hx Hy0). reflexivity.
Qed.

Lemma opt_num_repr : forall k z,
  folds_to (opt_num (nmk k) (match checked (ity_of k) z with Some z => Some (Dec z) | None => None end))
           (repr k z).
Proof.
  intros k z. unfold checked, repr. destruct (in_range (ity_of k) z) eqn:R; cbn [opt_num folds_to].
  - eexists. split; [reflexivity | apply good_mk; assumption].
  - reflexivity.
Qed.

Lemma int_arm_spec : forall k f ta tb za zb (g : bool) e,
  canon_txt ta za -> canon_txt tb zb -> in_range (ity_of k) za = true -> in_range (ity_of k) zb = true ->
  f za zb = (if g then None else checked (ity_of k) e) ->
  folds_to (opt_num (nmk k) (cm_checked (P_ity (ity_of k)) (P_ity (ity_of k)) f ta tb))
           (if g then Undefined else repr k e).
Proof.
  intros k f ta tb za zb g e Ca Cb Ra Rb E.
  rewrite (cm_checked_canon (P_ity _) _ _ _ _ _ _ Ca Cb Ra). cbn [p_in_range]. rewrite Rb, E.
  destruct g; [reflexivity | apply opt_num_repr].
Qed.

Lemma good_promoted : forall x y a b, good x a -> good y b -> promote (nkind x) (nkind y) <> KFloat ->
  let t := ity_of (promote (nkind x) (nkind y)) in
  canon_txt (ntxt x) (Zval a) /\ canon_txt (ntxt y) (Zval b) /\
  in_range t (Zval a) = true /\ in_range t (Zval b) = true /\ is_zero b = (Zval b =? 0).
Proof.
  intros x y a b Gx Gy Hk.
  destruct (good_inv x a Gx) as (Ka & Wa & _ & Ca), (good_inv y b Gy) as (Kb & Wb & _ & Cb).
  destruct (promoted a b _ _ Wa Wb Ka Kb Hk) as (Ra & Rb & Z).
  assert (nkind x <> KFloat /\ nkind y <> KFloat) as [Fx Fy]
    by (destruct (nkind x), (nkind y); split; (discriminate || exact Hk)).
  auto.
Qed.

Lemma is_zero_Fval : forall b k, kind_of b = Some k -> is_zero b = F_is_zero (Fval b).
Proof. intros b k K. destruct b; try discriminate K; cbn [is_zero Fval]; now rewrite ?F_of_Z_is_zero. Qed.

Lemma fold_arith_spec : forall o x y a b, good x a -> good y b ->
  folds_to (fold_arith FixedF o x y) (spec_arith o a b).
Proof.
  intros o x y a b Gx Gy. pose proof (good_promoted x y a b Gx Gy) as P.
  destruct (good_inv x a Gx) as (Ka & _ & Fa & _), (good_inv y b Gy) as (Kb & _ & Fb & _).
  unfold fold_arith, spec_arith. rewrite Ka, Kb, int_arms_nf. cbv zeta.
  destruct (promote (nkind x) (nkind y)).
  1-3: destruct P as (Ca & Cb & Ra & Rb & ->); [discriminate|];
       apply (int_arm_spec _ _ _ _ (Zval a) (Zval b)); try assumption;
       apply fold_int_spec; assumption.
  unfold cm_float. rewrite Fa, Fb, (is_zero_Fval b _ Kb).
  destruct (is_divlike o && F_is_zero (Fval b)); cbn [opt_flt folds_to]; [reflexivity|].
  eexists. split; reflexivity.
Qed.

Lemma fold_bit_spec : forall o x y a b, good x a -> good y b ->
  folds_to (fold_bit o x y) (spec_bit o a b).
Proof.
  intros o x y a b Gx Gy. pose proof (good_promoted x y a b Gx Gy) as P.
  destruct (good_inv x a Gx) as (Ka & _), (good_inv y b Gy) as (Kb & _).
  unfold fold_bit, spec_bit. rewrite Ka, Kb, int_arms_nf. cbv zeta.
  destruct (promote (nkind x) (nkind y)); [| | |reflexivity].
  all: destruct P as (Ca & Cb & Ra & Rb & _); [discriminate|];
       apply (int_arm_spec _ _ _ _ (Zval a) (Zval b) false (bit_op o (Zval a) (Zval b))); try assumption;
       unfold checked; rewrite (bit_in_range _ o _ _ Ra Rb); reflexivity.
Qed.

Lemma shift_arm_spec : forall k o ta tb za zb,
  canon_txt ta za -> canon_txt tb zb -> in_range (ity_of k) za = true ->
  folds_to (opt_num (nmk k) (cm_checked (P_ity (ity_of k)) P_u32 (exact_sh (ity_of k) o) ta tb))
           (if (0 <=? zb) && (zb <? width (ity_of k))
            then match o with Shl => repr k (za * 2 ^ zb) | Shr => Exact (mk k (Z.shiftr za zb)) end
            else Undefined).
Proof.
  intros k o ta tb za zb Ca Cb Ra. pose proof (width_small (ity_of k)) as W.
  rewrite (cm_checked_canon (P_ity _) _ _ _ _ _ _ Ca Cb Ra). cbn [p_in_range].
  destruct (Z.leb_spec 0 zb) as [Hn|]; cbn [andb]; [|reflexivity].
  destruct (Z.leb_spec zb 4294967295).
  - rewrite (exact_sh_exact _ o _ _ Hn). unfold sh_exact. destruct (zb <? width (ity_of k)); [|reflexivity].
    destruct o; [apply opt_num_repr|].
    eexists. split; [reflexivity | apply good_mk, shiftr_in_range; assumption].
  - destruct (Z.ltb_spec zb (width (ity_of k))); [lia|reflexivity].
Qed.

Lemma fold_shift_spec : forall o x y a b, good x a -> good y b ->
  folds_to (fold_shift FixedF o x y) (spec_shift o a b).
Proof.
  intros o x y a b Gx Gy. pose proof (good_promoted x y a b Gx Gy) as P.
  destruct (good_inv x a Gx) as (Ka & _), (good_inv y b Gy) as (Kb & _).
  unfold spec_shift. rewrite Ka, Kb, fold_shift_nf. cbv zeta. cbn [fold_sh_fn].
  destruct (promote (nkind x) (nkind y)); [| | |reflexivity].
  all: destruct P as (Ca & Cb & Ra & _); [discriminate|]; apply shift_arm_spec; assumption.
Qed.

Lemma good_agrees : forall n v, good n v -> agrees (FVal (CNum n)) (make n).
Proof. intros n v G. exists v. split; [exact G | apply good_make, G]. Qed.

Lemma fold_leaf_agrees : forall n, source (ENum n) ->
  agrees (fold_leaf n) (match fold_leaf n with FVal c => make_c c | _ => Err end).
Proof.
  intros n H. destruct n as [t|t|t|t]; destruct t as [z|z|t']; cbn [source] in H; try contradiction;
  unfold fold_leaf.
  - assert (C : canon_txt (Src z) z) by (right; auto).
    rewrite !parse_as_src. cbn [p_in_range].
    destruct (in_range I32 z) eqn:E1; [apply (good_agrees _ (Int z)); split; assumption|].
    destruct (in_range I128 z) eqn:E2; [apply (good_agrees _ (Big z)); split; assumption | exact I].
  - assert (C : canon_txt (Src z) z) by (right; auto).
    rewrite parse_as_src. cbn [p_in_range].
    destruct (in_range I128 z) eqn:E2; [apply (good_agrees _ (Big z)); split; assumption | exact I].
  - apply (good_agrees _ (Flt z)). reflexivity.
  - apply (good_agrees _ (Byte z)). split; [right; split; [reflexivity | lia] | apply in_range_iff; cbn; lia].
Qed.

Lemma negate_agrees : forall n v, good n v ->
  match negate_num FixedF n with
  | Ok (Some n') => exists v', good n' v' /\ negate Fixed v = Ok v'
  | Ok None => True
  | _ => is_failure (negate Fixed v)
  end.
Proof.
  intros n v H. destruct n as [t|t|t|t], v as [z|z|z|f|b]; cbn [good] in H; try contradiction;
  unfold negate_num, negate, neg_int.
  1,2: destruct H as [C R]; rewrite (parse_as_canon _ _ _ C); cbn [p_in_range]; rewrite R; unfold checked;
       destruct (in_range _ (- _)) eqn:E;
       cbn [expect lift is_failure]; [|exact I];
       eexists; split; [|reflexivity]; split; [left; reflexivity | exact E].
  - exists (Flt (F_neg f)). split; [|reflexivity]. cbn [good].
    destruct t as [g|g|t']; cbn [parse_f f_leading_minus] in *.
    + inversion H. subst. cbn. reflexivity.
    + inversion H. subst. destruct (f_sign_printed f) eqn:S; cbn [parse_f f_leading_minus]; [reflexivity|].
      rewrite S. reflexivity.
    + destruct (f_leading_minus t'); [discriminate|].
      destruct t' as [g|g|t'']; try discriminate; inversion H; subst; cbn [parse_f];
      rewrite F_neg_involutive; reflexivity.
  - exact I.
Qed.

Lemma bind_failure_l : forall {A B} (r : res A) (f : A -> res B), is_failure r -> is_failure (bind r f).
Proof. intros A B r f H. destruct r; cbn in *; [contradiction | exact I | exact I]. Qed.

Lemma bind_failure_r : forall {A B C} (r1 : res A) (r2 : res B) (f : A -> B -> res C),
  is_failure r2 -> is_failure (bind r1 (fun a => bind r2 (f a))).
Proof. intros A B C r1 r2 f H. destruct r1; cbn [bind]; [apply bind_failure_l, H | exact I | exact I]. Qed.

Lemma fold_binop_agrees : forall op x y a b, good x a -> good y b ->
  agrees match op with
         | Arith o => fold_arith FixedF o x y
         | Bit o => fold_bit o x y
         | Shift o => fold_shift FixedF o x y
         | Cmp _ | Equ _ => FNot
         end (binop_eval Fixed op a b).
Proof.
  intros op x y a b Gx Gy.
  destruct (good_inv x a Gx) as (Ka & Wa & _), (good_inv y b Gy) as (Kb & Wb & _).
  assert (Na : is_num a) by (unfold is_num; rewrite Ka; discriminate).
  assert (Nb : is_num b) by (unfold is_num; rewrite Kb; discriminate).
  destruct op as [o|o|o|o|o]; cbn [binop_eval]; try exact I.
  - exact (folds_to_agrees _ _ _ (fold_arith_spec o x y a b Gx Gy) (arith_fixed o a b Wa Wb Na Nb)).
  - exact (folds_to_agrees _ _ _ (fold_bit_spec o x y a b Gx Gy) (bit_exact o a b Wa Wb Na Nb)).
  - exact (folds_to_agrees _ _ _ (fold_shift_spec o x y a b Gx Gy) (shift_exact o a b Wa Wb Na Nb)).
Qed.

Theorem fold_agrees : forall e, source e -> agrees (fold FixedF e) (eval_rt Fixed e).
Proof.
  induction e as [n|b|e1 IH|e1 IH|op l IHl r IHr]; intros S; cbn [fold eval_rt].
  - apply fold_leaf_agrees. exact S.
  - reflexivity.
  - specialize (IH S). destruct (fold FixedF e1) as [[n|b]| |]; cbn [agrees] in IH |- *.
    + destruct IH as (v & G & E). rewrite E. cbn [bind].
      destruct n as [t|t|t|t]; cbn [supports_negate]; try exact I;
      pose proof (negate_agrees _ _ G) as N;
      destruct (negate_num FixedF _) as [[n'|]| |];
      cbn [agrees]; auto.
    + exact I.
    + apply bind_failure_l. exact IH.
    + exact I.
  - specialize (IH S). destruct (fold FixedF e1) as [[n|b]| |]; cbn [agrees] in IH |- *.
    + exact I.
    + rewrite IH. reflexivity.
    + apply bind_failure_l. exact IH.
    + exact I.
  - (* a rejected operand rejects; two numbers are folded; anything else is left to run time *)
    destruct S as [Sl Sr]. specialize (IHl Sl). specialize (IHr Sr).
    destruct (fold FixedF l) as [[x|bl]| |]; cbn [agrees] in IHl.
    + destruct IHl as (a & Ga & ->). cbn [bind].
      destruct (fold FixedF r) as [[y|br]| |]; cbn [agrees] in *; [|exact I|apply bind_failure_l, IHr|exact I].
      destruct IHr as (b & Gb & ->). apply fold_binop_agrees; assumption.
    + destruct (fold FixedF r); [exact I|apply bind_failure_r, IHr|exact I].
    + apply bind_failure_l, IHl.
    + destruct (fold FixedF r); [exact I|apply bind_failure_r, IHr|exact I].
Qed.

Corollary fold_value : forall e n, source e -> fold FixedF e = FVal (CNum n) ->
  exists v, make n = Ok v /\ eval_rt Fixed e = Ok v.
Proof.
  intros e n S H. pose proof (fold_agrees e S) as A. rewrite H in A. cbn in A.
  destruct A as (v & G & E). exists v. split; [apply good_make; exact G | exact E].
Qed.

Corollary fold_reject : forall e, source e -> fold FixedF e = FErr -> is_failure (eval_rt Fixed e).
Proof. intros e S H. pose proof (fold_agrees e S) as A. rewrite H in A. exact A. Qed.

Corollary fold_failure_not_folded : forall e c, source e ->
  is_failure (eval_rt Fixed e) -> fold FixedF e <> FVal c.
Proof.
  intros e c S F H. pose proof (fold_agrees e S) as A. rewrite H in A.
  destruct c as [n|b]; cbn in A.
  - destruct A as (v & _ & E). rewrite E in F. exact F.
  - rewrite A in F. exact F.
Qed.

(* fixes/literal-kind-decided-once.diff: the kind of an integer literal is decided by the parser *)
Lemma fold_leaf_literal_int : forall z n, 0 <= z -> literal_int z = Some n ->
  fold_leaf n = fold_leaf (NInteger (Src z)).
Proof.
  intros z n Hz H. unfold literal_int in H.
  destruct (in_range I128 z) eqn:R128; [|discriminate].
  destruct (in_range I32 z) eqn:R32; inversion H; subst; [reflexivity|].
  unfold fold_leaf. rewrite !parse_as_src. cbn [p_in_range]. rewrite R32, R128. reflexivity.
Qed.

Lemma literal_int_parsed : forall z n, literal_int z = Some n -> parsed (ENum n).
Proof.
  intros z n H. unfold literal_int in H.
  destruct (in_range I128 z); [|discriminate].
  destruct (in_range I32 z) eqn:R32; inversion H; subst; cbn; auto.
Qed.

Theorem inline_agrees : forall v e, source e -> parsed e -> eval_inline v e = eval_rt v e.
Proof.
  intros v e. induction e as [n|b|e1 IH|e1 IH|op l IHl r IHr]; intros S P; cbn [eval_inline eval_rt].
  - destruct n as [t|t|t|t]; try reflexivity; destruct t as [z|z|t']; cbn [source parsed] in *; try contradiction;
    unfold fold_leaf, make; rewrite !parse_as_src; cbn [p_in_range].
    + rewrite P. cbn [make_c make]. rewrite parse_as_src. cbn [p_in_range]. rewrite P. reflexivity.
    + destruct (in_range I128 z) eqn:R; [|reflexivity].
      cbn [make_c make]. rewrite parse_as_src. cbn [p_in_range]. rewrite R. reflexivity.
  - reflexivity.
  - rewrite (IH S P). reflexivity.
  - rewrite (IH S P). reflexivity.
  - destruct S as [Sl Sr], P as [Pl Pr]. rewrite (IHl Sl Pl), (IHr Sr Pr). reflexivity.
Qed.

(* the ORIGINAL parser left `3000000000` an Integer: `3000000000 < 5` is not folded, is accepted, and dies
   in make_int, while the same comparison over variables is false *)
Definition e_big_cmp := EBin (Cmp CLt) (ENum (NInteger (Src 3000000000))) (ENum (NInteger (Src 5))).
Lemma orig_oversized_literal_refuted : forall v,
  source e_big_cmp /\ fold FixedF e_big_cmp = FNot /\ fold OrigF e_big_cmp = FNot /\
  eval_inline v e_big_cmp = Err /\ eval_rt v e_big_cmp = Ok (Bool false) /\
  (exists n, literal_int 3000000000 = Some n /\
             eval_inline v (EBin (Cmp CLt) (ENum n) (ENum (NInteger (Src 5)))) = Ok (Bool false)).
Proof.
  intros v. split; [cbn; lia|]. split; [reflexivity|]. split; [reflexivity|].
  split; [reflexivity|]. split; [destruct v as [[|]|]; reflexivity|].
  eexists. split; [reflexivity|]. destruct v as [[|]|]; reflexivity.
Qed.

(* `<<`: folder and run time were changed together (fixes/num-shl-lost-bits.diff); before, both produced the
   truncated pattern (C06 held, C05 did not) *)
Definition e_shl := EBin (Shift Shl) (ENum (NInteger (Src 1))) (ENum (NInteger (Src 31))).    (* 1 << 31 *)
Lemma shl_changed_together : forall m,
  source e_shl /\ fold FixedF e_shl = FErr /\ eval_rt Fixed e_shl = Err /\
  fold OrigF e_shl = FVal (CNum (NInteger (Dec (-2147483648)))) /\
  eval_rt (Orig m) e_shl = Ok (Int (-2147483648)).
Proof.
  intros m. split; [cbn; lia|]. split; [vm_compute; reflexivity|]. split; [vm_compute; reflexivity|].
  split; [vm_compute; reflexivity | destruct m; vm_compute; reflexivity].
Qed.

(* The ORIGINAL folder: real disagreements (each reproduced on the real binary; repaired by
   fixes/fold-negate.diff, fixes/num-byte-zero-divisor.diff and fixes/num-rem-min-by-minus-one.diff) *)
Definition e_neg_big := ENeg (ENum (NBigInt (Src 5))).                                   (* -B5 *)
Definition e_neg_neg := ENeg (ENeg (ENum (NInteger (Src 5)))).                           (* -(-5) *)
Definition e_flt_byte0 := EBin (Arith Div) (ENum (NFloat (FSrc (F_of_Z 3)))) (ENum (NByte (Src 0))).   (* 3.0 / 0b0 *)
Definition e_min_rem := EBin (Arith Rem)
  (EBin (Arith Sub) (ENeg (ENum (NInteger (Src 2147483647)))) (ENum (NInteger (Src 1))))
  (ENeg (ENum (NInteger (Src 1)))).                                                      (* (-2147483647 - 1) % -1 *)

Lemma orig_neg_bigint_refuted : forall m,
  source e_neg_big /\
  (exists n, fold OrigF e_neg_big = FVal (CNum n) /\ make n = Ok (Int (-5))) /\
  eval_rt (Orig m) e_neg_big = Ok (Big (-5)).
Proof.
  intros m. split; [cbn; lia|]. split.
  - eexists. split; reflexivity.
  - destruct m; reflexivity.
Qed.

(* `-(-5)` folds to the text "--5": the compiler accepts it and make_int fails at run time *)
Lemma orig_double_negation_refuted : forall m,
  source e_neg_neg /\
  (exists n, fold OrigF e_neg_neg = FVal (CNum n) /\ make n = Err) /\
  eval_rt (Orig m) e_neg_neg = Ok (Int 5).
Proof.
  intros m. split; [cbn; lia|]. split.
  - eexists. split; reflexivity.
  - destruct m; reflexivity.
Qed.

Lemma orig_float_by_byte_zero_fold_refuted : forall m,
  source e_flt_byte0 /\ fold OrigF e_flt_byte0 = FErr /\
  eval_rt (Orig m) e_flt_byte0 = Ok (Flt (B754_infinity false)).
Proof.
  intros m. split; [cbn; repeat split; lia|]. split.
  - vm_compute. reflexivity.
  - destruct m; vm_compute; reflexivity.
Qed.

(* why the `%` of the folder is changed together with the run time: the original folder (checked_rem)
   rejects `MIN % -1`, the fixed run time yields 0 *)
Lemma orig_min_rem_fold_refuted :
  source e_min_rem /\ eval_rt Fixed e_min_rem = Ok (Int 0) /\
  fold FixedF e_min_rem = FVal (CNum (NInteger (Dec 0))).
Proof. split; [cbn; repeat split; lia|]. split; vm_compute; reflexivity. Qed.
