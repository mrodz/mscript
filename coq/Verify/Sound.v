(* C09: soundness of the certificate checker `Verify.Check.check` w.r.t. the VM model `Vm.Model`.
   An accepted labelling is an invariant of the interpreter loop: what one instruction does is read off `exec_d`
   in three sweeps over its forms (state, control, operands), and each theorem is an induction on the fuel of
   `loop` inside an induction on the call fuel.
   Theorem A (frames_safe): frames and jumps, for ANY return hook (so for the interpreter `run_fn`).
   Theorem B (shapes_safe): operand shapes, under the arity hook `rc_of`. *)
From MS Require Import Vm.Model Verify.Check.
From Coq Require Import Lia.
Open Scope nat_scope.

Definition checked (p : program) : Prop :=
  forall name code, assoc name p = Some code -> exists ds, check code ds = true.

(* structural failures: the ones a malformed frame/jump structure produces *)
Definition structural (e : err) : Prop :=
  e = E_goto_range \/ e = E_panic OP_DONE \/ e = E_panic OP_JMP_POP \/ e = E_panic 0%N.

(* the frames of active calls, innermost first *)
Inductive chain : list frame -> Prop :=
| chain_nil : chain []
| chain_cons : forall blocks n vs rest, Forall (fun f => special (lab f) = true) blocks ->
               chain rest -> chain (blocks ++ {| lab := LFun n; vars := vs |} :: rest).

(* operand-shape failures: an instruction did not find the operands it requires *)
Definition shape_err (e : err) : Prop :=
  (exists o, e = E_stack_shape o) \/ e = E_panic OP_NEG \/ e = E_panic OP_NOT \/ e = E_panic OP_UNWRAP
  \/ e = E_panic OP_JMP_NOT_NIL.

(* boolean versions (for computation inside the case analyses) *)
Definition structuralb (e : err) : bool :=
  match e with
  | E_goto_range => true
  | E_panic o => (o =? OP_DONE)%N || (o =? OP_JMP_POP)%N || (o =? 0)%N
  | _ => false end.
Definition shape_errb (e : err) : bool :=
  match e with
  | E_stack_shape _ => true
  | E_panic o => (o =? OP_NEG)%N || (o =? OP_NOT)%N || (o =? OP_UNWRAP)%N || (o =? OP_JMP_NOT_NIL)%N
  | _ => false end.

Lemma structuralb_false : forall e, structuralb e = false -> ~ structural e.
Proof.
  intros e H [E|[E|[E|E]]]; subst e; vm_compute in H; discriminate.
Qed.
Lemma shape_errb_false : forall e, shape_errb e = false -> ~ shape_err e.
Proof.
  intros e H [[o E]|[E|[E|[E|E]]]]; subst e; vm_compute in H; discriminate.
Qed.

Lemma unsnoc_spec : forall A (l : list A),
  match unsnoc l with Some (r, x) => l = r ++ [x] | None => l = [] end.
Proof.
  induction l as [|a [|b l'] IH]; [reflexivity..|].
  change (unsnoc (a :: b :: l')) with
    (match unsnoc (b :: l') with Some (i, z) => Some (a :: i, z) | None => None end).
  destruct (unsnoc (b :: l')) as [[i z]|]; [rewrite IH; reflexivity|discriminate IH].
Qed.
Lemma unsnoc_some : forall A (l : list A) r x, unsnoc l = Some (r, x) -> l = r ++ [x].
Proof. intros A l r x H. assert (S := unsnoc_spec A l). rewrite H in S. exact S. Qed.
Lemma unsnoc_none : forall A (l : list A), unsnoc l = None -> l = [].
Proof. intros A l H. assert (S := unsnoc_spec A l). rewrite H in S. exact S. Qed.

Lemma mem_In : forall n s, mem n s = true <-> In n s.
Proof.
  intros n s. unfold mem. rewrite existsb_exists. split.
  - intros [x [Hx E]]. apply Nat.eqb_eq in E. subst. exact Hx.
  - intros H. exists n. split; [exact H|apply Nat.eqb_refl].
Qed.

Ltac b2p := repeat match goal with
  | H : (_ <=? _) = true |- _ => apply Nat.leb_le in H
  | H : (_ <=? _) = false |- _ => apply Nat.leb_gt in H
  | H : (_ <? _) = true |- _ => apply Nat.ltb_lt in H
  | H : (_ <? _) = false |- _ => apply Nat.ltb_ge in H
  | H : (_ =? _) = true |- _ => apply Nat.eqb_eq in H
  | H : (_ =? _) = false |- _ => apply Nat.eqb_neq in H
  | H : (_ <=? _)%Z = true |- _ => apply Z.leb_le in H
  | H : (_ <=? _)%Z = false |- _ => apply Z.leb_gt in H
  | H : (_ <? _)%Z = true |- _ => apply Z.ltb_lt in H
  | H : (_ <? _)%Z = false |- _ => apply Z.ltb_ge in H
  | H : (_ =? _)%Z = true |- _ => apply Z.eqb_eq in H
  | H : (_ =? _)%Z = false |- _ => apply Z.eqb_neq in H
  | H : (_ && _) = true |- _ => apply andb_true_iff in H; destruct H
  end.

Ltac break1 :=
  match goal with
  | |- context [match ?x with _ => _ end] =>
      lazymatch x with
      | context [match _ with _ => _ end] => fail
      | _ => (is_var x; destruct x) || destruct x eqn:?
      end
  end.
Ltac break := repeat break1.
(* bin_op_assign strips the `=` off its symbol by a match on the characters, which `break` would take apart
   (139 cases instead of 11): the case analyses of `exec_d` leave the stripped symbol abstract *)
Ltac hide_sym :=
  try match goal with |- context [bin_op_sem ?b] =>
        lazymatch b with match _ with _ => _ end => generalize b; intro end end.

Lemma goto_some : forall len ip off, (0 <= Z.of_nat ip + off < Z.of_nat len)%Z ->
  goto len ip off = Some (Z.to_nat (Z.of_nat ip + off)).
Proof.
  intros len ip off H. unfold goto.
  destruct (Z.of_nat ip + off <? 0)%Z eqn:E1; b2p; [lia|].
  destruct (Z.of_nat len <=? Z.of_nat ip + off)%Z eqn:E2; b2p; [lia|]. reflexivity.
Qed.
Lemma goto_inv : forall len ip off t, goto len ip off = Some t -> t = Z.to_nat (Z.of_nat ip + off).
Proof.
  intros len ip off t H. unfold goto in H.
  destruct ((Z.of_nat ip + off <? 0)%Z || (Z.of_nat len <=? Z.of_nat ip + off)%Z); inversion H. reflexivity.
Qed.
Lemma nxt_nat : forall ip, Z.to_nat (Z.of_nat ip + 1) = S ip.
Proof. intros. lia. Qed.

Lemma pop_frame_Some : forall g g', pop_frame g = Some g' ->
  exists f, frames g = f :: frames g' /\ trace g' = trace g /\ out g' = out g.
Proof. intros g g' H. unfold pop_frame in H. destruct (frames g) as [|f r]; inversion H. exists f. auto. Qed.
Lemma pop_frames_keeps : forall k g g', pop_frames k g = Some g' -> trace g' = trace g /\ out g' = out g.
Proof.
  induction k as [|k IH]; intros g g' H; cbn [pop_frames] in H; [inversion H; split; reflexivity|].
  destruct (pop_frame g) as [g1|] eqn:E; [|discriminate].
  destruct (IH _ _ H) as [T O], (pop_frame_Some _ _ E) as (f & _ & T1 & O1). split; congruence.
Qed.

Definition pos_ok (len : nat) (ds : labelling) (ip depth : nat) : Prop :=
  (ip = len /\ depth = 0) \/ (ip < len /\ exists s, lab_at ds ip = Some (depth, s)).
Definition pos_okn (len : nat) (ds : labelling) (ip n : nat) : Prop :=
  len <= ip \/ exists depth s, lab_at ds ip = Some (depth, s) /\ In n s.

Lemma edge_ok_inv : forall len ds k d n, edge_ok len ds (TIp k, d, n) = true ->
  (0 <= k)%Z /\ ((Z.to_nat k = len /\ d = 0) \/
                 (Z.to_nat k < len /\ exists s, lab_at ds (Z.to_nat k) = Some (d, s) /\ In n s)).
Proof.
  intros len ds k d n H. unfold edge_ok in H.
  destruct (k <? 0)%Z eqn:E0; [discriminate|]. b2p. split; [lia|].
  destruct (Z.to_nat k =? len) eqn:E1; b2p.
  - left. split; assumption.
  - destruct (len <? Z.to_nat k) eqn:E2; [discriminate|]. b2p. right. split; [lia|].
    destruct (lab_at ds (Z.to_nat k)) as [[d' s']|]; [|discriminate].
    b2p. subst d'. exists s'. split; [reflexivity|]. apply mem_In. assumption.
Qed.

Definition tgtA (len : nat) (ds : labelling) (t : target) (d : nat) : Prop :=
  match t with TIp k => (0 <= k)%Z /\ pos_ok len ds (Z.to_nat k) d | TExit => True end.
Definition tgtB (len : nat) (ds : labelling) (t : target) (d n : nat) : Prop :=
  match t with
  | TIp k => (0 <= k)%Z /\ (Z.to_nat k = len \/ exists s, lab_at ds (Z.to_nat k) = Some (d, s) /\ In n s)
  | TExit => True end.

Lemma edge_ok_tgtA : forall len ds t d n, edge_ok len ds (t, d, n) = true -> tgtA len ds t d.
Proof.
  intros len ds [k|] d n H; [|exact I]. apply edge_ok_inv in H. destruct H as [H0 [[H1 H2]|[H1 [s [H2 _]]]]].
  - split; [exact H0|]. left. split; assumption.
  - split; [exact H0|]. right. split; [exact H1|]. exists s. exact H2.
Qed.
Lemma edge_ok_tgtB : forall len ds t d n, edge_ok len ds (t, d, n) = true -> tgtB len ds t d n.
Proof.
  intros len ds [k|] d n H; [|exact I]. apply edge_ok_inv in H. destruct H as [H0 [[H1 H2]|[H1 [s H2]]]].
  - split; [exact H0|]. left. exact H1.
  - split; [exact H0|]. right. exists s. exact H2.
Qed.

Lemma tgtB_pos : forall len ds k d n, tgtB len ds (TIp k) d n -> pos_okn len ds (Z.to_nat k) n.
Proof.
  intros len ds k d n [_ [H|[s H]]]; [left; lia|right; exists d, s; exact H].
Qed.
Lemma tgtB_nxt : forall len ds ip d n, tgtB len ds (nxt ip) d n -> pos_okn len ds (S ip) n.
Proof. intros len ds ip d n H. apply tgtB_pos in H. rewrite nxt_nat in H. exact H. Qed.
Lemma tgtB_rel : forall len ds ip off d n t,
  tgtB len ds (rel ip off) d n -> goto len ip off = Some t -> pos_okn len ds t n.
Proof. intros len ds ip off d n t H Ht. apply goto_inv in Ht. subst t. eapply tgtB_pos, H. Qed.

Fixpoint all_e (Q : target -> nat -> nat -> Prop) (es : list edge) : Prop :=
  match es with [] => True | (t, d, n) :: es => Q t d n /\ all_e Q es end.
Fixpoint ex_e (Q : target -> nat -> nat -> Prop) (es : list edge) : Prop :=
  match es with [] => False | (t, d, n) :: es => Q t d n \/ ex_e Q es end.
(* of the two edges of a call (the callee delivers a value or not) `check` accepts one only: `covers` asks
   for one, and `coversB` says nothing there, the hook decides *)
Definition covers (s : astep) (Q : target -> nat -> nat -> Prop) : Prop :=
  match s with ABad => False | AEdges es => all_e Q es | ACall es => ex_e Q es end.
Definition coversB (s : astep) (Q : target -> nat -> nat -> Prop) : Prop :=
  match s with ABad => False | AEdges es => all_e Q es | ACall _ => True end.

Lemma all_e_forallb : forall (f : edge -> bool) (Q : target -> nat -> nat -> Prop),
  (forall t d n, f (t, d, n) = true -> Q t d n) -> forall es, forallb f es = true -> all_e Q es.
Proof.
  intros f Q HfQ. induction es as [|[[t d] n] es IH]; cbn [forallb all_e]; intros H; [exact I|].
  apply andb_true_iff in H. destruct H as [H1 H2]. split; [apply HfQ; exact H1|apply IH; exact H2].
Qed.
Lemma ex_e_existsb : forall (f : edge -> bool) (Q : target -> nat -> nat -> Prop),
  (forall t d n, f (t, d, n) = true -> Q t d n) -> forall es, existsb f es = true -> ex_e Q es.
Proof.
  intros f Q HfQ. induction es as [|[[t d] n] es IH]; cbn [existsb ex_e]; intros H; [discriminate|].
  apply orb_true_iff in H. destruct H as [H|H]; [left; apply HfQ; exact H|right; apply IH; exact H].
Qed.

Lemma all_e_mono : forall (Q Q' : target -> nat -> nat -> Prop),
  (forall t d n, Q t d n -> Q' t d n) -> forall es, all_e Q es -> all_e Q' es.
Proof.
  intros Q Q' HQ. induction es as [|[[t d] n] es IH]; cbn [all_e]; [tauto|]. intros [H1 H2]. split; auto.
Qed.
Lemma covers_mono : forall s (Q Q' : target -> nat -> nat -> Prop),
  (forall t d n, Q t d n -> Q' t d n) -> covers s Q -> covers s Q'.
Proof.
  intros s Q Q' HQ. destruct s as [|es|es]; cbn [covers]; [tauto|apply all_e_mono; exact HQ|].
  induction es as [|[[t d] n] es IH]; cbn [ex_e]; [tauto|]. intros [H1|H2]; auto.
Qed.
Lemma coversB_of : forall len ds s,
  covers s (fun t d' n' => edge_ok len ds (t, d', n') = true) -> coversB s (tgtB len ds).
Proof.
  intros len ds [|es|es]; cbn [covers coversB]; [tauto| |tauto]. apply all_e_mono. intros t d n. apply edge_ok_tgtB.
Qed.

Lemma check_len : forall code ds, check code ds = true -> length ds = length code.
Proof.
  intros code ds H. unfold check in H. apply andb_true_iff in H. destruct H as [H _].
  apply andb_true_iff in H. destruct H as [H _]. apply Nat.eqb_eq in H. exact H.
Qed.

Lemma check_entry : forall code ds, check code ds = true -> code <> [] ->
  exists s, lab_at ds 0 = Some (0, s) /\ In 0 s.
Proof.
  intros code ds H Hne. unfold check in H. apply andb_true_iff in H. destruct H as [H _].
  apply andb_true_iff in H. destruct H as [_ H]. destruct code as [|i code]; [congruence|].
  destruct (lab_at ds 0) as [[[|d] s]|]; try discriminate. exists s. split; [reflexivity|].
  apply mem_In. exact H.
Qed.

Lemma pos_ok_entry : forall code ds, check code ds = true -> pos_ok (length code) ds 0 0.
Proof.
  intros code ds Hc. destruct code as [|i code']; [left; split; reflexivity|].
  right. split; [cbn; lia|]. destruct (check_entry _ _ Hc ltac:(discriminate)) as [s [Hs _]]. exists s. exact Hs.
Qed.

Lemma lab_at_lt : forall ds k l, lab_at ds k = Some l -> k < length ds.
Proof.
  intros ds k l H. unfold lab_at in H. destruct (nth_error ds k) eqn:E; [|discriminate].
  apply nth_error_Some. congruence.
Qed.

Lemma check_at_inv : forall code ds ip depth s, check code ds = true -> lab_at ds ip = Some (depth, s) ->
  exists i d, nth_error code ip = Some i /\ decode i = DOk d /\ s <> [] /\
    (forall o, jump_off d = Some o -> (0 <= Z.of_nat ip + o < Z.of_nat (length code))%Z) /\
    (forall n, In n s ->
       covers (abs_step d ip depth n) (fun t d' n' => edge_ok (length code) ds (t, d', n') = true)).
Proof.
  intros code ds ip depth s Hc Hl.
  assert (Hlen := check_len _ _ Hc). assert (Hip := lab_at_lt _ _ _ Hl). rewrite Hlen in Hip.
  unfold check in Hc. apply andb_true_iff in Hc. destruct Hc as [_ Hall].
  rewrite forallb_forall in Hall. specialize (Hall ip).
  assert (Hin : In ip (seq 0 (length code))) by (apply in_seq; lia).
  specialize (Hall Hin). unfold check_at in Hall. rewrite Hl in Hall.
  destruct (nth_error code ip) as [i|] eqn:Ei; [|discriminate].
  destruct (decode i) as [d|] eqn:Ed; [|discriminate].
  exists i, d. split; [reflexivity|]. split; [exact Ed|].
  apply andb_true_iff in Hall. destruct Hall as [Hall H3].
  apply andb_true_iff in Hall. destruct Hall as [H1 H2].
  split; [destruct s; [discriminate|congruence]|]. split.
  - intros o Ho. rewrite Ho in H2. b2p. lia.
  - intros n Hn. rewrite forallb_forall in H3. specialize (H3 n Hn).
    destruct (abs_step d ip depth n) as [|es|es]; [discriminate| |]; cbn [covers].
    + revert H3. apply all_e_forallb. intros t d' n' H. apply andb_true_iff in H. apply H.
    + revert H3. apply ex_e_existsb. intros t d' n' H. exact H.
Qed.

(* only the TOP frame's variable map may change (bind_local / delete); cells live in the heap *)
Definition top_upd (fs fs' : list frame) : Prop :=
  fs' = fs \/ exists f r vs, fs = f :: r /\ fs' = {| lab := lab f; vars := vs |} :: r.
Definition gupd (g g' : gstate) : Prop := top_upd (frames g) (frames g') /\ trace g' = trace g.

Lemma gupd_refl : forall g, gupd g g.
Proof. intros g. split; [left|]; reflexivity. Qed.
Lemma gupd_cell_set : forall g c v, gupd g (cell_set g c v).
Proof. intros. split; [left|]; reflexivity. Qed.
Lemma gupd_emit : forall g l, gupd g (emit_line g l).
Proof. intros. split; [left|]; reflexivity. Qed.
Lemma gupd_top : forall g f r vs, frames g = f :: r -> gupd g (with_frames g ({| lab := lab f; vars := vs |} :: r)).
Proof. intros g f r vs H. split; [right; exists f, r, vs; split; [exact H|reflexivity]|reflexivity]. Qed.
Lemma bind_local_effect : forall g n v g', bind_local g n v = Some g' -> gupd g g' /\ out g' = out g.
Proof.
  intros g n v g' H. unfold bind_local in H. destruct (frames g) as [|f r] eqn:E; [discriminate|].
  injection H as <-. split; [|reflexivity]. split; [|reflexivity]. right.
  cbn [cell_new with_frames frames fst]. rewrite E. eauto.
Qed.
Lemma store_var_effect : forall g n v g', store_var g n v = Some g' -> gupd g g' /\ out g' = out g.
Proof.
  intros g n v g' H. unfold store_var in H. destruct (find_in_function n (frames g)).
  - injection H as <-. split; [apply gupd_cell_set|reflexivity].
  - eapply bind_local_effect; exact H.
Qed.

Lemma exec_d_effect : forall d a g,
  match exec_d d a g with
  | SNext a' g' => gupd g g' /\ a_ss a' = a_ss a /\ a_ip a' = a_ip a /\
      match d with
      | DPrint => exists l, join_show (a_ops a) = Some l /\ out g' = out g ++ [l]
      | _ => out g' = out g end
  | SGoto _ a' g' | SGotoPop _ _ a' g' | SPopScope a' g' | SRet _ a' g' | SCall _ _ _ a' g' | SPush _ a' g' =>
      g' = g /\ a_ss a' = a_ss a /\ a_ip a' = a_ip a /\ d <> DPrint
  | SFail _ => True end.
Proof.
  intros d a g. unfold exec_d. destruct d; cbv beta iota zeta; hide_sym; break; cbn [set_ops a_ss a_ip]; try exact I;
    try match goal with
        | H : bind_local _ _ _ = Some _ |- _ => apply bind_local_effect in H; destruct H
        | H : store_var _ _ _ = Some _ |- _ => apply store_var_effect in H; destruct H end;
    (split; [|split; [reflexivity|split; [reflexivity|]]]);
    first [ assumption | reflexivity | discriminate | apply gupd_refl | apply gupd_cell_set | apply gupd_emit
          | eapply gupd_top; eassumption | eexists; split; reflexivity ].
Qed.

Lemma bin_op_sem_errs : forall sym l r e, bin_op_sem sym l r = OE e ->
  e = E_div_zero \/ e = E_unsupported OP_BIN_OP \/
  (e = E_overflow OP_BIN_OP /\ exists x y z, l = VInt x /\ r = VInt y /\ i32_ok z = false /\
     (z = (x + y)%Z \/ z = (x - y)%Z \/ z = (x * y)%Z \/ z = Z.quot x y \/ z = Z.rem x y)).
Proof.
  intros sym l r e. unfold bin_op_sem, arith. break; intros H; try discriminate; injection H as <-; auto;
    right; right; (split; [reflexivity|]); do 3 eexists; (split; [reflexivity|]); (split; [reflexivity|]);
    (split; [eassumption|]); auto 6.
Qed.
Lemma bin_op_err : forall sym l r e, bin_op_sem sym l r = OE e -> structuralb e = false /\ shape_errb e = false.
Proof.
  intros sym l r e H. destruct (bin_op_sem_errs _ _ _ _ H) as [->|[->|[-> _]]]; split; reflexivity.
Qed.

Lemma exec_d_ctl : forall d a g ip depth n0 (Q : target -> nat -> Prop),
  covers (abs_step d ip depth n0) (fun t d' _ => Q t d') ->
  match exec_d d a g with
  | SNext _ _ => Q (nxt ip) depth
  | SGoto off _ _ => Q (rel ip off) depth /\ jump_off d = Some off
  | SPush l _ _ => Q (nxt ip) (S depth) /\ special l = true
  | SGotoPop off k _ _ => k <= depth /\ Q (rel ip off) (depth - k) /\ jump_off d = Some off
  | SPopScope _ _ => exists k, depth = S k /\ Q (nxt ip) k
  | SRet _ _ _ => True
  | SCall _ _ _ _ _ => Q (nxt ip) depth
  | SFail e => structuralb e = false
  end.
Proof.
  intros d a g ip depth n0 Q H. unfold exec_d.
  destruct d; cbn [abs_step] in H;
    repeat match type of H with
    | context [if ?c then _ else _] => destruct c eqn:?
    | context [match ?x with O => _ | S _ => _ end] => is_var x; destruct x
    end; cbn [covers all_e ex_e] in H; try contradiction;
    cbv beta iota zeta; hide_sym; break; cbn [jump_off special];
    first [ exact I | reflexivity | apply H | eapply bin_op_err; eassumption
          | split; [apply H|reflexivity] | eexists; split; [reflexivity|apply H] | b2p; tauto ].
Qed.

Lemma exec_d_shape : forall d a g ip depth (Q : target -> nat -> nat -> Prop),
  coversB (abs_step d ip depth (length (a_ops a))) Q ->
  match exec_d d a g with
  | SNext a' _ => Q (nxt ip) depth (length (a_ops a'))
  | SGoto off a' _ => Q (rel ip off) depth (length (a_ops a'))
  | SPush l a' _ => Q (nxt ip) (S depth) (length (a_ops a'))
  | SGotoPop off k a' _ => Q (rel ip off) (depth - k) (length (a_ops a'))
  | SPopScope a' _ => exists k, depth = S k /\ Q (nxt ip) k (length (a_ops a'))
  | SRet _ _ _ => True
  | SCall _ _ _ a' _ => a_ops a' = []
  | SFail e => shape_errb e = false
  end.
Proof.
  intros d a g ip depth Q H. destruct a as [fn ip0 ops args0 cb ss]. unfold exec_d. cbn [a_ops] in *.
  destruct d; cbn [abs_step] in H; cbv beta iota zeta; hide_sym; break; cbn [set_ops a_ops];
    try exact I; try reflexivity; try (eapply bin_op_err; eassumption);
    (* the operand list as the instruction found it, every length in the form 0 / S _ : the tests compute *)
    repeat match goal with
    | E : unsnoc ?l = Some (_, _) |- _ => apply unsnoc_some in E; subst l
    | E : unsnoc ?l = None |- _ => apply unsnoc_none in E; subst l
    end; rewrite ?last_length in H; rewrite ?last_length; cbn [length Nat.leb Nat.eqb Nat.pred] in H |- *;
    try match goal with |- exists _, _ => destruct depth; [contradiction|eexists; split; [reflexivity|]] end;
    try match type of H with context [if ?c then _ else _] => destruct c end;
    cbn [coversB all_e] in H; first [contradiction | apply H].
Qed.

(* the inner `fix loop` of Model.run_fn_gen with the recursive call as the parameter `callee` (run_fn_gen_S):
   the theorems are inductions on its fuel for an arbitrary callee that meets them *)
Section Loop.
  Variable rc : str -> nat -> bool -> bool.
  Variable callee : str -> list value -> option (list (str * N)) -> gstate -> rres.
  Variable name : str.
  Variable code : list instr.
  Fixpoint loop (fuel : nat) (a : act) (g : gstate) {struct fuel} : rres :=
    match fuel with O => RFuel | S fuel =>
    match nth_error code (a_ip a) with
    | None => match pop_frame g with Some g' => RDone None g' | None => RFail (E_panic 0%N) g end
    | Some i =>
      let g := add_trace g (name, N.of_nat (a_ip a), op i, N.of_nat (length (frames g)), N.of_nat (length (a_ops a))) in
      match exec i a g with
      | SFail e => RFail e g
      | SNext a g => loop fuel (set_ip a (S (a_ip a))) g
      | SGoto off a g => match goto (length code) (a_ip a) off with
                         | Some t => loop fuel (set_ip a t) g | None => RFail E_goto_range g end
      | SPush l a g => loop fuel (set_ip (set_ss a (S (a_ss a))) (S (a_ip a))) (push_frame g l)
      | SGotoPop off n a g =>
        match goto (length code) (a_ip a) off with
        | None => RFail E_goto_range g
        | Some t => match pop_frames n g with
                    | Some g' => loop fuel (set_ip a t) g' | None => RFail (E_panic OP_JMP_POP) g end
        end
      | SPopScope a g =>
        match a_ss a with
        | O => loop fuel (set_ip a (S (a_ip a))) g
        | S k => match pop_frame g with
                 | Some g' => loop fuel (set_ip (set_ss a k) (S (a_ip a))) g'
                 | None => RFail (E_panic OP_DONE) g end
        end
      | SRet rv a g => RDone rv (with_frames g (drop_to_function (frames g)))
      | SCall dest cb' argv' a g =>
        match callee dest argv' cb' g with
        | RDone rv g' =>
          if negb (rc name (a_ip a) (match rv with Some _ => true | None => false end)) then RFail E_arity g' else
          loop fuel (set_ip (match rv with Some v => set_ops a (a_ops a ++ [v]) | None => a end) (S (a_ip a))) g'
        | RFail e g' => RFail e g'
        | RFuel => RFuel end
      end
    end end.
End Loop.

Definition act0 (name : str) (argv : list value) (cb : option (list (str * N))) : act :=
  {| a_fn := name; a_ip := 0; a_ops := []; a_args := argv; a_cb := cb; a_ss := 0 |}.

Lemma run_fn_gen_S : forall rc fuel0 p name argv cb g,
  run_fn_gen rc (S fuel0) p name argv cb g =
  match assoc name p with
  | None => RFail (E_no_function name) g
  | Some code => loop rc (run_fn_gen rc fuel0 p) name code fuel0 (act0 name argv cb) (push_frame g (LFun name))
  end.
Proof. reflexivity. Qed.

Lemma check_step : forall code ds a depth s, check code ds = true -> lab_at ds (a_ip a) = Some (depth, s) ->
  exists i d, nth_error code (a_ip a) = Some i /\ decode i = DOk d /\ forall g,
    match exec_d d a g with
    | SNext a' g' => gupd g g' /\ a_ss a' = a_ss a /\ pos_ok (length code) ds (S (a_ip a')) depth
    | SGoto off a' g' => g' = g /\ a_ss a' = a_ss a /\
        exists t, goto (length code) (a_ip a') off = Some t /\ pos_ok (length code) ds t depth
    | SPush l a' g' => g' = g /\ a_ss a' = a_ss a /\ special l = true /\
        pos_ok (length code) ds (S (a_ip a')) (S depth)
    | SGotoPop off k a' g' => g' = g /\ a_ss a' = a_ss a /\ k <= depth /\
        exists t, goto (length code) (a_ip a') off = Some t /\ pos_ok (length code) ds t (depth - k)
    | SPopScope a' g' => g' = g /\ a_ss a' = a_ss a /\
        exists k, depth = S k /\ pos_ok (length code) ds (S (a_ip a')) k
    | SRet _ _ g' => g' = g
    | SCall _ _ _ a' g' => g' = g /\ a_ss a' = a_ss a /\ pos_ok (length code) ds (S (a_ip a')) depth
    | SFail e => structuralb e = false
    end.
Proof.
  intros code ds a depth s Hc Hl.
  destruct (check_at_inv _ _ _ _ _ Hc Hl) as (i & d & Hi & Hd & Hs & Hj & Hcov).
  exists i, d. split; [exact Hi|]. split; [exact Hd|]. intros g.
  destruct s as [|n0 s']; [congruence|].
  assert (Hctl := exec_d_ctl d a g (a_ip a) depth n0 (tgtA (length code) ds)
                    (covers_mono _ _ _ (fun t d' n' => edge_ok_tgtA _ _ t d' n') (Hcov n0 (or_introl eq_refl)))).
  assert (Hfx := exec_d_effect d a g).
  assert (Hjmp : forall off d', jump_off d = Some off -> tgtA (length code) ds (rel (a_ip a) off) d' ->
            exists t, goto (length code) (a_ip a) off = Some t /\ pos_ok (length code) ds t d').
  { intros off d' Hjo [_ Hp]. eexists. split; [apply goto_some, Hj, Hjo|exact Hp]. }
  unfold nxt, tgtA in Hctl. rewrite nxt_nat in Hctl.
  destruct (exec_d d a g) as [a' g'|off a' g'|l a' g'|off k a' g'|a' g'|rv a' g'|dest cb' argv' a' g'|e];
    [| | | | |apply Hfx| |exact Hctl]; destruct Hfx as (Hg & Ess & Eip & _); rewrite Eip;
    (split; [exact Hg|]); (split; [exact Ess|]).
  - apply Hctl.
  - apply Hjmp; apply Hctl.
  - split; apply Hctl.
  - split; [apply Hctl|]. apply Hjmp; apply Hctl.
  - destruct Hctl as (k & Ek & _ & Hp). eauto.
  - apply Hctl.
Qed.

Definition is_special (f : frame) : Prop := special (lab f) = true.

Definition shape (name : str) (base : list frame) (depth : nat) (fs : list frame) : Prop :=
  exists blocks vs, fs = blocks ++ {| lab := LFun name; vars := vs |} :: base /\ length blocks = depth
    /\ Forall is_special blocks.

Lemma shape_top_upd : forall name base d fs fs', shape name base d fs -> top_upd fs fs' -> shape name base d fs'.
Proof.
  intros name base d fs fs' [blocks [vs [E [L F]]]] [U|[f [r [vs' [U1 U2]]]]].
  - subst fs'. exists blocks, vs. auto.
  - subst fs fs'. destruct blocks as [|b bl]; cbn [app] in U1; inversion U1; subst.
    + exists [], vs'. cbn. auto.
    + exists ({| lab := lab f; vars := vs' |} :: bl), vs. cbn [app length]. split; [reflexivity|]. split; [reflexivity|].
      constructor; [exact (Forall_inv F)|exact (Forall_inv_tail F)].
Qed.

Lemma shape_push : forall name base d fs l, shape name base d fs -> special l = true ->
  shape name base (S d) ({| lab := l; vars := [] |} :: fs).
Proof.
  intros name base d fs l [blocks [vs [E [L F]]]] Hl. subst fs.
  exists ({| lab := l; vars := [] |} :: blocks), vs. cbn [app length]. split; [reflexivity|]. split; [lia|].
  constructor; [exact Hl|exact F].
Qed.

Lemma shape_pop_frame : forall name base d g, shape name base (S d) (frames g) ->
  exists g', pop_frame g = Some g' /\ shape name base d (frames g') /\ trace g' = trace g.
Proof.
  intros name base d g [blocks [vs [E [L F]]]]. destruct blocks as [|b bl]; [discriminate|].
  cbn [app length] in *. unfold pop_frame. rewrite E. eexists. split; [reflexivity|]. split; [|reflexivity].
  cbn. exists bl, vs. split; [reflexivity|]. split; [lia|]. exact (Forall_inv_tail F).
Qed.

Lemma shape_pop_frames : forall name base k d g, k <= d -> shape name base d (frames g) ->
  exists g', pop_frames k g = Some g' /\ shape name base (d - k) (frames g') /\ trace g' = trace g.
Proof.
  induction k as [|k IH]; intros d g Hk Hs.
  - exists g. cbn. replace (d - 0) with d by lia. auto.
  - destruct d as [|d]; [lia|]. destruct (shape_pop_frame _ _ _ _ Hs) as [g1 [P1 [S1 T1]]].
    destruct (IH d g1 ltac:(lia) S1) as [g2 [P2 [S2 T2]]].
    exists g2. cbn [pop_frames]. rewrite P1. split; [exact P2|]. split; [exact S2|congruence].
Qed.

Lemma drop_special : forall blocks rest, Forall is_special blocks ->
  drop_to_function (blocks ++ rest) = drop_to_function rest.
Proof.
  induction blocks as [|b bl IH]; intros rest F; [reflexivity|].
  cbn [app drop_to_function]. assert (Hb := Forall_inv F). unfold is_special in Hb. rewrite Hb.
  apply IH. exact (Forall_inv_tail F).
Qed.

Lemma shape_drop : forall name base d fs, shape name base d fs -> drop_to_function fs = base.
Proof.
  intros name base d fs [blocks [vs [E [L F]]]]. subst fs. rewrite drop_special by assumption. reflexivity.
Qed.

Lemma shape_0 : forall name base g, shape name base 0 (frames g) -> pop_frame g = Some (with_frames g base).
Proof.
  intros name base g [blocks [vs [E [L F]]]]. destruct blocks; [|discriminate]. unfold pop_frame. rewrite E. reflexivity.
Qed.

Lemma shape_length : forall name base d fs, shape name base d fs -> length fs = length base + 1 + d.
Proof.
  intros name base d fs [blocks [vs [E [L F]]]]. subst fs. rewrite app_length. cbn [length]. lia.
Qed.

Lemma chain_app : forall x y, chain x -> chain y -> chain (x ++ y).
Proof.
  intros x y Hx Hy. induction Hx as [|blocks n vs rest F Hr IH]; [exact Hy|].
  rewrite <- app_assoc. cbn [app]. constructor; assumption.
Qed.

Lemma shape_chain : forall name base d fs, shape name base d fs ->
  exists extra, fs = extra ++ base /\ chain extra /\ extra <> [].
Proof.
  intros name base d fs [blocks [vs [E [L F]]]]. subst fs.
  exists (blocks ++ [{| lab := LFun name; vars := vs |}]). split; [rewrite <- app_assoc; reflexivity|]. split.
  - constructor; [exact F|constructor].
  - intros H. apply app_eq_nil in H. destruct H; discriminate.
Qed.

Definition failA (base : list frame) (e : err) (g' : gstate) : Prop :=
  ~ structural e /\ exists extra, frames g' = extra ++ base /\ chain extra /\ extra <> [].

Lemma fail_here : forall name base d g e, shape name base d (frames g) -> structuralb e = false -> failA base e g.
Proof.
  intros name base d g e Hs He. split; [apply structuralb_false; exact He|]. eapply shape_chain; exact Hs.
Qed.

(* The trace of a call; records are stored newest first.  `seg p L new`: what ONE call, started on a call stack
   of L frames, recorded: nothing (no such function) or the records of an activation of a checked function.
   `own p name ds L new`: the records of an activation of `name` whose function frame sits on L frames: its own
   instructions, each with call-stack depth EXACTLY L + 1 + D[ip], interleaved with the records of its callees,
   each callee segment starting on the stack depth recorded by the call instruction. *)
Definition ev_csd (ev : tev) : N := let '(_, _, _, c, _) := ev in c.

Inductive seg (p : program) : nat -> list tev -> Prop :=
| seg_none : forall L, seg p L []
| seg_act : forall L name code ds new, assoc name p = Some code -> check code ds = true ->
            own p name ds L new -> seg p L new
with own (p : program) : str -> labelling -> nat -> list tev -> Prop :=
| own_nil : forall name ds L, own p name ds L []
| own_ev : forall name ds L ip o n depth s rest, lab_at ds ip = Some (depth, s) -> own p name ds L rest ->
           own p name ds L ((name, N.of_nat ip, o, N.of_nat (L + 1 + depth), n) :: rest)
| own_call : forall name ds L inner ev rest, seg p (N.to_nat (ev_csd ev)) inner -> own p name ds L (ev :: rest) ->
             own p name ds L (inner ++ ev :: rest).

Definition trS (p : program) (g g' : gstate) : Prop :=
  exists new, trace g' = new ++ trace g /\ seg p (length (frames g)) new.
Definition trA (p : program) (name : str) (ds : labelling) (L : nat) (tr0 : list tev) (g : gstate) : Prop :=
  exists cur, trace g = cur ++ tr0 /\ own p name ds L cur.

Lemma trA_eq : forall p name ds L tr0 g g', trA p name ds L tr0 g -> trace g' = trace g -> trA p name ds L tr0 g'.
Proof. intros p name ds L tr0 g g' [cur [E O]] H. exists cur. split; [congruence|exact O]. Qed.

Definition callee_okA (p : program) (r : rres) (g : gstate) : Prop :=
  match r with
  | RDone _ g' => frames g' = frames g /\ trS p g g'
  | RFail e g' => (~ structural e /\ exists extra, frames g' = extra ++ frames g /\ chain extra) /\ trS p g g'
  | RFuel => True end.

Lemma trA_record : forall p name ds base tr0 g depth s ip o n,
  trA p name ds (length base) tr0 g -> shape name base depth (frames g) -> lab_at ds ip = Some (depth, s) ->
  let g1 := add_trace g (name, N.of_nat ip, o, N.of_nat (length (frames g)), n) in
  trA p name ds (length base) tr0 g1 /\ forall g2, trS p g1 g2 -> trA p name ds (length base) tr0 g2.
Proof.
  intros p name ds base tr0 g depth s ip o n [cur [Ec Oc]] Hsh Hl g1. subst g1.
  assert (O1 : own p name ds (length base) ((name, N.of_nat ip, o, N.of_nat (length (frames g)), n) :: cur)).
  { rewrite (shape_length _ _ _ _ Hsh). eapply own_ev; eassumption. }
  split.
  - eexists. split; [|exact O1]. cbn [add_trace trace]. rewrite Ec. reflexivity.
  - intros g2 [inner [Ei Si]]. eexists. split; [|apply own_call; [|exact O1]].
    + rewrite Ei. cbn [add_trace trace]. rewrite Ec, app_comm_cons, app_assoc. reflexivity.
    + cbn [ev_csd]. rewrite Nat2N.id. exact Si.
Qed.

(* `depth <= a_ss a`: jmp_pop pops block frames without popping `special_scopes` (GotoPopScope in Function::run),
   so the interpreter's own count only bounds the number of open blocks from above; `done` pops a frame whenever
   that count is positive, which is then the case *)
Lemma loop_frames : forall rc p callee name code ds base tr0,
  check code ds = true ->
  (forall dest argv cb g, callee_okA p (callee dest argv cb g) g) ->
  forall fuel a g depth,
    shape name base depth (frames g) -> pos_ok (length code) ds (a_ip a) depth -> depth <= a_ss a ->
    trA p name ds (length base) tr0 g ->
    match loop rc callee name code fuel a g with
    | RDone _ g' => frames g' = base /\ trA p name ds (length base) tr0 g'
    | RFail e g' => failA base e g' /\ trA p name ds (length base) tr0 g'
    | RFuel => True end.
Proof.
  intros rc p callee name code ds base tr0 Hc Hcal.
  induction fuel as [|fuel IH]; intros a g depth Hsh Hpos Hss Htr; cbn [loop]; [exact I|].
  destruct Hpos as [[Hip Hd]|[Hip [s Hl]]].
  - assert (E : nth_error code (a_ip a) = None) by (apply nth_error_None; lia). rewrite E.
    subst depth. rewrite (shape_0 _ _ _ Hsh). split; [reflexivity|]. eapply trA_eq; [exact Htr|reflexivity].
  - destruct (check_step _ _ _ _ _ Hc Hl) as (i & d & Hi & Hd & Hstep).
    rewrite Hi. cbv zeta. unfold exec. rewrite Hd.
    destruct (trA_record _ _ _ _ _ _ _ _ _ (op i) (N.of_nat (length (a_ops a))) Htr Hsh Hl) as [Htr1 Hcalltr].
    set (g1 := add_trace g _) in *.
    assert (Hsh1 : shape name base depth (frames g1)) by exact Hsh.
    specialize (Hstep g1). clearbody g1. clear Hsh Htr g.
    destruct (exec_d d a g1) as [a' g'|off a' g'|l a' g'|off k a' g'|a' g'|rv a' g'|dest cb' argv' a' g'|e].
    + destruct Hstep as (Hup & Ess & Hp).
      apply IH with (depth := depth); [eapply shape_top_upd; [exact Hsh1|apply Hup]|exact Hp|cbn [set_ip a_ss]; lia|].
      eapply trA_eq; [exact Htr1|apply Hup].
    + destruct Hstep as (-> & Ess & t & -> & Hp).
      apply IH with (depth := depth); [exact Hsh1|exact Hp|cbn [set_ip a_ss]; lia|exact Htr1].
    + destruct Hstep as (-> & Ess & Hl' & Hp).
      apply IH with (depth := S depth); [apply shape_push; assumption|exact Hp|cbn [set_ip set_ss a_ss]; lia|].
      eapply trA_eq; [exact Htr1|reflexivity].
    + destruct Hstep as (-> & Ess & Hk & t & -> & Hp).
      destruct (shape_pop_frames _ _ _ _ _ Hk Hsh1) as [g2 [-> [S2 T2]]].
      apply IH with (depth := depth - k); [exact S2|exact Hp|cbn [set_ip a_ss]; lia|eapply trA_eq; eassumption].
    + destruct Hstep as (-> & Ess & k & -> & Hp).
      destruct (a_ss a') as [|k'] eqn:Ess'; [lia|].
      destruct (shape_pop_frame _ _ _ _ Hsh1) as [g2 [-> [S2 T2]]].
      apply IH with (depth := k); [exact S2|exact Hp|cbn [set_ip set_ss a_ss]; lia|eapply trA_eq; eassumption].
    + subst g'. cbn [with_frames frames]. split; [eapply shape_drop; exact Hsh1|].
      eapply trA_eq; [exact Htr1|reflexivity].
    + destruct Hstep as (-> & Ess & Hp). specialize (Hcal dest argv' cb' g1).
      destruct (callee dest argv' cb' g1) as [rv g2|e g2|]; cbn [callee_okA] in Hcal; [| |exact I].
      * destruct Hcal as [Hfr Hcs]. apply Hcalltr in Hcs.
        assert (Hsh2 : shape name base depth (frames g2)) by (rewrite Hfr; exact Hsh1).
        destruct (negb (rc name (a_ip a') match rv with Some _ => true | None => false end)).
        -- split; [eapply fail_here; [exact Hsh2|reflexivity]|exact Hcs].
        -- apply IH with (depth := depth); [exact Hsh2|exact Hp| |exact Hcs].
           destruct rv; cbn [set_ip set_ops a_ss]; lia.
      * (* the callee's activations lie on top of this one's *)
        destruct Hcal as [[Hns [extra [Ex Hch]]] Hcs].
        destruct (shape_chain _ _ _ _ Hsh1) as [extra1 [Ex1 [Hch1 Hne1]]].
        split; [|apply Hcalltr; exact Hcs].
        split; [exact Hns|]. exists (extra ++ extra1). split; [rewrite Ex, Ex1, app_assoc; reflexivity|].
        split; [apply chain_app; assumption|]. intros H. apply app_eq_nil in H. destruct H; contradiction.
    + split; [eapply fail_here; eassumption|exact Htr1].
Qed.

(* frames + structured trace, in one induction on the call fuel *)
Lemma run_fn_gen_A : forall rc p, checked p ->
  forall fuel name argv cb g,
  match run_fn_gen rc fuel p name argv cb g with
  | RDone _ g' => frames g' = frames g /\ trS p g g'
  | RFail e g' => (~ structural e /\
                   exists extra, frames g' = extra ++ frames g /\ chain extra /\
                     (assoc name p = None -> e = E_no_function name /\ extra = []) /\
                     (assoc name p <> None -> extra <> [])) /\ trS p g g'
  | RFuel => True
  end.
Proof.
  intros rc p Hp. induction fuel as [|fuel IH]; intros name argv cb g; [exact I|].
  rewrite run_fn_gen_S. destruct (assoc name p) as [code|] eqn:Ea.
  - destruct (Hp _ _ Ea) as [ds Hc].
    assert (Hcal : forall dest argv cb g, callee_okA p (run_fn_gen rc fuel p dest argv cb g) g).
    { intros dest argv' cb' g'. specialize (IH dest argv' cb' g').
      destruct (run_fn_gen rc fuel p dest argv' cb' g') as [rv g2|e g2|]; cbn [callee_okA]; [exact IH| |exact I].
      destruct IH as [[H1 [extra [H2 [H3 _]]]] H4]. eauto. }
    assert (Hsh : shape name (frames g) 0 (frames (push_frame g (LFun name)))) by (exists [], []; cbn; auto).
    assert (Htr : trA p name ds (length (frames g)) (trace g) (push_frame g (LFun name))).
    { exists []. split; [reflexivity|constructor]. }
    assert (H := loop_frames rc p _ name code ds (frames g) (trace g) Hc Hcal fuel (act0 name argv cb) _ 0
                   Hsh (pos_ok_entry _ _ Hc) (le_n 0) Htr).
    assert (HtrS : forall g2, trA p name ds (length (frames g)) (trace g) g2 -> trS p g g2).
    { intros g2 [cur [E O]]. exists cur. split; [exact E|]. eapply seg_act; eassumption. }
    destruct (loop rc (run_fn_gen rc fuel p) name code fuel (act0 name argv cb) (push_frame g (LFun name))) as [rv g2|e g2|];
      [destruct H as [H1 H2]; split; [exact H1|apply HtrS; exact H2]| |exact I].
    destruct H as [[H1 [extra [H2 [H3 H4]]]] H5]. split; [|apply HtrS; exact H5]. split; [exact H1|]. exists extra.
    split; [exact H2|]. split; [exact H3|]. split; [intros; discriminate|intros _; exact H4].
  - split; [|exists []; split; [reflexivity|constructor]].
    split; [apply structuralb_false; reflexivity|]. exists []. split; [reflexivity|]. split; [constructor|].
    split; [intros _; split; reflexivity|intros H; congruence].
Qed.

(* Theorem A.  A call returns on the call stack it was entered with; a failure is never structural and leaves,
   on top of that stack, the frames of the activations that were running *)
Theorem frames_safe : forall rc p, checked p ->
  forall fuel name argv cb g,
  match run_fn_gen rc fuel p name argv cb g with
  | RDone _ g' => frames g' = frames g
  | RFail e g' => ~ structural e /\
                  exists extra, frames g' = extra ++ frames g /\ chain extra /\
                    (assoc name p = None -> e = E_no_function name /\ extra = []) /\
                    (assoc name p <> None -> extra <> [])
  | RFuel => True
  end.
Proof.
  intros rc p Hp fuel name argv cb g. assert (H := run_fn_gen_A rc p Hp fuel name argv cb g).
  destruct (run_fn_gen rc fuel p name argv cb g); [apply H|apply H|exact I].
Qed.

(* at EVERY executed instruction the number of open block frames is the labelled depth: the recorded
   call-stack depths are exactly those the labellings predict *)
Theorem frames_safe_trace : forall rc p, checked p ->
  forall fuel name argv cb g,
  match run_fn_gen rc fuel p name argv cb g with
  | RDone _ g' | RFail _ g' => exists new, trace g' = new ++ trace g /\ seg p (length (frames g)) new
  | RFuel => True
  end.
Proof.
  intros rc p Hp fuel name argv cb g. assert (H := run_fn_gen_A rc p Hp fuel name argv cb g).
  destruct (run_fn_gen rc fuel p name argv cb g); [apply H|apply H|exact I].
Qed.

(* in the words of C09: the same frame labels, the same number of frames *)
Corollary frames_safe_labels : forall rc p, checked p ->
  forall fuel name argv cb g rv g', run_fn_gen rc fuel p name argv cb g = RDone rv g' ->
  map lab (frames g') = map lab (frames g) /\ length (frames g') = length (frames g).
Proof.
  intros rc p Hp fuel name argv cb g rv g' H. assert (F := frames_safe rc p Hp fuel name argv cb g).
  rewrite H in F. rewrite F. split; reflexivity.
Qed.

(* a program that ends normally leaves the call stack empty *)
Corollary execute_done_empty : forall p, checked p ->
  forall fuel entry o oc tr, execute fuel p entry = (o, oc, tr) -> forall n, oc <> StackMismatch n.
Proof.
  intros p Hp fuel entry o oc tr H n. unfold execute, run_fn in H.
  assert (F := frames_safe (fun _ _ _ => true) p Hp fuel entry [] None g0).
  destruct (run_fn_gen (fun _ _ _ => true) fuel p entry [] None g0) as [rv g'|e g'|].
  - rewrite F in H. cbn in H. inversion H. discriminate.
  - inversion H. discriminate.
  - inversion H. discriminate.
Qed.

(* a run that fails never fails for a structural reason; the reported stack is a chain of activations *)
Corollary execute_error_chain : forall p, checked p ->
  forall fuel entry o e st tr, execute fuel p entry = (o, RuntimeErr e st, tr) ->
  ~ structural e /\ exists fs, st = map lab fs /\ chain fs.
Proof.
  intros p Hp fuel entry o e st tr H. unfold execute, run_fn in H.
  assert (F := frames_safe (fun _ _ _ => true) p Hp fuel entry [] None g0).
  destruct (run_fn_gen (fun _ _ _ => true) fuel p entry [] None g0) as [rv g'|e' g'|].
  - rewrite F in H. cbn in H. inversion H.
  - inversion H; subst. destruct F as [F1 [extra [F2 [F3 _]]]]. split; [exact F1|].
    exists extra. cbn in F2. rewrite app_nil_r in F2. rewrite F2. split; [reflexivity|exact F3].
  - inversion H.
Qed.

(* the arity hook: is the edge (ip+1, depth, 1 or 0) accepted by the caller's labelling? *)
Definition rc_of (dss : str -> option labelling) (p : program) (name : str) (ip : nat) (b : bool) : bool :=
  match dss name, assoc name p with
  | Some ds, Some code =>
    match lab_at ds ip with
    | Some (depth, _) => edge_ok (length code) ds (nxt ip, depth, if b then 1 else 0)
    | None => false end
  | _, _ => false end.

Definition labelled_by (dss : str -> option labelling) (p : program) : Prop :=
  forall name code, assoc name p = Some code -> exists ds, dss name = Some ds /\ check code ds = true.

Definition ev_ok (dss : str -> option labelling) (p : program) (ev : tev) : Prop :=
  let '(fn, ip, o, _, n) := ev in
  exists code ds i d depth s,
    assoc fn p = Some code /\ dss fn = Some ds /\ nth_error code (N.to_nat ip) = Some i /\ op i = o /\
    decode i = DOk d /\ lab_at ds (N.to_nat ip) = Some (depth, s) /\ In (N.to_nat n) s /\
    abs_step d (N.to_nat ip) depth (N.to_nat n) <> ABad.

Definition tr_ext (dss : str -> option labelling) (p : program) (g g' : gstate) : Prop :=
  exists new, trace g' = new ++ trace g /\ Forall (ev_ok dss p) new.

Lemma tr_ext_eq : forall dss p g g', trace g' = trace g -> tr_ext dss p g g'.
Proof. intros dss p g g' H. exists []. split; [exact H|constructor]. Qed.
Lemma tr_ext_trans : forall dss p g1 g2 g3, tr_ext dss p g1 g2 -> tr_ext dss p g2 g3 -> tr_ext dss p g1 g3.
Proof.
  intros dss p g1 g2 g3 [n1 [E1 F1]] [n2 [E2 F2]]. exists (n2 ++ n1). split.
  - rewrite E2, E1, app_assoc. reflexivity.
  - apply Forall_app. split; assumption.
Qed.

Definition okB (dss : str -> option labelling) (p : program) (r : rres) (g : gstate) : Prop :=
  match r with
  | RDone _ g' => tr_ext dss p g g'
  | RFail e g' => shape_errb e = false /\ tr_ext dss p g g'
  | RFuel => True end.

Lemma okB_trans : forall dss p r g1 g2, tr_ext dss p g1 g2 -> okB dss p r g2 -> okB dss p r g1.
Proof.
  intros dss p r g1 g2 H12 H. destruct r as [rv g'|e g'|]; cbn [okB] in *; [|destruct H as [H0 H]; split; [exact H0|]|exact I];
    eapply tr_ext_trans; eassumption.
Qed.

Lemma okB_fail_here : forall dss p e g, shape_errb e = false -> okB dss p (RFail e g) g.
Proof. intros dss p e g H. split; [exact H|apply tr_ext_eq; reflexivity]. Qed.
Lemma okB_step : forall dss p r g1 g2, trace g2 = trace g1 -> okB dss p r g2 -> okB dss p r g1.
Proof. intros dss p r g1 g2 H. apply okB_trans, tr_ext_eq, H. Qed.

Lemma loop_shapes : forall dss p callee name code ds,
  assoc name p = Some code -> dss name = Some ds -> check code ds = true ->
  (forall dest argv cb g, okB dss p (callee dest argv cb g) g) ->
  forall fuel a g, pos_okn (length code) ds (a_ip a) (length (a_ops a)) ->
    okB dss p (loop (rc_of dss p) callee name code fuel a g) g.
Proof.
  intros dss p callee name code ds Ha Hds Hc Hcal.
  induction fuel as [|fuel IH]; intros a g Hpos; cbn [loop]; [exact I|].
  destruct (nth_error code (a_ip a)) as [i|] eqn:Hi.
  2:{ destruct (pop_frame g) as [g'|] eqn:Ep; [|apply okB_fail_here; reflexivity].
      apply tr_ext_eq. destruct (pop_frame_Some _ _ Ep) as (f & _ & T & _). exact T. }
  destruct Hpos as [Hge|(depth & s & Hl & Hn)]; [apply nth_error_None in Hge; congruence|].
  destruct (check_at_inv _ _ _ _ _ Hc Hl) as (i' & d & Hi' & Hd & _ & _ & Hcov). specialize (Hcov _ Hn).
  rewrite Hi in Hi'. injection Hi' as <-. cbv zeta. unfold exec. rewrite Hd.
  set (g1 := add_trace g _).
  assert (Hg1 : tr_ext dss p g g1).
  { eexists [_]. split; [reflexivity|]. constructor; [|constructor].
    cbn [ev_ok]. rewrite !Nat2N.id. exists code, ds, i, d, depth, s.
    repeat (split; [assumption || reflexivity|]). intros E. rewrite E in Hcov. exact Hcov. }
  apply okB_trans with (g2 := g1); [exact Hg1|]. clearbody g1. clear Hg1 g.
  assert (Hsh := exec_d_shape d a g1 (a_ip a) depth (tgtB (length code) ds) (coversB_of _ _ _ Hcov)).
  assert (Hfx := exec_d_effect d a g1).
  destruct (exec_d d a g1) as [a' g'|off a' g'|l a' g'|off k a' g'|a' g'|rv a' g'|dest cb' argv' a' g'|e];
    [..|apply okB_fail_here; exact Hsh]; destruct Hfx as (Hg & _ & Eip & _); rewrite <- Eip in Hl; rewrite <- ?Eip in Hsh.
  - apply okB_step with (g2 := g'); [apply Hg|]. apply IH. eapply tgtB_nxt, Hsh.
  - subst g'. destruct (goto (length code) (a_ip a') off) as [t|] eqn:Et; [|apply okB_fail_here; reflexivity].
    apply IH. eapply tgtB_rel; eassumption.
  - subst g'. apply okB_step with (g2 := push_frame g1 l); [reflexivity|]. apply IH. eapply tgtB_nxt, Hsh.
  - subst g'. destruct (goto (length code) (a_ip a') off) as [t|] eqn:Et; [|apply okB_fail_here; reflexivity].
    destruct (pop_frames k g1) as [g2|] eqn:Ep; [|apply okB_fail_here; reflexivity].
    apply okB_step with (g2 := g2); [apply (pop_frames_keeps _ _ _ Ep)|]. apply IH. eapply tgtB_rel; eassumption.
  - subst g'. destruct Hsh as (k & _ & Hp). apply tgtB_nxt in Hp.
    destruct (a_ss a') as [|k']; [apply IH; exact Hp|].
    destruct (pop_frame g1) as [g2|] eqn:Ep; [|apply okB_fail_here; reflexivity].
    destruct (pop_frame_Some _ _ Ep) as (f & _ & T & _). apply okB_step with (g2 := g2); [exact T|]. apply IH. exact Hp.
  - subst g'. apply tr_ext_eq. reflexivity.
  - (* the hook has checked the edge for the arity the callee delivered *)
    subst g'. specialize (Hcal dest argv' cb' g1).
    destruct (callee dest argv' cb' g1) as [rv g2|e g2|]; cbn [okB] in Hcal; [|exact Hcal|exact I].
    destruct (rc_of dss p name (a_ip a') match rv with Some _ => true | None => false end) eqn:Erc; cbn [negb];
      [|split; [reflexivity|exact Hcal]].
    apply okB_trans with (g2 := g2); [exact Hcal|]. apply IH.
    unfold rc_of in Erc. rewrite Hds, Ha, Hl in Erc. apply edge_ok_tgtB, tgtB_nxt in Erc.
    destruct rv as [v|]; cbn [set_ip set_ops a_ip a_ops]; rewrite Hsh; exact Erc.
Qed.

Theorem shapes_safe_gen : forall dss p, labelled_by dss p ->
  forall fuel name argv cb g, okB dss p (run_fn_gen (rc_of dss p) fuel p name argv cb g) g.
Proof.
  intros dss p Hp. induction fuel as [|fuel IH]; intros name argv cb g; [exact I|].
  rewrite run_fn_gen_S. destruct (assoc name p) as [code|] eqn:Ea; [|apply okB_fail_here; reflexivity].
  destruct (Hp _ _ Ea) as [ds [Hds Hc]].
  apply okB_step with (g2 := push_frame g (LFun name)); [reflexivity|].
  apply (loop_shapes dss p (run_fn_gen (rc_of dss p) fuel p) name code ds Ea Hds Hc IH).
  destruct code as [|i code']; [left; apply le_n|].
  right. destruct (check_entry _ _ Hc ltac:(discriminate)) as [s Hs]. exists 0, s. exact Hs.
Qed.

(* Theorem B.  Under the arity hook no instruction fails for want of operands *)
Theorem shapes_safe : forall dss p, labelled_by dss p ->
  forall fuel name argv cb g e g', run_fn_gen (rc_of dss p) fuel p name argv cb g = RFail e g' -> ~ shape_err e.
Proof.
  intros dss p Hp fuel name argv cb g e g' H. assert (B := shapes_safe_gen dss p Hp fuel name argv cb g).
  rewrite H in B. apply shape_errb_false. apply B.
Qed.

(* every instruction executed (also the failing one) found a labelled operand length *)
Theorem shapes_safe_trace : forall dss p, labelled_by dss p ->
  forall fuel name argv cb g,
  match run_fn_gen (rc_of dss p) fuel p name argv cb g with
  | RDone _ g' | RFail _ g' => exists new, trace g' = new ++ trace g /\ Forall (ev_ok dss p) new
  | RFuel => True end.
Proof.
  intros dss p Hp fuel name argv cb g. assert (B := shapes_safe_gen dss p Hp fuel name argv cb g).
  destruct (run_fn_gen (rc_of dss p) fuel p name argv cb g); cbn [okB] in B; [exact B|apply B|exact I].
Qed.

(* what "not ABad" means for the operand length *)
Definition operands_required (d : dinstr) (n : nat) : Prop :=
  match d with
  | DBinOp _ => 2 <= n
  | DNeg | DNot | DUnwrap _ | DUnwrapInto _ | DBinOpAssign _ _ | DIf _ | DWhile _ | DJmpNotNil _ | DCall None => 1 <= n
  | DEqu | DNeq | DRev2 => n = 2
  | DStore _ | DStoreFast _ | DStoreObject _ | DAssert _ | DStoreSkip _ _ _ => n = 1
  | DRet => n <= 1
  | DRetMod => n = 0
  | _ => True end.
Lemma abs_step_operands : forall d ip depth n, abs_step d ip depth n <> ABad -> operands_required d n.
Proof.
  intros d ip depth n H. destruct d; cbn [abs_step operands_required] in *; try exact I;
    try (destruct dest; try exact I);
    match type of H with context [if ?c then _ else _] => destruct c eqn:E end; b2p; try assumption; try congruence.
Qed.

(* the executable `certify` (inference, then `check`) establishes the hypotheses of both theorems *)
Lemma certify_check : forall code, certify code = true -> exists ds, infer code = Some ds /\ check code ds = true.
Proof.
  intros code H. unfold certify in H. destruct (infer code) as [ds|]; [|discriminate]. exists ds. auto.
Qed.

Lemma assoc_In : forall A name (p : list (str * A)) c, assoc name p = Some c -> exists k, In (k, c) p.
Proof.
  intros A name. induction p as [|[k v] p IH]; intros c H; cbn [assoc] in H; [discriminate|].
  destruct (str_eqb k name).
  - inversion H; subst. exists k. left. reflexivity.
  - destruct (IH _ H) as [k' Hk]. exists k'. right. exact Hk.
Qed.

Definition certified (p : program) : Prop := forall k code, In (k, code) p -> certify code = true.

Definition dss_infer (p : program) (name : str) : option labelling :=
  match assoc name p with Some code => infer code | None => None end.

Lemma certified_labelled : forall p, certified p -> labelled_by (dss_infer p) p.
Proof.
  intros p H name code Ha. destruct (assoc_In _ _ _ _ Ha) as [k Hk].
  destruct (certify_check _ (H _ _ Hk)) as [ds [Hi Hc]]. exists ds. unfold dss_infer. rewrite Ha. auto.
Qed.
Lemma labelled_checked : forall dss p, labelled_by dss p -> checked p.
Proof. intros dss p H name code Ha. destruct (H _ _ Ha) as [ds [_ Hc]]. exists ds. exact Hc. Qed.
Lemma certified_checked : forall p, certified p -> checked p.
Proof. intros p H. eapply labelled_checked. apply certified_labelled. exact H. Qed.

(* loop heads (and every other instruction): one block depth per instruction index *)
Lemma label_depth_unique : forall ds ip d1 s1 d2 s2,
  lab_at ds ip = Some (d1, s1) -> lab_at ds ip = Some (d2, s2) -> d1 = d2 /\ s1 = s2.
Proof. intros ds ip d1 s1 d2 s2 H1 H2. rewrite H1 in H2. inversion H2. auto. Qed.
