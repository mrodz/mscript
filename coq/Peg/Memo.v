(* A memoising (packrat) evaluator that computes what [parse] computes, step counter included.

   Once [parse] has fuel enough not to run out its result does not depend on the fuel, so the result of calling a
   rule at a state can be kept in a table, where backtracking makes [parse] evaluate the same call exponentially
   often on some inputs (Peg/Growth.v).  All states of one run are the start state after some scalars have been
   consumed, so the position identifies the state and the table is keyed by (position, rule).  An entry holds,
   beside the result, a recursion depth from which on [parse] gives that result: an entry made deep inside
   one evaluation is used at other depths, and in the end the depth the whole evaluation needed is compared
   with the fuel [parse] is given.

   Finding rule i of a core grammar, or a table entry for it, would cost i steps at every call: the evaluator runs
   on a copy of the grammar in which the rules stand in a binary trie and every call holds the key of its rule
   ([index]). *)
From MS Require Import Peg.Syntax Peg.Desugar Peg.Interp Peg.Wf Peg.WfCompute.
From Coq Require Import FMapPositive Lia PeanoNat.

Inductive iexp :=
| ITerm (e : cexp)              (* meant for the expressions without sub-expressions, but any will do *)
| ICall (k : positive)          (* rule k - 1 *)
| ISeq (a b : iexp)
| IChoice (a b : iexp)
| IStar (a : iexp)
| IPos (a : iexp)
| INeg (a : iexp).

Record irule := { itok : option nat; ibody : iexp }.

Fixpoint index (e : cexp) : iexp :=
  match e with
  | CCall i => ICall (Pos.of_succ_nat i)
  | CSeq a b => ISeq (index a) (index b)
  | CChoice a b => IChoice (index a) (index b)
  | CStar a => IStar (index a)
  | CPos a => IPos (index a)
  | CNeg a => INeg (index a)
  | _ => ITerm e
  end.

Fixpoint plain (e : iexp) : cexp :=
  match e with
  | ITerm e => e
  | ICall k => CCall (Nat.pred (Pos.to_nat k))
  | ISeq a b => CSeq (plain a) (plain b)
  | IChoice a b => CChoice (plain a) (plain b)
  | IStar a => CStar (plain a)
  | IPos a => CPos (plain a)
  | INeg a => CNeg (plain a)
  end.

Lemma plain_index : forall e, plain (index e) = e.
Proof.
  induction e; cbn [index plain]; try congruence.
  rewrite Pnat.SuccNat2Pos.id_succ. reflexivity.
Qed.

Definition index_rule (r : crule) : irule := {| itok := ctok r; ibody := index (cbody r) |}.

Fixpoint index_rules (k : positive) (cg : cgrammar) : PositiveMap.t irule :=
  match cg with
  | [] => PositiveMap.empty _
  | r :: cg' => PositiveMap.add k (index_rule r) (index_rules (Pos.succ k) cg')
  end.

Lemma find_index_rules : forall cg k0 k,
    PositiveMap.find k (index_rules k0 cg) =
    if (k <? k0)%positive then None else option_map index_rule (nth_error cg (Pos.to_nat k - Pos.to_nat k0)).
Proof.
  induction cg as [|r cg IH]; intros k0 k; cbn [index_rules].
  - rewrite PositiveMap.gempty. destruct (k <? k0)%positive; [reflexivity|].
    destruct (Pos.to_nat k - Pos.to_nat k0)%nat; reflexivity.
  - destruct (Pos.eq_dec k k0) as [->|Hne].
    + rewrite PositiveMap.gss, Pos.ltb_irrefl, Nat.sub_diag. reflexivity.
    + rewrite PositiveMap.gso, IH by exact Hne.
      destruct (Pos.ltb_spec k k0), (Pos.ltb_spec k (Pos.succ k0)); try lia; [reflexivity|].
      replace (Pos.to_nat k - Pos.to_nat k0)%nat with (S (Pos.to_nat k - Pos.to_nat (Pos.succ k0))) by lia.
      reflexivity.
Qed.

(* One step of [parse] on an expression with sub-expressions evaluates a first sub-expression at the same
   state and, from its result, is done or evaluates a second sub-expression and joins the two results. *)
Inductive cont := Done (r : res) | Then (e : iexp) (s : st) (t : list tree) (n : N).

Definition join (t1 : list tree) (n1 : N) (r2 : res) : res :=
  match r2 with
  | Ok s2 t2 n2 => Ok s2 (t1 ++ t2) (n1 + n2 + 1)
  | Fail n2 => Fail (n1 + n2 + 1)
  | OutOfFuel => OutOfFuel
  end.

Definition table := PositiveMap.t (PositiveMap.t (res * N)).

(* only the calls of rules are kept *)
Definition key (e : iexp) (s : st) : option (positive * positive) :=
  match e with
  | ICall k => Some (N.succ_pos (pos s), k)
  | _ => None
  end.

Definition lookup (tab : table) (k : option (positive * positive)) : option (res * N) :=
  match k with
  | Some (p, i) => match PositiveMap.find p tab with
                   | Some row => PositiveMap.find i row
                   | None => None
                   end
  | None => None
  end.

Definition record (tab : table) (k : option (positive * positive)) (v : res * N) : table :=
  match k with
  | Some (p, i) =>
      let row := match PositiveMap.find p tab with Some row => row | None => PositiveMap.empty _ end in
      PositiveMap.add p (PositiveMap.add i v row) tab
  | None => tab
  end.

Lemma key_inj : forall e s e' s' k, key e s = Some k -> key e' s' = Some k -> e' = e /\ pos s' = pos s.
Proof.
  intros e s e' s' k H H'. rewrite <- H in H'. destruct e; try discriminate. destruct e'; try discriminate.
  injection H' as Hp Hk. apply (f_equal Pos.pred_N) in Hp. rewrite !N.pos_pred_succ in Hp. split; congruence.
Qed.

Lemma lookup_empty : forall k, lookup (PositiveMap.empty _) k = None.
Proof. intros [[p i]|]; [|reflexivity]. cbn. rewrite PositiveMap.gempty. reflexivity. Qed.

Lemma lookup_record : forall tab k v k',
    lookup (record tab k v) k' = lookup tab k' \/ k' = k /\ lookup (record tab k v) k' = Some v.
Proof.
  intros tab [[p i]|] v [[p' i']|]; auto. cbn [lookup record].
  destruct (Pos.eq_dec p' p) as [->|Np]; [|rewrite PositiveMap.gso by exact Np; auto].
  rewrite PositiveMap.gss.
  destruct (Pos.eq_dec i' i) as [->|Ni]; [rewrite PositiveMap.gss; auto|].
  rewrite PositiveMap.gso by exact Ni. left.
  destruct (PositiveMap.find p tab); [reflexivity|apply PositiveMap.gempty].
Qed.

Section Eval.
  Variable cg : cgrammar.
  Variable rules : PositiveMap.t irule.

  Definition split (e : iexp) (s : st) : option (iexp * (res -> cont)) :=
    match e with
    | ITerm _ => None
    | ICall k =>
        match PositiveMap.find k rules with
        | None => None
        | Some r =>
            Some (ibody r, fun r1 => Done match r1 with
              | Ok s' ts n => Ok s' (match itok r with Some k => [Node k (pos s) (pos s') ts] | None => ts end) (n + 1)
              | Fail n => Fail (n + 1)
              | OutOfFuel => OutOfFuel
              end)
        end
    | ISeq a b => Some (a, fun r1 => match r1 with
        | Ok s1 t1 n1 => Then b s1 t1 n1 | Fail n1 => Done (Fail (n1 + 1)) | OutOfFuel => Done OutOfFuel end)
    | IChoice a b => Some (a, fun r1 => match r1 with
        | Ok s1 t1 n1 => Done (Ok s1 t1 (n1 + 1)) | Fail n1 => Then b s [] n1 | OutOfFuel => Done OutOfFuel end)
    | IStar a => Some (a, fun r1 => match r1 with
        | Ok s1 t1 n1 => Then (IStar a) s1 t1 n1 | Fail n1 => Done (Ok s [] (n1 + 1)) | OutOfFuel => Done OutOfFuel end)
    | IPos a => Some (a, fun r1 => Done match r1 with
        | Ok _ _ n => Ok s [] (n + 1) | Fail n => Fail (n + 1) | OutOfFuel => OutOfFuel end)
    | INeg a => Some (a, fun r1 => Done match r1 with
        | Ok _ _ n => Fail (n + 1) | Fail n => Ok s [] (n + 1) | OutOfFuel => OutOfFuel end)
    end.

  (* None: the fuel ran out.  Where [split] gives nothing (a terminal, a call of a rule that does not exist) one
     step of [parse] answers. *)
  Fixpoint mparse (fuel : nat) (tab : table) (e : iexp) (s : st) : option (res * N * table) :=
    match fuel with
    | O => None
    | S f =>
      let k := key e s in
      match lookup tab k with
      | Some v => Some (v, tab)
      | None =>
        match split e s with
        | None => match parse cg 1 (plain e) s with OutOfFuel => None | r => Some (r, 1, tab) end
        | Some (a, c) =>
          match mparse f tab a s with
          | None => None
          | Some (r1, d1, tab1) =>
            match c r1 with
            | Done r => let v := (r, d1 + 1) in Some (v, record tab1 k v)
            | Then b s1 t1 n1 =>
              match mparse f tab1 b s1 with
              | None => None
              | Some (r2, d2, tab2) => let v := (join t1 n1 r2, N.max d1 d2 + 1) in Some (v, record tab2 k v)
              end
            end
          end
        end
      end
    end.

  Hypothesis rules_cg : forall k,
      PositiveMap.find k rules = option_map index_rule (nth_error cg (Nat.pred (Pos.to_nat k))).

  Lemma parse_split : forall f e s a c, split e s = Some (a, c) ->
    parse cg (S f) (plain e) s =
    match c (parse cg f (plain a) s) with
    | Done r => r
    | Then b s1 t1 n1 => join t1 n1 (parse cg f (plain b) s1)
    end.
  Proof.
    intros f e s a c H. destruct e as [t|k|x y|x y|x|x|x]; try discriminate; cbn [split] in H; cbn [plain parse].
    1: { rewrite rules_cg in H. destruct (nth_error cg _) as [r|]; [|discriminate].
         injection H as <- <-. cbn [index_rule ibody itok]. rewrite plain_index. reflexivity. }
    all: injection H as <- <-.
    1-3: destruct (parse cg f (plain x) s); reflexivity.
    all: reflexivity.
  Qed.

  Lemma split_state : forall e s a c r1 b s1 t n, split e s = Some (a, c) -> c r1 = Then b s1 t n ->
    s1 = s \/ exists t1 n1, r1 = Ok s1 t1 n1.
  Proof.
    intros e s a c r1 b s1 t n H Hc. destruct e; try discriminate; cbn [split] in H.
    1: destruct (PositiveMap.find k rules); [|discriminate].
    all: injection H as _ <-; destruct r1; try discriminate; injection Hc as _ <- _ _; eauto.
  Qed.

  Section Sound.
  Variable s0 : st.

  Definition answers (e : iexp) (s : st) (v : res * N) : Prop :=
    forall f, (N.to_nat (snd v) <= f)%nat -> parse cg f (plain e) s = fst v.

  Definition valid (tab : table) : Prop :=
    forall e s v, consumes s0 s -> lookup tab (key e s) = Some v -> answers e s v.

  Lemma valid_record : forall tab e s v,
      valid tab -> consumes s0 s -> answers e s v -> valid (record tab (key e s) v).
  Proof.
    intros tab e s v Hv Hs Ha e' s' v' Hs' Hl.
    destruct (lookup_record tab (key e s) v (key e' s')) as [E|[Ek E]]; rewrite E in Hl.
    - exact (Hv _ _ _ Hs' Hl).
    - injection Hl as <-. destruct (key e s) as [k|] eqn:K; [|rewrite Ek in E; discriminate E].
      destruct (key_inj _ _ _ _ _ K Ek) as [-> Hp].
      rewrite (consumes_inj _ _ _ Hs' Hs Hp). exact Ha.
  Qed.

  Theorem mparse_sound : forall fuel tab e s v tab',
      valid tab -> consumes s0 s -> mparse fuel tab e s = Some (v, tab') -> valid tab' /\ answers e s v.
  Proof.
    induction fuel as [|f IH]; intros tab e s v tab' Hv Hs H; [discriminate|]. cbn [mparse] in H.
    destruct (lookup tab (key e s)) as [v0|] eqn:El.
    { injection H as <- <-. split; [exact Hv|exact (Hv _ _ _ Hs El)]. }
    destruct (split e s) as [[a c]|] eqn:Es.
    2:{ assert (parse cg 1 (plain e) s <> OutOfFuel /\ v = (parse cg 1 (plain e) s, 1%N) /\ tab' = tab)
          as (Hne & -> & ->) by (destruct (parse cg 1 (plain e) s); repeat split; congruence).
        split; [exact Hv|]. intros f' Hf. exact (parse_mono cg 1 f' _ _ Hf Hne). }
    destruct (mparse f tab a s) as [[[r1 d1] tab1]|] eqn:E1; [|discriminate].
    destruct (IH _ _ _ _ _ Hv Hs E1) as [Hv1 Ha1]. unfold answers in Ha1. cbn [fst snd] in Ha1.
    destruct (c r1) as [r|b s1 t1 n1] eqn:Ec.
    - injection H as <- <-.
      assert (answers e s (r, d1 + 1)%N) as Ha.
      { intros [|f'] Hf; cbn [fst snd] in *; [lia|]. rewrite (parse_split _ _ _ _ _ Es), (Ha1 f'), Ec by lia. reflexivity. }
      split; [apply valid_record; assumption|exact Ha].
    - assert (consumes s0 s1) as Hs1.
      { apply (consumes_trans _ s); [exact Hs|].
        destruct (split_state _ _ _ _ _ _ _ _ _ Es Ec) as [->|(t & n & ->)]; [apply consumes_refl|].
        exact (parse_consumes cg _ _ _ _ _ _ (Ha1 _ (le_n _))). }
      destruct (mparse f tab1 b s1) as [[[r2 d2] tab2]|] eqn:E2; [|discriminate].
      destruct (IH _ _ _ _ _ Hv1 Hs1 E2) as [Hv2 Ha2]. unfold answers in Ha2. cbn [fst snd] in Ha2.
      injection H as <- <-.
      assert (answers e s (join t1 n1 r2, N.max d1 d2 + 1)%N) as Ha.
      { intros [|f'] Hf; cbn [fst snd] in *; [lia|].
        rewrite (parse_split _ _ _ _ _ Es), (Ha1 f'), Ec, (Ha2 f') by lia. reflexivity. }
      split; [apply valid_record; assumption|exact Ha].
  Qed.

  End Sound.

  Definition steps_at (fuel : nat) (e : iexp) (input : list N) : option N :=
    match mparse fuel (PositiveMap.empty _) e (start input) with
    | Some (r, d, _) => if d <=? N.of_nat fuel then steps_of r else None
    | None => None
    end.

  Lemma steps_at_sound : forall fuel e input n,
      steps_at fuel e input = Some n -> steps_of (parse cg fuel (plain e) (start input)) = Some n.
  Proof.
    unfold steps_at. intros fuel e input n H.
    destruct (mparse _ _ _ _) as [[[r d] tab]|] eqn:E; [|discriminate].
    destruct (d <=? N.of_nat fuel) eqn:Hd; [|discriminate]. apply N.leb_le in Hd.
    assert (valid (start input) (PositiveMap.empty _)) as Hv.
    { intros e' s v _ Hl. rewrite lookup_empty in Hl. discriminate. }
    destruct (mparse_sound _ _ _ _ _ _ _ Hv (consumes_refl _) E) as [_ Ha].
    rewrite (Ha fuel); [exact H|]. cbn [snd]. lia.
  Qed.
End Eval.

(* several inputs: the grammar is prepared once for all of them *)
Definition memo_steps (g : grammar) (fuel i : nat) (inputs : list (list N)) : list (option N) :=
  let cg := desugar g in
  let rules := index_rules 1 cg in
  map (steps_at cg rules fuel (index (CCall (cidx i NonAtomic)))) inputs.

Lemma memo_steps_sound : forall g fuel i inputs ns, memo_steps g fuel i inputs = map Some ns ->
    Forall2 (fun input n => steps_of (parse_rule g fuel i input) = Some n) inputs ns.
Proof.
  unfold memo_steps, parse_rule. intros g fuel i.
  induction inputs as [|input inputs IH]; intros [|n ns] H; try discriminate H; constructor.
  - injection H as Hn _. rewrite <- (plain_index (CCall (cidx i NonAtomic))).
    apply (steps_at_sound _ (index_rules 1 (desugar g))); [|exact Hn].
    intros k. rewrite find_index_rules, Nat.sub_1_r. destruct (Pos.ltb_spec k 1); [lia|reflexivity].
  - injection H as _ H. exact (IH _ H).
Qed.
