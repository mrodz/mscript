(* Promptness of the parser is REFUTED in the model (known findings of C16, DESIGN F10):
   the step counter doubles with every nesting level of a list type, of an unclosed list literal and of a
   callback around a syntax error.
   Witnesses of a DEFECT: this file is expected to stop compiling when grammar.pest is repaired; it is
   therefore not a dependency of Props/C16.v (vlib/c16.py builds it separately and records the outcome). *)
From MS Require Import Peg.Syntax Peg.Desugar Peg.Interp Peg.WfCompute Peg.Memo Gen.Grammar.

Definition nested_list_type (k : nat) : list N :=       (* x: [[..[int...]..]] = 1\n *)
  [120; 58; 32] ++ repeat 91 k ++ [105; 110; 116; 46; 46; 46] ++ repeat 93 k ++ [32; 61; 32; 49; 10].
Definition unclosed_list (k : nat) : list N :=          (* x = [[[[.. *)
  [120; 32; 61; 32] ++ repeat 91 k.
Definition nested_callbacks (k : nat) : list N :=      (* r(fn(){r(fn(){ .. print 1 + .. })}) : an operand is missing in the innermost callback *)
  concat (repeat [114; 40; 102; 110; 40; 41; 123] k) ++ [112; 114; 105; 110; 116; 32; 49; 32; 43] ++ concat (repeat [125; 41] k).
Definition steps (input : list N) : N :=
  match steps_of (parse_rule Grammar.g 4000 r_file input) with Some n => n | None => 0 end.
Definition ks : list nat := seq 1 12.

(* consecutive differences double and steps(k) >= 2^k *)
Fixpoint doubling (k : N) (l : list N) : bool :=
  match l with
  | a :: ((b :: c :: _) as l') => (a <? b) && (c - b =? 2 * (b - a)) && (2 ^ k <=? a) && doubling (k + 1) l'
  | [a; b] => (a <? b) && (2 ^ k <=? a) && (2 ^ (k + 1) <=? b)
  | _ => true
  end.

(* running [parse] costs as many steps as it counts: the counts are computed by the memoising evaluator of
   Peg/Memo.v, which calls each rule once at each position *)
Lemma steps_memo : forall inputs ns, memo_steps Grammar.g 4000 r_file inputs = map Some ns -> map steps inputs = ns.
Proof.
  intros inputs ns H. apply memo_steps_sound in H.
  induction H as [|input n inputs ns Hn _ IH]; cbn [map]; [reflexivity|].
  unfold steps at 1. rewrite Hn, IH. reflexivity.
Qed.

Lemma doubling_memo : forall (inputs : nat -> list N) ks k ns,
    memo_steps Grammar.g 4000 r_file (map inputs ks) = map Some ns -> doubling k ns = true ->
    doubling k (map (fun k => steps (inputs k)) ks) = true.
Proof. intros inputs ks k ns H D. rewrite <- (map_map inputs steps), (steps_memo _ _ H). exact D. Qed.

Example C16_nested_list_type_steps_double_refuted :
  doubling 1 (map (fun k => steps (nested_list_type k)) ks) = true.
Proof.
  apply (doubling_memo nested_list_type _ _
    [1129; 1499; 2239; 3719; 6679; 12599; 24439; 48119; 95479; 190199; 379639; 758519]);
    [vm_compute; reflexivity|reflexivity].
Qed.

Example C16_unclosed_list_steps_double_refuted :
  doubling 1 (map (fun k => steps (unclosed_list k)) ks) = true.
Proof.
  apply (doubling_memo unclosed_list _ _
    [1564; 2512; 4408; 8200; 15784; 30952; 61288; 121960; 243304; 485992; 971368; 1942120]);
    [vm_compute; reflexivity|reflexivity].
Qed.

(* a syntax error inside k nested callbacks `r(fn(){ .. })`: no list is involved, the argument of the call is
   parsed once as a call argument and, when that fails, again as a parenthesised expression statement.
   With the parse budget of compiler/src/parser.rs (fix "parse-budget") the real parser gives up after a number of rule
   invocations that is linear in the input; the grammar itself keeps this growth. *)
Example C16_nested_callbacks_steps_double_refuted :
  doubling 1 (map (fun k => steps (nested_callbacks k)) (seq 1 10)) = true.
Proof.
  apply (doubling_memo nested_callbacks _ _
    [4431; 11177; 24669; 51653; 105621; 213557; 429429; 861173; 1724661; 3451637]);
    [vm_compute; reflexivity|reflexivity].
Qed.
