(* C16: the interpreter terminates on every input of a well-formed core PEG, within the recursion depth (fuel)

       (|input| + 1) * (R + 1) * (M + 1)          M = largest rule body, R = 1 + largest rank.

   Well-formedness is the classic PEG condition (Ford 2004), checked with two tables:
     nl : rule -> bool   over-approximates "can succeed without consuming"; required to be CLOSED
                         (a rule whose body is nullable w.r.t. nl is marked nullable);
     rk : rule -> nat    every rule called at the left edge of a body (possibly before any input is consumed:
                         through nullable prefixes, repetitions, predicates, choices) has a strictly smaller
                         rank than the rule itself  =>  no left recursion;
   plus: every called rule exists and no repetition has a nullable body.
   The theorem holds for ANY tables passing the check. *)
From MS Require Import Peg.Syntax Peg.Desugar Peg.Interp.
From Coq Require Import Lia PeanoNat.

Local Open Scope nat_scope.

Section WF.
  Variable cg : cgrammar.
  Variable nl : list bool.
  Variable rk : list nat.

  Definition nullb (i : nat) : bool := nth i nl true.
  Definition rank (i : nat) : nat := nth i rk 0.

  Fixpoint null (e : cexp) : bool :=
    match e with
    | CEmpty => true
    | CStr s | CInsens s => is_nil s
    | CRange _ _ | CAny => false
    | CSoi | CEoi => true
    | CCall i => nullb i
    | CSeq a b => null a && null b
    | CChoice a b => null a || null b
    | CStar _ | CPos _ | CNeg _ => true
    end.

  Fixpoint lc (r : nat) (e : cexp) : bool :=
    match e with
    | CCall j => rank j <? r
    | CSeq a b => lc r a && (if null a then lc r b else true)
    | CChoice a b => lc r a && lc r b
    | CStar a | CPos a | CNeg a => lc r a
    | _ => true
    end.

  Fixpoint wfe (e : cexp) : bool :=
    match e with
    | CCall j => j <? length cg
    | CSeq a b | CChoice a b => wfe a && wfe b
    | CStar a => wfe a && negb (null a)
    | CPos a | CNeg a => wfe a
    | _ => true
    end.

  Fixpoint wf_rules (i : nat) (rs : list crule) : bool :=
    match rs with
    | [] => true
    | r :: rs' =>
        wfe (cbody r) && lc (rank i) (cbody r) && implb (null (cbody r)) (nullb i) && wf_rules (S i) rs'
    end.

  Definition wfb : bool := wf_rules 0 cg.

  Definition Mx : nat := list_max (map (fun r => csize (cbody r)) cg).
  Definition Rx : nat := S (list_max rk).
  Definition M' : nat := S Mx.
  Definition Kx : nat := S Rx * M'.
  (* The lexicographic measure (input left, rank, size of the expression) as one number: sz <= Mx < M' and
     r <= Rx, so r * M' + sz < Kx.  Every recursive call of [parse] lowers it: a sub-expression at the same input
     is smaller; the body of a rule called before input was consumed has a lower rank, and any size up to Mx;
     once input was consumed, rank and size start again from Rx and Mx. *)
  Definition bound (n r sz : nat) : nat := n * Kx + r * M' + sz.

  Lemma wf_rules_nth : forall rs i j r,
      wf_rules i rs = true -> nth_error rs j = Some r ->
      wfe (cbody r) = true /\ lc (rank (i + j)) (cbody r) = true /\
      (null (cbody r) = true -> nullb (i + j) = true).
  Proof.
    induction rs as [|r0 rs IH]; intros i j r Hwf Hn.
    - destruct j; discriminate.
    - cbn [wf_rules] in Hwf. rewrite !andb_true_iff in Hwf. destruct Hwf as [[[Hwfe Hlc] Himp] Hrest].
      destruct j as [|j].
      + cbn in Hn. inversion Hn; subst r0. rewrite Nat.add_0_r.
        repeat split; auto. intros Hnull. rewrite Hnull in Himp. exact Himp.
      + cbn in Hn. replace (i + S j) with (S i + j) by lia. eapply IH; eauto.
  Qed.

  Lemma wfb_nth : wfb = true -> forall j r, nth_error cg j = Some r ->
      wfe (cbody r) = true /\ lc (rank j) (cbody r) = true /\ (null (cbody r) = true -> nullb j = true).
  Proof. intros H j r Hn. exact (wf_rules_nth cg 0 j r H Hn). Qed.

  Lemma list_max_In : forall (l : list nat) x, In x l -> x <= list_max l.
  Proof. intros l. apply Forall_forall, list_max_le, le_n. Qed.

  Lemma list_max_nth : forall (l : list nat) j, nth j l 0 <= list_max l.
  Proof.
    intros l j. destruct (nth_in_or_default j l 0) as [Hin|E]; [exact (list_max_In _ _ Hin)|rewrite E; apply Nat.le_0_l].
  Qed.

  Lemma rank_lt_R : forall j, rank j < Rx.
  Proof. intros j. unfold rank, Rx. pose proof (list_max_nth rk j). lia. Qed.

  Lemma body_size : forall j r, nth_error cg j = Some r -> csize (cbody r) <= Mx.
  Proof.
    intros j r Hn. apply list_max_In. apply (in_map (fun r => csize (cbody r))). exact (nth_error_In _ _ Hn).
  Qed.

  Lemma lc_top : forall e, lc Rx e = true.
  Proof.
    induction e; cbn [lc]; auto.
    - apply Nat.ltb_lt. apply rank_lt_R.
    - rewrite IHe1, IHe2. destruct (null e1); reflexivity.
    - rewrite IHe1, IHe2. reflexivity.
  Qed.

  Lemma csize_pos : forall e, 1 <= csize e.
  Proof. destruct e; cbn; lia. Qed.

  Lemma eat_consumes : forall l r p s', eat_str l r p = Some s' \/ eat_insens l r p = Some s' ->
    exists l', length l' = length l /\ r = l' ++ rest s' /\ pos s' = (p + N.of_nat (length l'))%N.
  Proof.
    induction l as [|c l IH]; intros r p s' H.
    - exists []. assert (s' = {| rest := r; pos := p |}) as -> by (destruct H; cbn in *; congruence).
      cbn. repeat split. lia.
    - destruct r as [|d r]; [destruct H; discriminate|].
      assert (eat_str l r (p + 1) = Some s' \/ eat_insens l r (p + 1) = Some s') as H'.
      { cbn in H. destruct H as [H|H]; [destruct (c =? d)%N|destruct (lower c =? lower d)%N]; try discriminate; auto. }
      apply IH in H' as (l' & L & -> & ->). exists (d :: l'). cbn [length app]. repeat split; [congruence|lia].
  Qed.

  Lemma eat_str_len : forall l s p s', eat_str l s p = Some s' -> length (rest s') + length l = length s.
  Proof.
    intros l s p s' H. destruct (eat_consumes _ _ _ _ (or_introl H)) as (l' & L & -> & _). rewrite app_length. lia.
  Qed.

  Lemma eat_insens_len : forall l s p s', eat_insens l s p = Some s' -> length (rest s') + length l = length s.
  Proof.
    intros l s p s' H. destruct (eat_consumes _ _ _ _ (or_intror H)) as (l' & L & -> & _). rewrite app_length. lia.
  Qed.

  Lemma is_nil_len : forall (l : str), length l = 0 -> is_nil l = true.
  Proof. destruct l; cbn; intros; [reflexivity|discriminate]. Qed.

  Definition consumes (s s' : st) : Prop :=
    exists l, rest s = l ++ rest s' /\ pos s' = (pos s + N.of_nat (length l))%N.

  Lemma consumes_refl : forall s, consumes s s.
  Proof. intros s. exists []. split; [reflexivity|cbn; lia]. Qed.

  Lemma consumes_trans : forall s1 s2 s3, consumes s1 s2 -> consumes s2 s3 -> consumes s1 s3.
  Proof.
    intros s1 s2 s3 (l1 & R1 & P1) (l2 & R2 & P2). exists (l1 ++ l2).
    rewrite R1, R2, P2, P1, app_assoc, app_length. split; [reflexivity|lia].
  Qed.

  Lemma app_same_length : forall (A : Type) (l l' r r' : list A), l ++ r = l' ++ r' -> length l = length l' -> r = r'.
  Proof.
    induction l as [|x l IH]; destruct l' as [|x' l']; cbn; intros r r' E L; try discriminate; [exact E|].
    injection E as _ E. injection L as L. eauto.
  Qed.

  Lemma consumes_inj : forall s0 s s', consumes s0 s -> consumes s0 s' -> pos s = pos s' -> s = s'.
  Proof.
    intros s0 [r p] [r' p'] (l & R & P) (l' & R' & P') E. cbn in *.
    rewrite R in R'. apply app_same_length in R'; [congruence|lia].
  Qed.

  Lemma parse_consumes : forall fuel e s s' ts n, parse cg fuel e s = Ok s' ts n -> consumes s s'.
  Proof.
    induction fuel as [|f IH]; intros e s s' ts n H; [discriminate|].
    destruct e; cbn [parse] in H.
    - injection H as <-. apply consumes_refl.
    - unfold of_opt in H. destruct (eat_str s0 (rest s) (pos s)) eqn:E; [|discriminate]. injection H as <-.
      destruct (eat_consumes _ _ _ _ (or_introl E)) as (l' & _ & R & P). exists l'. auto.
    - unfold of_opt in H. destruct (eat_insens s0 (rest s) (pos s)) eqn:E; [|discriminate]. injection H as <-.
      destruct (eat_consumes _ _ _ _ (or_intror E)) as (l' & _ & R & P). exists l'. auto.
    - destruct (rest s) as [|c r] eqn:E; [discriminate|].
      destruct ((lo <=? c)%N && (c <=? hi)%N); [|discriminate]. injection H as <-. exists [c]. auto.
    - destruct (rest s) as [|c r] eqn:E; [discriminate|]. injection H as <-. exists [c]. auto.
    - destruct (pos s =? 0)%N; [|discriminate]. injection H as <-. apply consumes_refl.
    - destruct (rest s); [|discriminate]. injection H as <-. apply consumes_refl.
    - destruct (nth_error cg i) as [r|]; [|discriminate].
      destruct (parse cg f (cbody r) s) eqn:E; try discriminate. injection H as <-. exact (IH _ _ _ _ _ E).
    - destruct (parse cg f e1 s) as [s1 t1 n1| |] eqn:E1; try discriminate.
      destruct (parse cg f e2 s1) eqn:E2; try discriminate. injection H as <-.
      exact (consumes_trans _ _ _ (IH _ _ _ _ _ E1) (IH _ _ _ _ _ E2)).
    - destruct (parse cg f e1 s) as [s1 t1 n1|n1|] eqn:E1; try discriminate.
      + injection H as <-. exact (IH _ _ _ _ _ E1).
      + destruct (parse cg f e2 s) eqn:E2; try discriminate. injection H as <-. exact (IH _ _ _ _ _ E2).
    - destruct (parse cg f e s) as [s1 t1 n1|n1|] eqn:E1; try discriminate.
      + destruct (parse cg f (CStar e) s1) eqn:E2; try discriminate. injection H as <-.
        exact (consumes_trans _ _ _ (IH _ _ _ _ _ E1) (IH _ _ _ _ _ E2)).
      + injection H as <-. apply consumes_refl.
    - destruct (parse cg f e s); try discriminate. injection H as <-. apply consumes_refl.
    - destruct (parse cg f e s); try discriminate. injection H as <-. apply consumes_refl.
  Qed.

  Lemma parse_shrinks : forall fuel e s s' ts n,
      parse cg fuel e s = Ok s' ts n -> length (rest s') <= length (rest s).
  Proof.
    intros fuel e s s' ts n H. destruct (parse_consumes _ _ _ _ _ _ H) as (l & -> & _). rewrite app_length. lia.
  Qed.

  Lemma parse_null : wfb = true -> forall fuel e s s' ts n,
      parse cg fuel e s = Ok s' ts n -> length (rest s') = length (rest s) -> null e = true.
  Proof.
    intros Hwf. induction fuel as [|f IH]; intros e s s' ts n H Heq; [discriminate|].
    destruct e; cbn [null]; try reflexivity; cbn [parse] in H.
    - unfold of_opt in H. destruct (eat_str s0 (rest s) (pos s)) eqn:E; [|discriminate].
      injection H as <-. apply eat_str_len in E. apply is_nil_len. lia.
    - unfold of_opt in H. destruct (eat_insens s0 (rest s) (pos s)) eqn:E; [|discriminate].
      injection H as <-. apply eat_insens_len in E. apply is_nil_len. lia.
    - destruct (rest s) as [|c r]; [discriminate|].
      destruct ((lo <=? c)%N && (c <=? hi)%N); [|discriminate]. injection H as <-. cbn in Heq. lia.
    - destruct (rest s) as [|c r]; [discriminate|]. injection H as <-. cbn in Heq. lia.
    - destruct (nth_error cg i) as [r|] eqn:En; [|discriminate].
      destruct (parse cg f (cbody r) s) as [s1 t1 n1| |] eqn:E; try discriminate. injection H as <-.
      destruct (wfb_nth Hwf i r En) as (_ & _ & Hcl). exact (Hcl (IH _ _ _ _ _ E Heq)).
    - destruct (parse cg f e1 s) as [s1 t1 n1| |] eqn:E1; try discriminate.
      destruct (parse cg f e2 s1) as [s2 t2 n2| |] eqn:E2; try discriminate. injection H as <-.
      pose proof (parse_shrinks _ _ _ _ _ _ E1). pose proof (parse_shrinks _ _ _ _ _ _ E2).
      rewrite (IH _ _ _ _ _ E1), (IH _ _ _ _ _ E2) by lia. reflexivity.
    - destruct (parse cg f e1 s) as [s1 t1 n1|n1|] eqn:E1; try discriminate.
      + injection H as <-. rewrite (IH _ _ _ _ _ E1 Heq). reflexivity.
      + destruct (parse cg f e2 s) as [s2 t2 n2| |] eqn:E2; try discriminate. injection H as <-.
        rewrite (IH _ _ _ _ _ E2 Heq). apply orb_true_r.
  Qed.

  Lemma progress : wfb = true -> forall fuel e s s' ts n,
      parse cg fuel e s = Ok s' ts n ->
      length (rest s') <= length (rest s) /\ (length (rest s') = length (rest s) -> null e = true).
  Proof. intros Hwf fuel e s s' ts n H. split; [exact (parse_shrinks _ _ _ _ _ _ H)|exact (parse_null Hwf _ _ _ _ _ _ H)]. Qed.

  Lemma mul_step : forall a b k, a < b -> a * k + k <= b * k.
  Proof. intros a b k H. replace (a * k + k) with (S a * k) by (cbn; lia). apply Nat.mul_le_mono_r. lia. Qed.

  Lemma Kx_eq : Kx = Rx * M' + M'.
  Proof. unfold Kx. cbn [Nat.mul]. lia. Qed.

  Lemma parse_out : forall f e s, parse cg (S f) e s = OutOfFuel ->
    match e with
    | CCall i => exists r, nth_error cg i = Some r /\ parse cg f (cbody r) s = OutOfFuel
    | CSeq a b => parse cg f a s = OutOfFuel \/
                  exists s1 t1 n1, parse cg f a s = Ok s1 t1 n1 /\ parse cg f b s1 = OutOfFuel
    | CChoice a b => parse cg f a s = OutOfFuel \/ parse cg f b s = OutOfFuel
    | CStar a => parse cg f a s = OutOfFuel \/
                 exists s1 t1 n1, parse cg f a s = Ok s1 t1 n1 /\ parse cg f (CStar a) s1 = OutOfFuel
    | CPos a | CNeg a => parse cg f a s = OutOfFuel
    | _ => False
    end.
  Proof.
    intros f e s H. destruct e; cbn [parse] in H; unfold of_opt in H.
    - discriminate.
    - destruct (eat_str _ _ _); discriminate.
    - destruct (eat_insens _ _ _); discriminate.
    - destruct (rest s); [|destruct (_ && _)]; discriminate.
    - destruct (rest s); discriminate.
    - destruct (_ =? _)%N; discriminate.
    - destruct (rest s); discriminate.
    - destruct (nth_error cg i) as [r|]; [|discriminate]. exists r. split; [reflexivity|].
      destruct (parse cg f (cbody r) s); [discriminate..|reflexivity].
    - destruct (parse cg f e1 s) as [s1 t1 n1| |]; [right|discriminate|left; reflexivity].
      exists s1, t1, n1. split; [reflexivity|]. destruct (parse cg f e2 s1); [discriminate..|reflexivity].
    - destruct (parse cg f e1 s); [discriminate| |left; reflexivity].
      right. destruct (parse cg f e2 s); [discriminate..|reflexivity].
    - destruct (parse cg f e s) as [s1 t1 n1| |]; [right|discriminate|left; reflexivity].
      exists s1, t1, n1. split; [reflexivity|]. destruct (parse cg f (CStar e) s1); [discriminate..|reflexivity].
    - destruct (parse cg f e s); [discriminate..|reflexivity].
    - destruct (parse cg f e s); [discriminate..|reflexivity].
  Qed.

  Theorem terminates : wfb = true -> forall fuel e s r,
      wfe e = true -> lc r e = true -> csize e <= Mx -> r <= Rx ->
      bound (length (rest s)) r (csize e) <= fuel ->
      parse cg fuel e s <> OutOfFuel.
  Proof.
    intros Hwf. induction fuel as [|f IH]; intros e s r Hwfe Hlc Hsz Hr Hb.
    - unfold bound in Hb. pose proof (csize_pos e). lia.
    - pose proof Kx_eq as HK. assert (HM : M' = S Mx) by reflexivity.
      pose proof (Nat.mul_le_mono_r r Rx M' Hr) as HrR.
      unfold bound in Hb.
      assert (Hsame : forall e' s0, length (rest s0) = length (rest s) -> wfe e' = true -> lc r e' = true ->
                                     csize e' < csize e -> parse cg f e' s0 <> OutOfFuel).
      { intros e' s0 Hl W L Sz. apply (IH e' s0 r W L); [lia|exact Hr|]. unfold bound. rewrite Hl. lia. }
      assert (Hless : forall e' s0, length (rest s0) < length (rest s) -> wfe e' = true -> csize e' <= Mx ->
                                     parse cg f e' s0 <> OutOfFuel).
      { intros e' s0 Hl W Sz. apply (IH e' s0 Rx W (lc_top e') Sz (le_n _)). unfold bound.
        pose proof (mul_step _ _ Kx Hl). lia. }
      intros C. apply parse_out in C. destruct e; try exact C; cbn [wfe lc csize] in *.
      + destruct C as (rl & En & C). destruct (wfb_nth Hwf i rl En) as (W & L & _).
        apply Nat.ltb_lt in Hlc. revert C. apply (IH (cbody rl) s (rank i) W L (body_size i rl En)).
        * pose proof (rank_lt_R i). lia.
        * unfold bound. pose proof (body_size i rl En). pose proof (mul_step _ _ M' Hlc). lia.
      + apply andb_prop in Hwfe as [W1 W2]. apply andb_prop in Hlc as [L1 L2].
        destruct C as [C|(s1 & t1 & n1 & E1 & C)]; revert C; [apply Hsame; auto; lia|].
        destruct (progress Hwf _ _ _ _ _ _ E1) as [Hle Hnull].
        destruct (Nat.eq_dec (length (rest s1)) (length (rest s))) as [Heq|Hneq].
        * apply Hsame; auto; [|lia]. rewrite (Hnull Heq) in L2. exact L2.
        * apply Hless; auto; lia.
      + apply andb_prop in Hwfe as [W1 W2]. apply andb_prop in Hlc as [L1 L2].
        destruct C as [C|C]; revert C; apply Hsame; auto; lia.
      + (* the body has consumed something, because it is not nullable *)
        pose proof Hwfe as Hwfe0. apply andb_prop in Hwfe as [W1 Wn].
        destruct C as [C|(s1 & t1 & n1 & E1 & C)]; revert C; [apply Hsame; auto; lia|].
        destruct (progress Hwf _ _ _ _ _ _ E1) as [Hle Hnull]. apply Hless; auto.
        destruct (Nat.eq_dec (length (rest s1)) (length (rest s))) as [Heq|Hneq]; [|lia].
        rewrite (Hnull Heq) in Wn. discriminate.
      + revert C. apply Hsame; auto; lia.
      + revert C. apply Hsame; auto; lia.
  Qed.

  Theorem parse_mono : forall f f' e s, f <= f' -> parse cg f e s <> OutOfFuel -> parse cg f' e s = parse cg f e s.
  Proof.
    induction f as [|f IH]; intros f' e s Hle H; [cbn in H; congruence|].
    destruct f' as [|f']; [inversion Hle|]. apply le_S_n in Hle. specialize (fun e s => IH f' e s Hle).
    (* a sub-parse that the result depends on did not run out, or H would not hold *)
    destruct e; try reflexivity; cbn [parse] in H; cbn [parse].
    - destruct (nth_error cg i) as [r|]; [|reflexivity].
      destruct (parse cg f (cbody r) s) eqn:E; rewrite IH, E; congruence.
    - destruct (parse cg f e1 s) as [s1 t1 n1| |] eqn:E1; rewrite IH, E1; try congruence.
      destruct (parse cg f e2 s1) eqn:E2; rewrite IH, E2; congruence.
    - destruct (parse cg f e1 s) as [s1 t1 n1|n1|] eqn:E1; rewrite IH, E1; try congruence.
      destruct (parse cg f e2 s) eqn:E2; rewrite IH, E2; congruence.
    - destruct (parse cg f e s) as [s1 t1 n1|n1|] eqn:E1; rewrite IH, E1; try congruence.
      destruct (parse cg f (CStar e) s1) eqn:E2; rewrite IH, E2; congruence.
    - destruct (parse cg f e s) eqn:E; rewrite IH, E; congruence.
    - destruct (parse cg f e s) eqn:E; rewrite IH, E; congruence.
  Qed.

  Lemma parse_S : forall f e s, parse cg f e s <> OutOfFuel -> parse cg (S f) e s = parse cg f e s.
  Proof. intros f e s. apply parse_mono, Nat.le_succ_diag_r. Qed.
End WF.
