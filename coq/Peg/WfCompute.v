(* C16: the two tables of the well-formedness check computed, the check for pest grammars, and the
   termination theorem at the level of a pest grammar (surface syntax, any start rule). *)
From MS Require Import Peg.Syntax Peg.Desugar Peg.Interp Peg.Wf.
From Coq Require Import Lia PeanoNat.

Local Open Scope nat_scope.

Fixpoint bools_eqb (a b : list bool) : bool :=
  match a, b with
  | [], [] => true
  | x :: a', y :: b' => Bool.eqb x y && bools_eqb a' b'
  | _, _ => false
  end.

Fixpoint nats_eqb (a b : list nat) : bool :=
  match a, b with
  | [], [] => true
  | x :: a', y :: b' => Nat.eqb x y && nats_eqb a' b'
  | _, _ => false
  end.

(* least fixpoint of "body is nullable", from all-false *)
Definition null_step (cg : cgrammar) (nl : list bool) : list bool :=
  map (fun r => null nl (cbody r)) cg.

Fixpoint iter_nl (fuel : nat) (cg : cgrammar) (nl : list bool) : list bool :=
  match fuel with
  | O => nl
  | S f => let nl' := null_step cg nl in if bools_eqb nl' nl then nl else iter_nl f cg nl'
  end.

Definition compute_nl (cg : cgrammar) : list bool :=
  iter_nl (S (length cg)) cg (map (fun _ => false) cg).

(* rank = 1 + the largest rank of a rule callable at the left edge (0 if none); iterated from 0.
   With left recursion the iteration does not stabilise and the check below fails. *)
Fixpoint lcmax (nl : list bool) (rk : list nat) (e : cexp) : nat :=
  match e with
  | CCall j => S (nth j rk 0)
  | CSeq a b => Nat.max (lcmax nl rk a) (if null nl a then lcmax nl rk b else 0)
  | CChoice a b => Nat.max (lcmax nl rk a) (lcmax nl rk b)
  | CStar a | CPos a | CNeg a => lcmax nl rk a
  | _ => 0
  end.

Definition rk_step (cg : cgrammar) (nl : list bool) (rk : list nat) : list nat :=
  map (fun r => lcmax nl rk (cbody r)) cg.

Fixpoint iter_rk (fuel : nat) (cg : cgrammar) (nl : list bool) (rk : list nat) : list nat :=
  match fuel with
  | O => rk
  | S f => let rk' := rk_step cg nl rk in if nats_eqb rk' rk then rk else iter_rk f cg nl rk'
  end.

Definition compute_rk (cg : cgrammar) (nl : list bool) : list nat :=
  iter_rk (S (length cg)) cg nl (map (fun _ => 0) cg).

Definition tables (g : grammar) : cgrammar * list bool * list nat :=
  let cg := desugar g in
  let nl := compute_nl cg in
  (cg, nl, compute_rk cg nl).

Definition wf (g : grammar) : bool :=
  let '(cg, nl, rk) := tables g in wfb cg nl rk.

Definition fuel_bound (g : grammar) (n : nat) : nat :=
  let '(cg, nl, rk) := tables g in S n * Kx cg rk.

Lemma length_desugar_from : forall ws cm g i, length (desugar_from ws cm i g) = 3 * length g.
Proof. induction g as [|r g IH]; intros i; cbn [desugar_from length]; [reflexivity|]. rewrite IH. lia. Qed.

Lemma length_desugar : forall g, length (desugar g) = 3 * length g.
Proof. intros. apply length_desugar_from. Qed.

Lemma cidx_lt : forall g i m, i < length g -> cidx i m < length (desugar g).
Proof. intros g i m H. rewrite length_desugar. unfold cidx. destruct m; cbn [mode_idx]; lia. Qed.

Theorem peg_terminates : forall g, wf g = true ->
  forall i input fuel, i < length g -> fuel_bound g (length input) <= fuel ->
  parse_rule g fuel i input <> OutOfFuel.
Proof.
  intros g Hwf i input fuel Hi Hf. unfold wf, fuel_bound, tables in *. unfold parse_rule.
  set (cg := desugar g) in *. set (nl := compute_nl cg) in *. set (rk := compute_rk cg nl) in *.
  pose proof (cidx_lt g i NonAtomic Hi) as Hlt. fold cg in Hlt.
  destruct (nth_error cg (cidx i NonAtomic)) as [r|] eqn:En.
  2:{ apply nth_error_None in En. lia. }
  pose proof (body_size cg _ _ En) as Hsz. pose proof (csize_pos (cbody r)) as Hpos.
  apply (terminates cg nl rk Hwf fuel (CCall (cidx i NonAtomic)) (start input) (Rx rk)).
  - cbn [wfe]. apply Nat.ltb_lt. exact Hlt.
  - apply lc_top.
  - cbn [csize]. lia.
  - apply le_n.
  - unfold bound. cbn [start rest csize]. pose proof (Kx_eq cg rk) as HK. unfold M' in *.
    cbn [Nat.mul] in Hf. lia.
Qed.

Corollary peg_terminates_ex : forall g, wf g = true -> forall i input, i < length g ->
  exists fuel, fuel <= fuel_bound g (length input) /\ parse_rule g fuel i input <> OutOfFuel.
Proof.
  intros g Hwf i input Hi. exists (fuel_bound g (length input)). split; [apply le_n|].
  apply peg_terminates; auto.
Qed.

Corollary peg_result_stable : forall g, wf g = true -> forall i input fuel, i < length g ->
  fuel_bound g (length input) <= fuel ->
  parse_rule g fuel i input = parse_rule g (fuel_bound g (length input)) i input.
Proof.
  intros g Hwf i input fuel Hi Hf. unfold parse_rule. apply parse_mono; [exact Hf|].
  apply (peg_terminates g Hwf i input _ Hi (le_n _)).
Qed.

Definition steps_of (r : res) : option N :=
  match r with Ok _ _ n => Some n | Fail n => Some n | OutOfFuel => None end.
