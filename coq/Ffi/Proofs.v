(* C19 -- theorems about the foreign-call model (Ffi/Model.v); every statement is for EVERY foreign behaviour `ffi`,
   every operand stack, every surrounding program. *)
From Coq Require Import PeanoNat.
From MS Require Import Base.Str Ffi.Model.

(* the step consults the foreign world at one point only: (lib, f, the operand stack as it is, in order) *)
Theorem call_lib_passes_stack :
  forall (ffi1 ffi2 : str -> str -> list value -> ffi_outcome) (lib f : str) (s : vm),
  ffi1 lib f (stack s) = ffi2 lib f (stack s) ->
  exec_instr ffi1 (CallLib lib f) s = exec_instr ffi2 (CallLib lib f) s.
Proof. intros ffi1 ffi2 lib f s H. cbn [exec_instr]. rewrite H. reflexivity. Qed.

(* a whole run consults the foreign world only at (library, symbol) pairs that ONE call_lib instruction of the program
   names together: what symbol S does in library A is irrelevant to an instruction naming (B, S) - there is no state
   carried from one foreign call to the next *)
Theorem run_consults_named_pairs_only :
  forall (ffi1 ffi2 : str -> str -> list value -> ffi_outcome) (prog : list instr),
  (forall lib f args, In (CallLib lib f) prog -> ffi1 lib f args = ffi2 lib f args) ->
  forall (ip : nat) (s : vm), run_from ffi1 ip prog s = run_from ffi2 ip prog s.
Proof.
  intros ffi1 ffi2 prog. induction prog as [|i rest IH]; intros H ip s; [reflexivity|].
  cbn [run_from].
  assert (E : exec_instr ffi1 i (mark ip s) = exec_instr ffi2 i (mark ip s)).
  { destruct i; try reflexivity. apply call_lib_passes_stack. apply H. left. reflexivity. }
  rewrite E. destruct (exec_instr ffi2 i (mark ip s)); try reflexivity.
  apply IH. intros lib f args Hin. apply H. right. exact Hin.
Qed.

Section WithFfi.
Variable ffi : str -> str -> list value -> ffi_outcome.

(* whenever the foreign function is entered, the call made is (lib, f, operand stack) and it is the only one *)
Theorem call_lib_call_logged : forall (lib f : str) (s : vm) (r : step_result),
  exec_instr ffi (CallLib lib f) s = r ->
  match ffi lib f (stack s) with
  | Value _ | NoValue | Raised _ =>
      exists s', (r = Next s' \/ exists e, r = Fail e s') /\ calls s' = calls s ++ [(lib, f, stack s)]
  | NoLibrary | NoSymbol => exists e s', r = Fail e s' /\ calls s' = calls s
  end.
Proof.
  intros lib f s r H. cbn [exec_instr] in H. destruct (ffi lib f (stack s)); subst r.
  - eexists. split; [left; reflexivity|reflexivity].
  - eexists. split; [left; reflexivity|reflexivity].
  - eexists. split; [right; eexists; reflexivity|reflexivity].
  - do 2 eexists. split; reflexivity.
  - do 2 eexists. split; reflexivity.
Qed.

Lemma run_pre_pushes : forall (vs : list value) (ip : nat) (s : vm),
  run_pre ffi ip (map Push vs) s =
  Some (mkVm (stack s ++ vs) (out s)
             (steps s ++ combine (seq ip (length vs)) (seq (length (stack s)) (length vs))) (calls s)).
Proof.
  induction vs as [|v vs IH]; intros ip s.
  - cbn. rewrite !app_nil_r. destruct s; reflexivity.
  - cbn [map run_pre exec_instr]. rewrite IH. cbn [mark stack out steps calls length seq combine].
    rewrite app_length, Nat.add_1_r, <- !app_assoc. reflexivity.
Qed.

(* pushing v1 .. vn onto an empty stack and calling: the foreign function receives exactly [v1; ..; vn] *)
Theorem call_lib_receives_pushed : forall (vs : list value) (lib f : str),
  exists s, run_pre ffi O (map Push vs) init = Some s /\ stack s = vs /\ calls s = [] /\ out s = [] /\
  match ffi lib f vs with
  | Value _ | NoValue | Raised _ =>
      forall r, exec_instr ffi (CallLib lib f) (mark (length vs) s) = r ->
      exists s', (r = Next s' \/ exists e, r = Fail e s') /\ calls s' = [(lib, f, vs)]
  | _ => True
  end.
Proof.
  intros vs lib f. eexists. split; [apply run_pre_pushes|]. cbn [stack calls out init app].
  split; [reflexivity|]. split; [reflexivity|]. split; [reflexivity|].
  destruct (ffi lib f vs) eqn:E; try exact I; intros r Hr; apply call_lib_call_logged in Hr;
    cbn [mark stack calls app] in Hr; rewrite E in Hr; exact Hr.
Qed.

(* the code clears the operand stack when the request is made and pushes the returned value: the stack is
   exactly [v] afterwards, or empty with no value; output untouched *)
Theorem call_lib_result : forall (lib f : str) (s : vm),
  (forall v, ffi lib f (stack s) = Value v ->
     exec_instr ffi (CallLib lib f) s = Next (mkVm [v] (out s) (steps s) (calls s ++ [(lib, f, stack s)]))) /\
  (ffi lib f (stack s) = NoValue ->
     exec_instr ffi (CallLib lib f) s = Next (mkVm [] (out s) (steps s) (calls s ++ [(lib, f, stack s)]))).
Proof. intros lib f s. split; [intros v H|intro H]; cbn [exec_instr]; rewrite H; reflexivity. Qed.

Lemma run_from_app : forall (pre rest : list instr) (ip : nat) (s0 s : vm),
  run_pre ffi ip pre s0 = Some s -> run_from ffi ip (pre ++ rest) s0 = run_from ffi (ip + length pre) rest s.
Proof.
  induction pre as [|i pre IH]; intros rest ip s0 s H.
  - cbn in H. inversion H; subst. cbn. rewrite Nat.add_0_r. reflexivity.
  - cbn [run_pre] in H. cbn [app run_from length].
    destruct (exec_instr ffi i (mark ip s0)) as [s1|s1|e s1]; try discriminate.
    rewrite (IH rest (S ip) s1 s H), Nat.add_succ_comm. reflexivity.
Qed.

(* in a program: after a returned value the NEXT instruction runs, on the stack [v] *)
Theorem call_lib_then_continues : forall (pre post : list instr) (lib f : str) (ip : nat) (s0 s : vm) (v : value),
  run_pre ffi ip pre s0 = Some s -> ffi lib f (stack s) = Value v ->
  run_from ffi ip (pre ++ CallLib lib f :: post) s0 =
  run_from ffi (S (ip + length pre)) post
    (mkVm [v] (out s) (steps s ++ [((ip + length pre)%nat, length (stack s))]) (calls s ++ [(lib, f, stack s)])).
Proof.
  intros pre post lib f ip s0 s v Hpre Hv. rewrite (run_from_app pre _ ip s0 s Hpre).
  cbn [run_from exec_instr mark stack out steps calls]. rewrite Hv. reflexivity.
Qed.

Definition error_of (lib f : str) (o : ffi_outcome) : option error :=
  match o with
  | Raised m => Some (EFfi m)
  | NoLibrary => Some (ENoLibrary lib)
  | NoSymbol => Some (ENoSymbol lib f)
  | _ => None
  end.

(* a raised error, a missing library or a missing symbol stops the run with an error carrying the message (resp.
   the library / symbol name); no later instruction executes - the last executed instruction is the call_lib -
   and the output is what it was before the call *)
Theorem call_lib_error : forall (pre post : list instr) (lib f : str) (ip : nat) (s0 s : vm) (e : error),
  run_pre ffi ip pre s0 = Some s -> error_of lib f (ffi lib f (stack s)) = Some e ->
  exists s', run_from ffi ip (pre ++ CallLib lib f :: post) s0 = RuntimeErr e s' /\
             out s' = out s /\
             steps s' = steps s ++ [((ip + length pre)%nat, length (stack s))] /\
             stack s' = [].
Proof.
  intros pre post lib f ip s0 s e Hpre He. rewrite (run_from_app pre _ ip s0 s Hpre).
  cbn [run_from exec_instr mark stack out steps calls].
  destruct (ffi lib f (stack s)); cbn in He; inversion He; subst e;
    eexists; (split; [reflexivity|]); cbn [out steps stack]; repeat split; reflexivity.
Qed.

Corollary call_lib_error_ignores_rest : forall (pre post post' : list instr) (lib f : str) (ip : nat) (s0 s : vm) (e : error),
  run_pre ffi ip pre s0 = Some s -> error_of lib f (ffi lib f (stack s)) = Some e ->
  run_from ffi ip (pre ++ CallLib lib f :: post) s0 = run_from ffi ip (pre ++ CallLib lib f :: post') s0.
Proof.
  intros pre post post' lib f ip s0 s e Hpre He. rewrite !(run_from_app pre _ ip s0 s Hpre).
  cbn [run_from exec_instr mark stack out steps calls].
  destruct (ffi lib f (stack s)); cbn in He; try discriminate; reflexivity.
Qed.

End WithFfi.
