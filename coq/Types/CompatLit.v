(* C02 (b'): compatibility when the SUPPLIED type is the type of a literal: `nil`, `[]`, `[x, nil]`, `[[], [1]]` ...
   Such a type cannot be written as an annotation (it is not `clean`), and the expression it belongs to can be
   given several annotation types (`nil` is a value of every T?, `[]` of every [T...]).  Whenever eq_complex accepts
   an annotation type t against a literal type u -- in either argument order, with any flags -- u can be completed
   to an annotation type u' (`inst u u'`: the literal's values are values of u') with the kind skeleton of t. *)
From Coq Require Import List Bool NArith.
From MS Require Import Types.OpTable Types.Compat Types.CompatProofs.
Import ListNotations.

(* types of expressions: annotation types, `nil`, and list literals built from them.  (A one-element
   literal `[e]` has the OPEN type [T...]: it is covered when T is an annotation type.) *)
Fixpoint expr_ty (u : ty) : bool :=
  match u with
  | TNil => true
  | TMixed us => forallb expr_ty us
  | _ => clean u
  end.

Inductive inst : ty -> ty -> Prop :=
  | I_clean : forall u, clean u = true -> inst u u
  | I_nil : forall t, clean t = true -> inst TNil (TOpt t)
  | I_empty : forall t, clean t = true -> inst (TMixed []) (TOpen t)
  | I_mixed : forall us us', us <> [] -> Forall2 inst us us' -> inst (TMixed us) (TMixed us').

Lemma clean_expr : forall u, clean u = true -> expr_ty u = true.
Proof.
  fix IH 1. intros u C. destruct u; cbn [expr_ty]; try exact C; try discriminate.
  cbn in C. apply andb_prop in C. destruct C as [_ C].
  induction ts as [|x ts IHts]; [reflexivity|]. cbn in C |- *. apply andb_prop in C. destruct C as [Cx Cts].
  rewrite (IH x Cx). cbn. apply IHts. exact Cts.
Qed.

Definition Fwd (n : nat) : Prop := forall md t u,
  clean t = true -> expr_ty u = true -> cmp true n md t u = Some true ->
  exists u', inst u u' /\ clean u' = true /\ skel u' = skel t.
Definition Bwd (n : nat) : Prop := forall md u t,
  expr_ty u = true -> clean t = true -> cmp true n md u t = Some true ->
  exists u', inst u u' /\ clean u' = true /\ skel u' = skel t.

Lemma strip_expr : forall u, expr_ty u = true -> expr_ty (strip u) = true.
Proof.
  induction u; cbn [strip]; auto. intro H. cbn [expr_ty] in H. apply clean_expr. apply strip_clean. exact H.
Qed.

Lemma strip_nonclean_shape : forall u, expr_ty u = true -> clean (strip u) = false ->
  strip u = u /\ (u = TNil \/ exists us, u = TMixed us).
Proof.
  intros u E C. destruct u; cbn [strip] in *; cbn [expr_ty] in E; try congruence; try (split; [reflexivity|]; eauto).
  - (* alias: clean *) apply strip_clean in E. cbn [strip] in E. congruence.
Qed.

Lemma complete_all : forall ts us,
  Forall2 (fun y x => exists x', inst x x' /\ clean x' = true /\ skel x' = skel y) ts us ->
  exists us', Forall2 inst us us' /\ Forall (fun x => clean x = true) us' /\ map skel us' = map skel ts.
Proof.
  intros ts us H. induction H as [|y x ts us [x' [I [C S]]] H IH].
  - exists []. repeat split; constructor.
  - destruct IH as [us' [I' [C' S']]]. exists (x' :: us'). repeat split; try constructor; auto. cbn. congruence.
Qed.

Lemma complete_const : forall us s,
  Forall (fun x => exists x', inst x x' /\ clean x' = true /\ skel x' = s) us ->
  exists us', Forall2 inst us us' /\ Forall (fun x => clean x = true) us' /\ Forall (fun x => skel x = s) us'.
Proof.
  intros us s H. induction H as [|x us [x' [I [C S]]] H IH].
  - exists []. repeat split; constructor.
  - destruct IH as [us' [I' [C' S']]]. exists (x' :: us'). repeat split; constructor; auto.
Qed.

Lemma clean_mixed_intro : forall us, us <> [] -> Forall (fun x => clean x = true) us -> clean (TMixed us) = true.
Proof.
  intros us Hne H. cbn. destruct us; [congruence|]. cbn [negb andb].
  apply forallb_forall. apply Forall_forall. exact H.
Qed.

Lemma forall2_len : forall A B (R : A -> B -> Prop) l1 l2, Forall2 R l1 l2 -> length l1 = length l2.
Proof. induction 1; cbn; congruence. Qed.

Lemma lit_open : forall (g : ty -> option bool) a us, clean a = true ->
  (forall x, In x us -> g x = Some true -> exists x', inst x x' /\ clean x' = true /\ skel x' = skel a) ->
  all1 g us = Some true ->
  exists u', inst (TMixed us) u' /\ clean u' = true /\ skel u' = L (skel a).
Proof.
  intros g a us Ca Hg H. apply all1_true in H.
  assert (Hx : Forall (fun x => exists x', inst x x' /\ clean x' = true /\ skel x' = skel a) us).
  { apply Forall_forall. intros x Hin. rewrite Forall_forall in H. auto. }
  destruct us as [|x0 us0].
  - exists (TOpen a). repeat split; [apply I_empty; exact Ca | exact Ca].
  - destruct (complete_const _ _ Hx) as [us' [I [C S]]].
    assert (Hne : us' <> []) by (inversion I; discriminate).
    exists (TMixed us'). repeat split.
    + apply I_mixed; [discriminate | exact I].
    + apply clean_mixed_intro; assumption.
    + apply skel_mixed_const; assumption.
Qed.

Lemma lit_mixed : forall (h : ty -> ty -> option bool) ts us,
  clean (TMixed ts) = true -> forallb expr_ty us = true ->
  (forall y x, clean y = true -> expr_ty x = true -> h y x = Some true ->
     exists x', inst x x' /\ clean x' = true /\ skel x' = skel y) ->
  length ts = length us -> all2 h ts us = Some true ->
  exists u', inst (TMixed us) u' /\ clean u' = true /\ skel u' = skel (TMixed ts).
Proof.
  intros h ts us Ct Eu Hh Hl H. apply all2_true in H; [|exact Hl].
  apply clean_mixed in Ct. destruct Ct as [Hne Ct]. apply forallb_Forall in Eu.
  apply (Forall2_impl_in _ _ _ _ _ _ Hh Ct Eu), complete_all in H. destruct H as [us' [I [C S]]].
  assert (Hne' : us <> []) by (destruct us, ts; cbn in Hl; congruence).
  exists (TMixed us'). repeat split.
  - apply I_mixed; assumption.
  - apply clean_mixed_intro; [|exact C]. apply forall2_len in I. destruct us, us'; cbn in I; congruence.
  - cbn. rewrite S. reflexivity.
Qed.

Lemma all2_flip : forall (f : ty -> ty -> option bool) l1 l2, all2 (fun y x => f x y) l2 l1 = all2 f l1 l2.
Proof. induction l1 as [|x l1 IH]; intros [|y l2]; cbn; try reflexivity. rewrite IH. reflexivity. Qed.

Section Lists.
  Variable n : nat.
  Hypothesis F : Fwd n.
  Hypothesis B : Bwd n.

  Lemma lit_into_open : forall g a us, clean a = true -> forallb expr_ty us = true ->
    all1 (fun x => cmp true n (Some g) a x) us = Some true ->
    exists u', inst (TMixed us) u' /\ clean u' = true /\ skel u' = L (skel a).
  Proof.
    intros g a us Ca Eu. apply lit_open; [exact Ca|]. intros x Hin. apply (F (Some g) a x Ca).
    exact (proj1 (forallb_forall _ _) Eu x Hin).
  Qed.

  Lemma lit_first_open : forall g a us, clean a = true -> forallb expr_ty us = true ->
    all1 (fun x => cmp true n (Some g) x a) us = Some true ->
    exists u', inst (TMixed us) u' /\ clean u' = true /\ skel u' = L (skel a).
  Proof.
    intros g a us Ca Eu. apply lit_open; [exact Ca|]. intros x Hin H. apply (B (Some g) x a); auto.
    exact (proj1 (forallb_forall _ _) Eu x Hin).
  Qed.

  Lemma lit_list_into : forall g l u, clean l = true -> expr_ty u = true -> clean u = false ->
    list_accepted true (cmp true n (Some g)) l u -> exists u', inst u u' /\ clean u' = true /\ skel u' = skel l.
  Proof.
    intros g l u Cl Eu Cu H. destruct H as [ts us Hl H | a b H | ts b H | a us H]; cbn [expr_ty] in Eu; try congruence.
    - apply (lit_mixed (cmp true n (Some g))); auto.
      + intros; apply (F (Some g)); assumption.
      + apply PeanoNat.Nat.eqb_eq, Hl.
    - exact (lit_into_open g a us Cl Eu H).
  Qed.

  Lemma lit_list_first : forall g u r, expr_ty u = true -> clean u = false -> clean r = true ->
    list_accepted true (cmp true n (Some g)) u r -> exists u', inst u u' /\ clean u' = true /\ skel u' = skel r.
  Proof.
    intros g u r Eu Cu Cr H. destruct H as [us ts Hl H | a b H | us b H | a ts H]; cbn [expr_ty] in Eu; try congruence.
    - apply (lit_mixed (fun y x => cmp true n (Some g) x y)); auto.
      + intros; apply (B (Some g)); assumption.
      + symmetry. apply PeanoNat.Nat.eqb_eq, Hl.
      + rewrite all2_flip. exact H.
    - exact (lit_first_open g b us Cr Eu H).
  Qed.

  (* a `nil` literal is completed to the optional it meets *)
  Lemma lit_accepted_into : forall f l u, clean l = true -> expr_ty u = true -> clean u = false ->
    accepted true n f l u -> exists u', inst u u' /\ clean u' = true /\ skel u' = skel l.
  Proof.
    intros f l u Cl Eu Cu H.
    destruct H as [l r E | l r LA | r Ff | y | x | x y E | x r G S E | l y G W E | l1 l2];
      try discriminate; cbn [expr_ty] in Eu; try congruence.
    - exact (F None l r Cl Eu E).
    - exact (lit_list_into f l r Cl Eu Cu LA).
    - exists (TOpt x). repeat split; [apply I_nil; exact Cl | exact Cl].
    - exact (F (Some f) x r Cl Eu E).
  Qed.

  Lemma lit_accepted_first : forall f u r, expr_ty u = true -> clean u = false -> clean r = true ->
    accepted true n f u r -> exists u', inst u u' /\ clean u' = true /\ skel u' = skel r.
  Proof.
    intros f u r Eu Cu Cr H.
    destruct H as [l r E | l r LA | r Ff | y | x | x y E | x r G S E | l y G W E | l1 l2];
      try discriminate; cbn [expr_ty] in Eu; try congruence.
    - exact (B None l r Eu Cr E).
    - exact (lit_list_first f l r Eu Cu Cr LA).
    - exists (TOpt r). repeat split; [apply I_nil; exact Cr | exact Cr].
    - exists (TOpt y). repeat split; [apply I_nil; exact Cr | exact Cr].
    - exact (F (Some f) y l Cr Eu E).
  Qed.
End Lists.

Lemma clean_opt_inv : forall x, clean (TOpt x) = true -> clean x = true.
Proof. intros x H. exact H. Qed.

(* a clean u is its own completion (cmp_clean_skel); otherwise u is `nil` or a list literal, not an alias *)
Theorem lit_fwd : forall n, Fwd n.
Proof.
  induction n as [|n F]; intros md t u Ct Eu H; [discriminate|].
  destruct (clean u) eqn:Cu.
  { exists u. repeat split; [apply I_clean; exact Cu | exact Cu | symmetry; apply (cmp_clean_skel (S n) md t u); auto]. }
  destruct (strip_nonclean_shape u Eu) as [Su Sh]; [rewrite clean_strip; exact Cu|].
  destruct md as [f|].
  - apply cmp_accepted in H. rewrite Su in H. rewrite <- (strip_skel t).
    exact (lit_accepted_into n F f _ u (strip_clean t Ct) Eu Cu H).
  - (* ==: only two list types have an arm for a literal *)
    destruct (is_list_ty t && is_list_ty u) eqn:LL.
    + rewrite cmp_eq_unfold in H by exact LL.
      exact (lit_list_into n F classless t u Ct Eu Cu (list_arms_true _ _ _ _ H)).
    + cbn [cmp] in H. destruct Sh as [->|[us ->]]; destruct t; discriminate.
Qed.

(* under lhs_unwrap eq_complex swaps its arguments and goes on forward *)
Theorem lit_bwd : forall n, Bwd n.
Proof.
  induction n as [|n B]; intros md u t Eu Ct H; [discriminate|].
  destruct (clean u) eqn:Cu.
  { exists u. repeat split; [apply I_clean; exact Cu | exact Cu | apply (cmp_clean_skel (S n) md u t); auto]. }
  destruct (strip_nonclean_shape u Eu) as [Su Sh]; [rewrite clean_strip; exact Cu|].
  destruct md as [f|].
  - apply cmp_accepted in H. rewrite Su in H. rewrite <- (strip_skel t).
    exact (lit_accepted_first n (lit_fwd n) B f u _ Eu Cu (strip_clean t Ct) H).
  - destruct (is_list_ty u && is_list_ty t) eqn:LL.
    + rewrite cmp_eq_unfold in H by exact LL.
      exact (lit_list_first n B classless u t Eu Cu Ct (list_arms_true _ _ _ _ H)).
    + cbn [cmp] in H. destruct Sh as [->|[us ->]]; destruct t; discriminate.
Qed.

(* C02 (b') *)
Theorem eq_complex_literal : forall fuel f t u,
  clean t = true -> expr_ty u = true -> eq_complex fuel f t u = Some true ->
  exists u', inst u u' /\ clean u' = true /\ skel u' = skel t.
Proof. intros fuel f t u. apply (lit_fwd fuel (Some f)). Qed.

Theorem eq_complex_literal_swapped : forall fuel f u t,
  expr_ty u = true -> clean t = true -> eq_complex fuel f u t = Some true ->
  exists u', inst u u' /\ clean u' = true /\ skel u' = skel t.
Proof. intros fuel f u t. apply (lit_bwd fuel (Some f)). Qed.
