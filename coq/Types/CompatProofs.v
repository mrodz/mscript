(* C02 (b) (`cmp_clean_skel`): for annotation types (no `nil` type and no empty fixed-shape list at any depth),
   whenever `==` or eq_complex -- with ANY flag combination, and in either argument order (eq_complex swaps its own
   arguments in the lhs_unwrap arm, and get_property_type asks slot against element type both ways) -- answers
   true, both types have the same kind skeleton.  Skeleton equality is an equivalence relation, so no chain of
   accepted stores can change the kind found at any access path.

   The two hypotheses are necessary: `empty_fixed_list_launders` and, without fixes/c02-mixed-list-length.diff,
   `orig_refuted_length`. *)
From Coq Require Import List Bool NArith Lia.
From MS Require Import Types.OpTable Types.Compat.
Import ListNotations.

Lemma oand_true : forall a b, oand a b = Some true -> a = Some true /\ b = Some true.
Proof.
  intros [[|]|] [[|]|]; cbn; intro H; try discriminate; split; reflexivity.
Qed.

Lemma all2_true : forall f l1 l2, all2 f l1 l2 = Some true -> length l1 = length l2 ->
  Forall2 (fun x y => f x y = Some true) l1 l2.
Proof.
  induction l1 as [|x l1 IH]; intros [|y l2] H Hl; cbn in *; try discriminate; try constructor.
  - apply oand_true in H. tauto.
  - apply oand_true in H. apply IH; [tauto | lia].
Qed.

Lemma all1_true : forall f l, all1 f l = Some true -> Forall (fun x => f x = Some true) l.
Proof.
  induction l as [|x l IH]; cbn; intro H; constructor; apply oand_true in H; [tauto | apply IH; tauto].
Qed.

Lemma strip_skel : forall t, skel (strip t) = skel t.
Proof. induction t; cbn; auto. Qed.

Lemma clean_strip : forall t, clean (strip t) = clean t.
Proof. induction t; cbn; auto. Qed.

Lemma strip_clean : forall t, clean t = true -> clean (strip t) = true.
Proof. intros t. rewrite clean_strip. auto. Qed.

Lemma strip_not_alias : forall t n x, strip t <> TAlias n x.
Proof. induction t; cbn; intros; try discriminate; auto. Qed.

(* a Fixpoint: sk is nested through lists *)
Fixpoint sk_eqb_refl (s : sk) : sk_eqb s s = true.
Proof.
  destruct s as [k| |s|ss|a b|ps r|n]; cbn.
  - apply kind_eqb_refl.
  - reflexivity.
  - apply sk_eqb_refl.
  - induction ss as [|x ss IH]; [reflexivity|]. rewrite (sk_eqb_refl x). exact IH.
  - rewrite (sk_eqb_refl a), (sk_eqb_refl b). reflexivity.
  - apply andb_true_intro. split.
    + induction ps as [|x ps IH]; [reflexivity|]. rewrite (sk_eqb_refl x). exact IH.
    + destruct r as [x|]; [apply sk_eqb_refl | reflexivity].
  - apply N.eqb_refl.
Qed.

Lemma collapse_const : forall s ss, ss <> [] -> Forall (fun x => x = s) ss -> collapse ss = L s.
Proof.
  intros s [|x ss] Hne H; [congruence|]. inversion H as [|? ? Hx Hr]; subst. cbn.
  assert (forallb (sk_eqb s) ss = true) as ->; [|reflexivity].
  apply forallb_forall. intros y Hy. rewrite Forall_forall in Hr. rewrite (Hr y Hy). apply sk_eqb_refl.
Qed.

Lemma forall2_map_skel : forall l1 l2, Forall2 (fun x y => skel x = skel y) l1 l2 -> map skel l1 = map skel l2.
Proof. induction 1; cbn; congruence. Qed.

Lemma forallb_Forall : forall (f : ty -> bool) l, forallb f l = true -> Forall (fun x => f x = true) l.
Proof. intros. apply Forall_forall. apply forallb_forall. assumption. Qed.

Lemma clean_mixed : forall ts, clean (TMixed ts) = true -> ts <> [] /\ Forall (fun x => clean x = true) ts.
Proof.
  intros ts H. cbn in H. apply andb_prop in H. destruct H as [H1 H2]. split.
  - destruct ts; [discriminate | congruence].
  - apply forallb_Forall. exact H2.
Qed.

Lemma Forall2_impl_in {A B} (P1 : A -> Prop) (P2 : B -> Prop) (R Q : A -> B -> Prop) l1 l2 :
  (forall x y, P1 x -> P2 y -> R x y -> Q x y) -> Forall P1 l1 -> Forall P2 l2 -> Forall2 R l1 l2 -> Forall2 Q l1 l2.
Proof.
  intros HI F1 F2 H. induction H as [|x y l1 l2 Hxy H IH]; constructor; inversion F1; inversion F2; subst; auto.
Qed.

(* the list arms, shared by `==` (which passes classless flags) and eq_complex *)
Definition list_arms (fixed : bool) (eqc : ty -> ty -> option bool) (l r : ty) : option bool :=
  match l, r with
  | TMixed t1, TMixed t2 => oand (Some (len_ok fixed t1 t2)) (all2 eqc t1 t2)
  | TOpen a, TOpen b => eqc a b
  | TMixed t1, TOpen t2 => all1 (fun x => eqc x t2) t1
  | TOpen t2, TMixed t1 => all1 (fun x => eqc t2 x) t1
  | _, _ => Some false
  end.

Definition opt_tail (f : flags) (eqc : ty -> ty -> option bool) (l r : ty) : option bool :=
  if is_nil_ty l && force_rhs f then Some true
  else if negb (force_rhs f) &&
          ((is_nil_ty l && (match get_opt r with Some _ => true | None => false end)) ||
           ((match get_opt l with Some _ => true | None => false end) && is_nil_ty r))
  then Some true
  else match get_opt l, get_opt r with
       | Some x, Some y => eqc x y
       | Some x, None => if negb (sig_check f) then eqc x r else Some false
       | None, Some x => if lhs_unwrap f then eqc x l else Some false
       | None, None => Some (is_str l && is_str r && negb (enforce_len f))
       end.

Lemma cmp_unfold : forall fixed n f t u,
  cmp fixed (S n) (Some f) t u =
  if is_list_ty (strip t) && is_list_ty (strip u) then list_arms fixed (cmp fixed n (Some f)) (strip t) (strip u)
  else match cmp fixed n None (strip t) (strip u) with
       | None => None
       | Some true => Some (if force_rhs f then negb (is_optional (strip u)) else true)
       | Some false => opt_tail f (cmp fixed n (Some f)) (strip t) (strip u)
       end.
Proof. intros. cbn [cmp]. destruct (strip t); try reflexivity; destruct (strip u); reflexivity. Qed.

Lemma cmp_eq_unfold : forall fixed n t u, is_list_ty t && is_list_ty u = true ->
  cmp fixed (S n) None t u = list_arms fixed (cmp fixed n (Some classless)) t u.
Proof. intros fixed n t u. destruct t; try discriminate; destruct u; try discriminate; reflexivity. Qed.

Inductive list_accepted (fixed : bool) (eqc : ty -> ty -> option bool) : ty -> ty -> Prop :=
  | LA_mixed t1 t2 : len_ok fixed t1 t2 = true -> all2 eqc t1 t2 = Some true -> list_accepted fixed eqc (TMixed t1) (TMixed t2)
  | LA_open a b : eqc a b = Some true -> list_accepted fixed eqc (TOpen a) (TOpen b)
  | LA_mixed_open t1 b : all1 (fun x => eqc x b) t1 = Some true -> list_accepted fixed eqc (TMixed t1) (TOpen b)
  | LA_open_mixed a t2 : all1 (fun x => eqc a x) t2 = Some true -> list_accepted fixed eqc (TOpen a) (TMixed t2).

Inductive accepted (fixed : bool) (n : nat) (f : flags) : ty -> ty -> Prop :=
  | Acc_eq l r : cmp fixed n None l r = Some true -> accepted fixed n f l r
  | Acc_list l r : list_accepted fixed (cmp fixed n (Some f)) l r -> accepted fixed n f l r
  | Acc_nil_forced r : force_rhs f = true -> accepted fixed n f TNil r
  | Acc_nil_opt y : accepted fixed n f TNil (TOpt y)
  | Acc_opt_nil x : accepted fixed n f (TOpt x) TNil
  | Acc_opt_opt x y : cmp fixed n (Some f) x y = Some true -> accepted fixed n f (TOpt x) (TOpt y)
  | Acc_opt_plain x r : get_opt r = None -> sig_check f = false -> cmp fixed n (Some f) x r = Some true ->
      accepted fixed n f (TOpt x) r
  | Acc_plain_opt l y : get_opt l = None -> lhs_unwrap f = true -> cmp fixed n (Some f) y l = Some true ->
      accepted fixed n f l (TOpt y)                                                         (* the sides swap *)
  | Acc_str l1 l2 : accepted fixed n f (TNat KStr l1) (TNat KStr l2).

Lemma list_arms_true : forall fixed eqc l r, list_arms fixed eqc l r = Some true -> list_accepted fixed eqc l r.
Proof.
  intros fixed eqc l r H. destruct l; try discriminate; destruct r; try discriminate; cbn [list_arms] in H.
  4: apply oand_true in H as [[= Hl] H]. all: constructor; assumption.
Qed.

Lemma get_opt_some : forall t x, get_opt t = Some x -> t = TOpt x.
Proof. destruct t; cbn; congruence. Qed.

Lemma opt_tail_true : forall fixed n f l r,
  opt_tail f (cmp fixed n (Some f)) l r = Some true -> accepted fixed n f l r.
Proof.
  intros fixed n f l r. unfold opt_tail.
  destruct (get_opt l) as [x|] eqn:Gl; [apply get_opt_some in Gl as -> |];
    (destruct (get_opt r) as [y|] eqn:Gr; [apply get_opt_some in Gr as -> |]); cbn [is_nil_ty get_opt andb orb].
  - (* T? / U? *) rewrite andb_false_r. intros H. apply Acc_opt_opt. exact H.
  - (* T? / no optional: `nil`, or the unwrapped call *)
    destruct (is_nil_ty r) eqn:Nr; [destruct r; try discriminate|]; destruct (force_rhs f), (sig_check f) eqn:Sg;
      cbn [negb andb orb]; intros H; try discriminate; first [apply Acc_opt_plain; assumption | apply Acc_opt_nil].
  - (* no optional / U?: `nil`, or the swapped call *)
    destruct (is_nil_ty l) eqn:Nl; [destruct l; try discriminate|]; destruct (force_rhs f), (lhs_unwrap f) eqn:U;
      cbn [negb andb orb]; intros H; try discriminate; first [apply Acc_plain_opt; assumption | apply Acc_nil_opt].
  - (* no optional on either side: `nil` forced, or two strings *)
    destruct (is_nil_ty l) eqn:Nl; [destruct l; try discriminate|]; destruct (force_rhs f) eqn:Ff;
      cbn [negb andb orb]; rewrite ?andb_false_r; cbn [andb]; intros H; try discriminate;
      try (apply Acc_nil_forced; exact Ff).
    all: destruct l as [[] ?| | | | | | | |]; try discriminate; destruct r as [[] ?| | | | | | | |]; try discriminate;
      apply Acc_str.
Qed.

Lemma cmp_accepted : forall fixed n f t u, cmp fixed (S n) (Some f) t u = Some true -> accepted fixed n f (strip t) (strip u).
Proof.
  intros fixed n f t u H. rewrite cmp_unfold in H.
  destruct (is_list_ty (strip t) && is_list_ty (strip u)); [apply Acc_list, list_arms_true, H|].
  destruct (cmp fixed n None (strip t) (strip u)) as [[|]|] eqn:E; [apply Acc_eq, E | apply opt_tail_true, H | discriminate].
Qed.

Lemma skel_mixed_const : forall us s, us <> [] -> Forall (fun x => skel x = s) us -> skel (TMixed us) = L s.
Proof.
  intros us s Hne H. cbn. apply collapse_const.
  - destruct us; [congruence | discriminate].
  - apply Forall_forall. intros y Hy. apply in_map_iff in Hy. destruct Hy as [x [<- Hx]].
    rewrite Forall_forall in H. apply H. exact Hx.
Qed.

Lemma all1_const_skel : forall (g : ty -> option bool) t2 t1,
  (forall x, clean x = true -> g x = Some true -> skel x = skel t2) ->
  clean (TMixed t1) = true -> all1 g t1 = Some true -> skel (TMixed t1) = L (skel t2).
Proof.
  intros g t2 t1 Hg C1 H. apply all1_true in H. apply clean_mixed in C1. destruct C1 as [Hne C1].
  apply skel_mixed_const; [exact Hne|]. rewrite Forall_forall in *. auto.
Qed.

Section ListCases.
  Variable f : ty -> ty -> option bool.
  Hypothesis IH : forall a b, clean a = true -> clean b = true -> f a b = Some true -> skel a = skel b.

  Lemma all2_skel : forall l1 l2, forallb clean l1 = true -> forallb clean l2 = true -> length l1 = length l2 ->
    all2 f l1 l2 = Some true -> map skel l1 = map skel l2.
  Proof.
    intros l1 l2 C1 C2 Hl H. apply all2_true in H; [|exact Hl]. apply forallb_Forall in C1, C2.
    apply forall2_map_skel. exact (Forall2_impl_in _ _ _ _ _ _ IH C1 C2 H).
  Qed.

  (* expected `[T...]`, supplied `[T1, .., Tn]` *)
  Lemma open_mixed : forall t2 t1, clean t2 = true -> clean (TMixed t1) = true ->
    all1 (fun x => f t2 x) t1 = Some true -> skel (TMixed t1) = L (skel t2).
  Proof. intros t2 t1 C2. apply all1_const_skel. intros x Cx H. symmetry. apply IH; auto. Qed.

  (* expected `[T1, .., Tn]`, supplied `[T...]` (each slot expects an element) *)
  Lemma mixed_open : forall t2 t1, clean t2 = true -> clean (TMixed t1) = true ->
    all1 (fun x => f x t2) t1 = Some true -> skel (TMixed t1) = L (skel t2).
  Proof. intros t2 t1 C2. apply all1_const_skel. intros x Cx H. apply IH; auto. Qed.

  Lemma list_accepted_skel : forall l r, clean l = true -> clean r = true -> list_accepted true f l r -> skel l = skel r.
  Proof.
    intros l r Cl Cr H. destruct H as [t1 t2 Hl H | a b H | t1 b H | a t2 H].
    - cbn in Cl, Cr. apply andb_prop in Cl as [_ Cl], Cr as [_ Cr]. cbn. f_equal.
      apply all2_skel; auto. apply PeanoNat.Nat.eqb_eq. exact Hl.
    - cbn. f_equal. apply IH; auto.
    - apply mixed_open; auto.
    - symmetry. apply open_mixed; auto.
  Qed.
End ListCases.

Theorem cmp_clean_skel : forall n md t u,
  clean t = true -> clean u = true -> cmp true n md t u = Some true -> skel t = skel u.
Proof.
  induction n as [|n IH]; intros md t u Ct Cu H; [discriminate|].
  assert (IHl : forall g l r, clean l = true -> clean r = true ->
                  list_accepted true (cmp true n (Some g)) l r -> skel l = skel r)
    by (intros g; apply list_accepted_skel; apply (IH (Some g))).
  destruct md as [f|].
  - (* eq_complex: a `nil` on either side is not clean *)
    apply cmp_accepted in H. rewrite <- (strip_skel t), <- (strip_skel u). apply strip_clean in Ct, Cu.
    destruct H as [l r E | l r LA | r F | y | x | x y E | x r G S E | l y G W E | l1 l2]; try discriminate.
    + exact (IH None l r Ct Cu E).
    + exact (IHl f l r Ct Cu LA).
    + exact (IH (Some f) x y Ct Cu E).
    + exact (IH (Some f) x r Ct Cu E).
    + symmetry. exact (IH (Some f) y l Cu Ct E).
    + reflexivity.
  - (* == *)
    destruct (is_list_ty t && is_list_ty u) eqn:LL;
      [rewrite cmp_eq_unfold in H by exact LL; apply (IHl classless), list_arms_true; assumption|].
    cbn [cmp] in H.
    destruct t as [k1 l1| |a|a|t1|k1 v1|p1 r1|n1 a|n1]; destruct u as [k2 l2| |b|b|t2|k2 v2|p2 r2|n2 b|n2];
      try discriminate.
    + (* native *) injection H as H. apply andb_prop in H as [H _]. apply kind_eqb_eq in H. subst. reflexivity.
    + (* T? == U? *) exact (IH None a b Ct Cu H).
    + (* map *)
      apply oand_true in H as [H1 H2]. cbn in Ct, Cu. apply andb_prop in Ct as [Ck1 Cv1], Cu as [Ck2 Cv2].
      cbn. f_equal; apply (IH None); assumption.
    + (* fn *)
      destruct (Nat.eqb (length p1) (length p2)) eqn:El; cbn [negb] in H; [|discriminate].
      apply PeanoNat.Nat.eqb_eq in El. apply oand_true in H as [Hr Hp].
      cbn in Ct, Cu. apply andb_prop in Ct as [Cp1 Cr1], Cu as [Cp2 Cr2]. cbn. f_equal.
      * apply (all2_skel (cmp true n (Some sig_flags))); auto. apply (IH (Some sig_flags)).
      * destruct r1 as [x|], r2 as [y|]; try discriminate; [|reflexivity].
        cbn. f_equal. exact (IH (Some classless) x y Cr1 Cr2 Hr).
    + (* alias == alias *) apply oand_true in H as [_ H]. exact (IH None a b Ct Cu H).
    + (* class *) injection H as H. apply N.eqb_eq in H. subst. reflexivity.
Qed.

(* C02 (b), the call sites: expected = first argument of eq_complex; the conclusion is symmetric *)
Theorem eq_complex_same_skeleton : forall fuel f t u,
  clean t = true -> clean u = true -> eq_complex fuel f t u = Some true -> skel t = skel u.
Proof. intros fuel f t u. apply (cmp_clean_skel fuel (Some f)). Qed.

Inductive val :=
  | VNil | VNat (k : kind) | VList (vs : list val) | VMap (kvs : list (val * val))
  | VFn (ps : list sk) (r : option sk) | VObj (class : N).

(* run-time values of a skeleton; `nil` inhabits every type (its use is one of the language's own dynamic
   failures), a function value carries the skeleton it was declared with *)
Fixpoint has_sk (s : sk) (v : val) {struct s} : Prop :=
  v = VNil \/
  match s with
  | K k => v = VNat k
  | SNil => False
  | L s' => exists vs, v = VList vs /\ Forall (has_sk s') vs
  | M ss => exists vs, v = VList vs /\
              (fix go (ss : list sk) (vs : list val) : Prop :=
                 match ss, vs with
                 | [], [] => True
                 | s' :: ss', v' :: vs' => has_sk s' v' /\ go ss' vs'
                 | _, _ => False
                 end) ss vs
  | SMap a b => exists kvs, v = VMap kvs /\ Forall (fun kv => has_sk a (fst kv) /\ has_sk b (snd kv)) kvs
  | SFn ps r => v = VFn ps r
  | SClass n => v = VObj n
  end.

Definition has_ty (t : ty) (v : val) : Prop := has_sk (skel t) v.

Definition compat (t u : ty) : Prop := forall v, has_ty u v -> has_ty t v.

Theorem eq_complex_compat : forall fuel f t u,
  clean t = true -> clean u = true -> eq_complex fuel f t u = Some true -> compat t u /\ compat u t.
Proof.
  intros fuel f t u Ct Cu H. unfold compat, has_ty.
  rewrite (eq_complex_same_skeleton fuel f t u Ct Cu H). split; auto.
Qed.

Definition t_int := TNat KInt None.
Definition t_str := TNat KStr None.

(* without fixes/c02-mixed-list-length.diff `[int]` accepts `[int, str]` (zip stops at the shorter list) *)
Lemma orig_refuted_length :
  eq_complex_orig 10 fl_assign (TMixed [t_int]) (TMixed [t_int; t_str]) = Some true /\
  skel (TMixed [t_int]) <> skel (TMixed [t_int; t_str]) /\
  eq_complex 10 fl_assign (TMixed [t_int]) (TMixed [t_int; t_str]) = Some false.
Proof. repeat split; try reflexivity. cbn. discriminate. Qed.

(* a `[]` annotation accepts an open list of anything and is accepted as one: a `[str...]` becomes a `[int...]` in
   two accepted steps *)
Lemma empty_fixed_list_launders :
  eq_complex 10 fl_assign (TMixed []) (TOpen t_str) = Some true /\
  eq_complex 10 fl_assign (TOpen t_int) (TMixed []) = Some true /\
  skel (TOpen t_str) <> skel (TOpen t_int) /\
  clean (TMixed []) = false.
Proof. repeat split; try reflexivity. cbn. discriminate. Qed.

(* non-vacuity; an optional is NOT accepted as its base type at any call site (only under lhs_unwrap, which no call site sets) *)
Example compat_examples :
  eq_complex 20 fl_assign (TOpt t_int) t_int = Some true /\
  eq_complex 20 fl_assign t_int (TOpt t_int) = Some false /\
  eq_complex 20 fl_return t_int (TOpt t_int) = Some false /\
  eq_complex 20 fl_reassign t_int (TOpt t_int) = Some false /\
  eq_complex 20 fl_unwrapping t_int (TOpt t_int) = Some true /\
  eq_complex 20 fl_assign (TOpen t_int) (TMixed [t_int; t_int]) = Some true /\
  eq_complex 20 fl_assign (TOpen (TOpt t_int)) (TMixed [t_int; TNil]) = Some true /\
  eq_complex 20 fl_assign (TOpen t_int) (TMixed [t_int; t_str]) = Some false /\
  eq_complex 20 fl_assign (TAlias 1%N t_int) t_int = Some true /\
  eq_complex 20 fl_assign (TFn [t_int] (Some t_int)) (TFn [t_int] (Some t_int)) = Some true /\
  eq_complex 20 fl_assign (TFn [TOpt t_int] (Some t_int)) (TFn [t_int] (Some t_int)) = Some false /\
  eq_complex 20 fl_assign (TFn [t_int] (Some (TOpt t_int))) (TFn [t_int] (Some t_int)) = Some true /\
  eq_complex 20 fl_assign t_int t_str = Some false.
Proof. vm_compute. repeat split; reflexivity. Qed.

(* /repo 4ab7445: two list types go straight to the list arms with the caller's flags, so under the signature check
   of a function type's parameters `[int?...]` is not `[int...]` (outside a signature it is) *)
Example list_param_under_signature_check :
  eq_complex 20 fl_assign (TFn [TOpen (TOpt t_int)] (Some t_int)) (TFn [TOpen t_int] (Some t_int)) = Some false /\
  eq_complex 20 fl_assign (TFn [TMixed [TOpt t_int; t_int]] (Some t_int)) (TFn [TMixed [t_int; t_int]] (Some t_int)) = Some false /\
  eq_complex 20 fl_assign (TFn [TOpen t_int] (Some t_int)) (TFn [TOpen t_int] (Some t_int)) = Some true /\
  eq_complex 20 fl_assign (TOpen (TOpt t_int)) (TOpen t_int) = Some true.
Proof. vm_compute. repeat split; reflexivity. Qed.

Lemma size_strip_le : forall t, size (strip t) <= size t.
Proof. induction t; cbn [strip size]; try lia. Qed.

Lemma size_pos : forall t, 1 <= size t.
Proof. destruct t; cbn [size]; lia. Qed.

Lemma size_in : forall x l, In x l -> size x <= fold_right (fun y acc => size y + acc) 0 l.
Proof.
  induction l as [|y l IH]; cbn [In fold_right]; intros H; [contradiction|].
  destruct H as [<-|H]; [lia | specialize (IH H); lia].
Qed.

Lemma oand_some : forall a b, a <> None -> b <> None -> oand a b <> None.
Proof. intros [?|] [?|]; cbn; congruence. Qed.

Lemma all2_some : forall f l1 l2,
  (forall x y, In x l1 -> In y l2 -> f x y <> None) -> all2 f l1 l2 <> None.
Proof.
  induction l1 as [|x l1 IH]; intros [|y l2] H; cbn [all2]; try discriminate.
  apply oand_some; [apply H; left; reflexivity | apply IH; intros; apply H; right; assumption].
Qed.

Lemma all1_some : forall f l, (forall x, In x l -> f x <> None) -> all1 f l <> None.
Proof.
  induction l as [|x l IH]; intros H; cbn [all1]; try discriminate.
  apply oand_some; [apply H; left; reflexivity | apply IH; intros; apply H; right; assumption].
Qed.

(* what decreases: eq_complex asks `==` about the same pair, stripped (the + 1 pays for that call); `==` asks
   eq_complex about proper subterms (doubling the sizes leaves room for the + 1) *)
Definition weight (md : option flags) (t u : ty) : nat :=
  match md with
  | None => 2 * (size t + size u)
  | Some _ => 2 * (size (strip t) + size (strip u)) + 1
  end.

Lemma list_arms_some : forall fixed eqc l r,
  (forall a b, size a + size b < size l + size r -> eqc a b <> None) -> list_arms fixed eqc l r <> None.
Proof.
  intros fixed eqc l r H. destruct l; try discriminate; destruct r; try discriminate; cbn [list_arms].
  - apply H. cbn [size]. lia.
  - apply all1_some. intros x Hx. apply H. apply size_in in Hx. cbn [size]. lia.
  - apply all1_some. intros x Hx. apply H. apply size_in in Hx. cbn [size]. lia.
  - apply oand_some; [discriminate|]. apply all2_some. intros x y Hx Hy. apply H.
    apply size_in in Hx, Hy. cbn [size]. lia.
Qed.

Lemma opt_tail_some : forall f eqc l r,
  (forall a b, size a + size b < size l + size r -> eqc a b <> None) -> opt_tail f eqc l r <> None.
Proof.
  intros f eqc l r H. unfold opt_tail. do 2 (destruct (_ && _); [discriminate|]).
  destruct (get_opt l) as [x|] eqn:Gl; [apply get_opt_some in Gl as -> |];
    (destruct (get_opt r) as [y|] eqn:Gr; [apply get_opt_some in Gr as -> |]).
  - apply H. cbn [size]. lia.
  - destruct (negb (sig_check f)); [apply H; cbn [size]; lia | discriminate].
  - destruct (lhs_unwrap f); [apply H; cbn [size]; lia | discriminate].
  - discriminate.
Qed.

Lemma cmp_fuel_weight : forall fixed n md t u, weight md t u < n -> cmp fixed n md t u <> None.
Proof.
  intros fixed. induction n as [|n IH]; intros md t u W; [lia|].
  assert (Sub : forall g a b, 2 * (size a + size b) + 1 < n -> cmp fixed n (Some g) a b <> None).
  { intros g a b Hab. apply IH. cbn [weight]. pose proof (size_strip_le a). pose proof (size_strip_le b). lia. }
  destruct md as [f|]; cbn [weight] in W.
  - (* eq_complex *)
    pose proof (size_strip_le (strip t)). pose proof (size_strip_le (strip u)). rewrite cmp_unfold.
    destruct (is_list_ty (strip t) && is_list_ty (strip u)); [apply list_arms_some; intros; apply Sub; lia|].
    assert (T : cmp fixed n None (strip t) (strip u) <> None) by (apply IH; cbn [weight]; lia).
    destruct (cmp fixed n None (strip t) (strip u)) as [[|]|];
      [discriminate | apply opt_tail_some; intros; apply Sub; lia | congruence].
  - (* == *)
    destruct (is_list_ty t && is_list_ty u) eqn:LL;
      [rewrite cmp_eq_unfold by exact LL; apply list_arms_some; intros; apply Sub; lia|].
    assert (SubT : forall a b, size a + size b < size t + size u -> cmp fixed n None a b <> None)
      by (intros a b Hab; apply IH; cbn [weight]; lia).
    cbn [cmp].
    destruct t as [k1 l1| |a|a|t1|k1 v1|p1 r1|n1 a|n1]; destruct u as [k2 l2| |b|b|t2|k2 v2|p2 r2|n2 b|n2];
      try discriminate.
    + (* T? *) apply SubT. cbn [size]. lia.
    + (* map *) apply oand_some; apply SubT; cbn [size]; lia.
    + (* fn *)
      destruct (negb (Nat.eqb (length p1) (length p2))); [discriminate|].
      apply oand_some.
      * destruct r1 as [x|], r2 as [y|]; try discriminate. apply Sub. cbn [size] in W. lia.
      * apply all2_some. intros x y Hx Hy. apply Sub. apply size_in in Hx, Hy. cbn [size] in W. lia.
    + (* alias *) apply oand_some; [discriminate|]. apply SubT. cbn [size]. lia.
Qed.

Theorem cmp_fuel : forall fixed n md t u,
  2 * (size t + size u) + 2 <= n -> cmp fixed n md t u <> None.
Proof.
  intros fixed n md t u H. apply cmp_fuel_weight.
  pose proof (size_strip_le t). pose proof (size_strip_le u). destruct md; cbn [weight]; lia.
Qed.
