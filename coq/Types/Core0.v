(* Core-0: the operator tables lifted to whole programs over the six native kinds.

   A small checker (`check`) in the shape of the compiler's -- expression types come from `out_type` / `out_un`,
   an initializer or re-binding must have the variable's kind (eq_complex on native kinds is kind equality),
   `x op= e` goes through the op-assign cell, conditions must be bool, a block's own declarations stay local --
   and a KIND-LEVEL execution (`exec`): values are abstracted to their kinds, the run-time tables `rt_kind` /
   `rt_un` decide the kind of every intermediate result or the type error, an undefined variable and a
   non-bool condition are type errors, branch decisions come from an arbitrary oracle (so the statement holds
   for every run), loops consume fuel.

   Theorem `core0_sound`: a checked program, started in a store that agrees with the static environment, never
   reaches a type error and leaves a store that still agrees.  This is layer (c) of C02 for the fragment {native kinds; literals,
   variables, all 25 binary and 2 prefix operators; declaration, re-binding, op-assign, if/else, while, print}.
   Everything else (lists, maps, optionals, functions, classes) is covered by search only. *)
From Coq Require Import List Bool Arith.
From MS Require Import Types.OpTable.
Import ListNotations.

Inductive expr :=
  | ELit (k : kind)
  | EVar (x : nat)
  | EBin (o : op) (a b : expr)        (* o not an op-assign *)
  | EUn (o : unop) (a : expr).

Inductive stmt :=
  | SDecl (x : nat) (ann : option kind) (e : expr)       (* `x: K = e` / `x = e` (new variable or re-binding) *)
  | SOpAssign (o : op) (x : nat) (e : expr)              (* `x op= e` *)
  | SIf (c : expr) (th el : list stmt)
  | SWhile (c : expr) (body : list stmt)
  | SPrint (e : expr).

Definition env := nat -> option kind.
Definition upd (g : env) (x : nat) (k : kind) : env := fun y => if Nat.eqb y x then Some k else g y.

Fixpoint ty (g : env) (e : expr) : option kind :=
  match e with
  | ELit k => Some k
  | EVar x => g x                                     (* "use of undeclared variable" *)
  | EBin o a b =>
      if is_assign o then None
      else match ty g a, ty g b with
           | Some k1, Some k2 => out_type o k1 k2
           | _, _ => None
           end
  | EUn o a => match ty g a with Some k => out_un o k | None => None end
  end.

Definition kind_opt_eqb (a : option kind) (k : kind) : bool :=
  match a with Some k' => kind_eqb k' k | None => true end.

Fixpoint check (g : env) (s : stmt) {struct s} : option env :=
  let check_list :=
    fix check_list (g : env) (ss : list stmt) {struct ss} : option env :=
      match ss with
      | [] => Some g
      | s :: ss' => match check g s with Some g' => check_list g' ss' | None => None end
      end in
  match s with
  | SDecl x ann e =>
      match ty g e with
      | Some k =>
          if kind_opt_eqb ann k && kind_opt_eqb (g x) k then Some (upd g x k) else None
      | None => None
      end
  | SOpAssign o x e =>
      if is_assign o then
        match g x, ty g e with
        | Some k1, Some k2 => match out_type o k1 k2 with Some _ => Some g | None => None end
        | _, _ => None
        end
      else None
  | SIf c th el =>
      match ty g c with
      | Some KBool =>
          match check_list g th, check_list g el with
          | Some _, Some _ => Some g                  (* what a block declares stays in the block *)
          | _, _ => None
          end
      | _ => None
      end
  | SWhile c body =>
      match ty g c with
      | Some KBool => match check_list g body with Some _ => Some g | None => None end
      | _ => None
      end
  | SPrint e => match ty g e with Some _ => Some g | None => None end
  end.

Fixpoint check_list (g : env) (ss : list stmt) : option env :=
  match ss with
  | [] => Some g
  | s :: ss' => match check g s with Some g' => check_list g' ss' | None => None end
  end.

Fixpoint ev (r : env) (e : expr) : rt :=
  match e with
  | ELit k => ROk k
  | EVar x => match r x with Some k => ROk k | None => RErr end     (* load before store / not in scope *)
  | EBin o a b =>
      match ev r a, ev r b with
      | ROk k1, ROk k2 => rt_kind o k1 k2
      | ROk _, bad => bad
      | bad, _ => bad
      end
  | EUn o a => match ev r a with ROk k => rt_un o k | bad => bad end
  end.

Inductive outcome :=
  | Done (r : env) (oracle : list bool)
  | TypeError
  | OutOfFuel
  | OracleExhausted.

Fixpoint exec (fuel : nat) (oracle : list bool) (r : env) (s : stmt) {struct fuel} : outcome :=
  match fuel with
  | O => OutOfFuel
  | S n =>
    let exec_list :=
      fix exec_list (oracle : list bool) (r : env) (ss : list stmt) {struct ss} : outcome :=
        match ss with
        | [] => Done r oracle
        | s :: ss' => match exec n oracle r s with Done r' o' => exec_list o' r' ss' | bad => bad end
        end in
    match s with
    | SDecl x _ e => match ev r e with ROk k => Done (upd r x k) oracle | _ => TypeError end
    | SOpAssign o x e =>
        match r x, ev r e with
        | Some k1, ROk k2 => match rt_kind o k1 k2 with ROk k => Done (upd r x k) oracle | _ => TypeError end
        | _, _ => TypeError
        end
    | SIf c th el =>
        match ev r c with
        | ROk KBool =>
            match oracle with
            | [] => OracleExhausted
            | b :: o' => exec_list o' r (if b then th else el)
            end
        | _ => TypeError                        (* "if statement can only test booleans" *)
        end
    | SWhile c body =>
        match ev r c with
        | ROk KBool =>
            match oracle with
            | [] => OracleExhausted
            | false :: o' => Done r o'
            | true :: o' =>
                match exec_list o' r body with
                | Done r' o'' => exec n o'' r' (SWhile c body)
                | bad => bad
                end
            end
        | _ => TypeError                        (* "while statement can only test booleans" *)
        end
    | SPrint e => match ev r e with ROk _ => Done r oracle | _ => TypeError end
    end
  end.

Fixpoint exec_list (fuel : nat) (oracle : list bool) (r : env) (ss : list stmt) : outcome :=
  match ss with
  | [] => Done r oracle
  | s :: ss' => match exec fuel oracle r s with Done r' o' => exec_list fuel o' r' ss' | bad => bad end
  end.

Definition agrees (g r : env) : Prop := forall x k, g x = Some k -> r x = Some k.

Lemma agrees_upd : forall g r x k, agrees g r -> agrees (upd g x k) (upd r x k).
Proof. intros g r x k A y k'. unfold upd. destruct (Nat.eqb y x); auto. Qed.

Lemma agrees_upd_same : forall g r x k, agrees g r -> kind_opt_eqb (g x) k = true -> agrees g (upd r x k).
Proof.
  intros g r x k A H y k' Hy. unfold upd. destruct (Nat.eqb y x) eqn:E; [|auto].
  apply Nat.eqb_eq in E. subst y. rewrite Hy in H. cbn in H. apply kind_eqb_eq in H. congruence.
Qed.

Theorem expr_sound : forall g r e t, agrees g r -> ty g e = Some t -> ev r e = ROk t.
Proof.
  intros g r e. induction e as [k|x|o a IHa b IHb|o a IHa]; intros t A H; cbn in *.
  - congruence.
  - rewrite (A x t H). reflexivity.
  - destruct (is_assign o); [discriminate|].
    destruct (ty g a) as [k1|]; [|discriminate]. destruct (ty g b) as [k2|]; [|discriminate].
    rewrite (IHa k1 A eq_refl), (IHb k2 A eq_refl). apply op_table_sound. exact H.
  - destruct (ty g a) as [k|]; [|discriminate]. rewrite (IHa k A eq_refl).
    apply (un_table_sound o k t H).
Qed.

Lemma check_list_eq : forall ss g,
  (fix cl (g : env) (ss : list stmt) {struct ss} : option env :=
     match ss with [] => Some g | s :: ss' => match check g s with Some g' => cl g' ss' | None => None end end) g ss
  = check_list g ss.
Proof. induction ss as [|s ss IH]; intro g; cbn; [reflexivity|]. destruct (check g s); [apply IH | reflexivity]. Qed.

Lemma exec_list_eq : forall n ss oracle r,
  (fix el (oracle : list bool) (r : env) (ss : list stmt) {struct ss} : outcome :=
     match ss with
     | [] => Done r oracle
     | s :: ss' => match exec n oracle r s with Done r' o' => el o' r' ss' | bad => bad end
     end) oracle r ss
  = exec_list n oracle r ss.
Proof.
  induction ss as [|s ss IH]; intros oracle r; cbn; [reflexivity|].
  destruct (exec n oracle r s); try reflexivity. apply IH.
Qed.

Definition ext (g g' : env) : Prop := forall x k, g x = Some k -> g' x = Some k.

Lemma ext_refl : forall g, ext g g.
Proof. intros g x k H. exact H. Qed.

Lemma ext_trans : forall a b c, ext a b -> ext b c -> ext a c.
Proof. intros a b c H1 H2 x k H. auto. Qed.

Inductive checked (g : env) : stmt -> env -> Prop :=
  | Ck_decl x ann e k : ty g e = Some k -> kind_opt_eqb ann k = true -> kind_opt_eqb (g x) k = true ->
      checked g (SDecl x ann e) (upd g x k)
  | Ck_op_assign o x e k1 k2 t : is_assign o = true -> g x = Some k1 -> ty g e = Some k2 -> out_type o k1 k2 = Some t ->
      checked g (SOpAssign o x e) g
  | Ck_if c th el g1 g2 : ty g c = Some KBool -> check_list g th = Some g1 -> check_list g el = Some g2 ->
      checked g (SIf c th el) g
  | Ck_while c body g1 : ty g c = Some KBool -> check_list g body = Some g1 -> checked g (SWhile c body) g
  | Ck_print e k : ty g e = Some k -> checked g (SPrint e) g.

Lemma check_inv : forall s g g', check g s = Some g' -> checked g s g'.
Proof.
  intros s g g' C. destruct s as [x ann e|o x e|c th el|c body|e]; cbn [check] in C.
  - destruct (ty g e) as [k|] eqn:T; [|discriminate].
    destruct (kind_opt_eqb ann k && kind_opt_eqb (g x) k) eqn:K; [|discriminate].
    apply andb_prop in K as [K1 K2]. injection C as <-. exact (Ck_decl g x ann e k T K1 K2).
  - destruct (is_assign o) eqn:Ao; [|discriminate].
    destruct (g x) as [k1|] eqn:Gx; [|discriminate]. destruct (ty g e) as [k2|] eqn:T; [|discriminate].
    destruct (out_type o k1 k2) as [t|] eqn:O; [|discriminate]. injection C as <-. exact (Ck_op_assign g o x e k1 k2 t Ao Gx T O).
  - destruct (ty g c) as [[]|] eqn:T; try discriminate. rewrite (check_list_eq th), (check_list_eq el) in C.
    destruct (check_list g th) as [g1|] eqn:C1; [|discriminate]. destruct (check_list g el) as [g2|] eqn:C2; [|discriminate].
    injection C as <-. exact (Ck_if g c th el g1 g2 T C1 C2).
  - destruct (ty g c) as [[]|] eqn:T; try discriminate. rewrite check_list_eq in C.
    destruct (check_list g body) as [g1|] eqn:C1; [|discriminate]. injection C as <-. exact (Ck_while g c body g1 T C1).
  - destruct (ty g e) as [k|] eqn:T; [|discriminate]. injection C as <-. exact (Ck_print g e k T).
Qed.

Lemma ext_check : forall s g g', check g s = Some g' -> ext g g'.
Proof.
  intros s g g' C. destruct (check_inv s g g' C); try apply ext_refl.
  apply agrees_upd_same; [apply ext_refl | assumption].
Qed.

Lemma ext_check_list : forall ss g g', check_list g ss = Some g' -> ext g g'.
Proof.
  induction ss as [|s ss IH]; intros g g' C; cbn in C.
  - inversion C; subst. apply ext_refl.
  - destruct (check g s) as [g1|] eqn:C1; [|discriminate].
    apply (ext_trans g g1 g'); [apply (ext_check s); exact C1 | apply IH; exact C].
Qed.

Lemma agrees_ext : forall g g' r, ext g g' -> agrees g' r -> agrees g r.
Proof. intros g g' r E A x k H. apply A. apply E. exact H. Qed.

Definition good (o : outcome) (g : env) : Prop :=
  match o with
  | TypeError => False
  | Done r' _ => agrees g r'
  | _ => True
  end.

Lemma good_weaken : forall o g g', ext g g' -> good o g' -> good o g.
Proof. intros [r o'| | |] g g' E G; cbn in *; auto. apply (agrees_ext g g'); assumption. Qed.

Definition P_stmt (fuel : nat) : Prop := forall s g g' r oracle,
  check g s = Some g' -> agrees g r -> good (exec fuel oracle r s) g'.
Definition P_list (fuel : nat) : Prop := forall ss g g' r oracle,
  check_list g ss = Some g' -> agrees g r -> good (exec_list fuel oracle r ss) g'.

Lemma list_from_stmt : forall fuel, P_stmt fuel -> P_list fuel.
Proof.
  intros fuel PS ss. induction ss as [|s ss IH]; intros g g' r oracle C A; cbn in C |- *.
  - inversion C; subst. exact A.
  - destruct (check g s) as [g1|] eqn:C1; [|discriminate].
    pose proof (PS s g g1 r oracle C1 A) as G.
    destruct (exec fuel oracle r s) as [r1 o1| | |]; cbn in G |- *; auto.
    apply (IH g1 g' r1 o1 C G).
Qed.

Lemma sound_stmt : forall fuel, P_stmt fuel.
Proof.
  induction fuel as [|n IH]; [intros s g g' r oracle C A; exact I|].
  pose proof (list_from_stmt n IH) as IHl.
  intros s g g' r oracle C A.
  destruct (check_inv s g g' C) as [x ann e k T _ _ | o x e k1 k2 t Ao Gx T O | c th el g1 g2 T C1 C2 | c body g1 T C1 | e k T];
    cbn [exec]; rewrite ?exec_list_eq, (expr_sound g r _ _ A T).
  - (* declaration / re-binding *)
    apply agrees_upd. exact A.
  - (* x op= e *)
    rewrite (A x k1 Gx). fold (rt_kind o k1 k2). rewrite (op_table_sound o k1 k2 t O).
    apply agrees_upd_same; [exact A|]. rewrite Gx. apply kind_eqb_eq.
    symmetry. apply (op_assign_keeps_kind o k1 k2 t Ao O).
  - (* if / else *)
    destruct oracle as [|b o']; [exact I|]. destruct b; rewrite exec_list_eq.
    + apply (good_weaken _ g g1); [apply (ext_check_list th); exact C1 | apply (IHl th g g1 r o' C1 A)].
    + apply (good_weaken _ g g2); [apply (ext_check_list el); exact C2 | apply (IHl el g g2 r o' C2 A)].
  - (* while: one turn of the body, then the same statement again *)
    destruct oracle as [|b o']; [exact I|]. destruct b; [|exact A]. rewrite exec_list_eq.
    pose proof (IHl body g g1 r o' C1 A) as G.
    destruct (exec_list n o' r body) as [r1 o1| | |]; cbn in G |- *; auto.
    apply (IH (SWhile c body) g g r1 o1 C).
    apply (agrees_ext g g1); [apply (ext_check_list body); exact C1 | exact G].
  - (* print *)
    exact A.
Qed.

(* C02 for the fragment: every checked program, every oracle, every fuel: no type error, and the final store still agrees *)
Theorem core0_sound : forall fuel ss g g' r oracle,
  check_list g ss = Some g' -> agrees g r ->
  exec_list fuel oracle r ss <> TypeError /\
  (forall r' o', exec_list fuel oracle r ss = Done r' o' -> agrees g' r').
Proof.
  intros fuel ss g g' r oracle C A.
  pose proof (list_from_stmt fuel (sound_stmt fuel) ss g g' r oracle C A) as G.
  split.
  - intro E. rewrite E in G. exact G.
  - intros r' o' E. rewrite E in G. exact G.
Qed.

(* non-vacuity: a program with nested control flow is accepted and runs to completion; an unchecked one reaches a type error *)
Definition empty_env : env := fun _ => None.

Example core0_accepts :
  let p := [ SDecl 0 (Some KInt) (ELit KInt);
             SDecl 1 None (EBin Add (EVar 0) (ELit KFloat));
             SWhile (EBin Lt (EVar 0) (ELit KByte))
               [ SOpAssign AddA 0 (ELit KByte);
                 SIf (EBin Eq (EVar 1) (ELit KBigInt)) [ SDecl 2 None (ELit KStr); SPrint (EBin Add (EVar 2) (EVar 0)) ] [ SOpAssign MulA 1 (EVar 0) ] ];
             SPrint (EUn Neg (EVar 1)) ] in
  (exists g', check_list empty_env p = Some g' /\ g' 1 = Some KFloat) /\
  (exists r' o', exec_list 20 [true; false; true; true; false] empty_env p = Done r' o').
Proof. cbn. split; eexists; [split; reflexivity | eexists; vm_compute; reflexivity]. Qed.

Example core0_model_has_type_errors :
  check_list empty_env [SDecl 0 None (EBin Add (ELit KBool) (ELit KByte))] = None /\
  exec_list 5 [] empty_env [SDecl 0 None (EBin Add (ELit KBool) (ELit KByte))] = TypeError /\
  check_list empty_env [SDecl 0 (Some KInt) (ELit KInt); SOpAssign AddA 0 (ELit KFloat)] = None /\
  check_list empty_env [SIf (ELit KInt) [] []] = None /\
  exec_list 5 [true] empty_env [SIf (ELit KInt) [] []] = TypeError /\
  exec_list 5 [] empty_env [SPrint (EVar 3)] = TypeError.
Proof. vm_compute. repeat split; reflexivity. Qed.
