(* Operator tables of mscript at the level of value KINDS.

   static side : compiler/src/ast/type.rs  `TypeLayout::get_output_type` (native part, after the
                 generic / optional / alias preludes) + `supports_negate` / `is_boolean` for the two
                 prefix operators (math_expr.rs map_prefix);
   run-time side: bytecode/src/instruction.rs `bin_op` / `bin_op_assign` / `equ` / `neq` / `neg` / `not`
                 dispatching to bytecode/src/variables/ops.rs (`apply_math_bin_op_if_applicable`,
                 `apply_bool_bin_op_if_applicable`), ops/{add,sub,mul,div,rem,bitops,ord}.rs and
                 primitive.rs `equals` / `runtime_addr_check` / `negate`.

   Both tables exist in two versions selected by a boolean:
     fixed = false : the tables before the fix (F4 of DESIGN section 7 and friends);
     fixed = true  : the tables after /verif/fixes/c02-optable.diff.
   `out_type` / `rt_kind` (no suffix) are the FIXED tables; these are what the correspondence check
   compares the binary against.  The `_orig` lemmas document exactly which cells were unsound.

   The run-time table gives the kind of the result when none of the language's own dynamic failures
   (zero divisor, overflow, failed conversion of a repeat count / shift amount) occurs; those depend on
   the VALUES and are the subject of C05.  `RErr` is an `anyhow` error ("<A + B> is invalid", "cannot
   compare", "unknown operation", "cannot negate"), `RPanic` a Rust panic (none is left in the tables): both are
   run-time TYPE errors in the sense of property C02. *)
From Coq Require Import List Bool.
Import ListNotations.

Inductive kind := KInt | KBigInt | KFloat | KByte | KBool | KStr.

(* math_expr.rs `enum Op` without `Unwrap` (`?=`, which is about optionals, not kinds) *)
Inductive op :=
  | Add | Sub | Mul | Div | Mod
  | Lt | Gt | Lte | Gte | Eq | Neq
  | And | Or | Xor                     (* && || ^   (logical) *)
  | BXor | BOr | BAnd | Ls | Rs        (* xor | & << >> (bitwise) *)
  | AddA | SubA | MulA | DivA | ModA   (* += -= *= /= %= *)
  | Is.

Inductive unop := Neg | Not.

Definition all_kinds := [KInt; KBigInt; KFloat; KByte; KBool; KStr].
Definition all_ops := [Add; Sub; Mul; Div; Mod; Lt; Gt; Lte; Gte; Eq; Neq; And; Or; Xor;
                       BXor; BOr; BAnd; Ls; Rs; AddA; SubA; MulA; DivA; ModA; Is].
Definition all_unops := [Neg; Not].

Definition kind_eqb (a b : kind) : bool :=
  match a, b with
  | KInt, KInt | KBigInt, KBigInt | KFloat, KFloat | KByte, KByte | KBool, KBool | KStr, KStr => true
  | _, _ => false
  end.

Lemma kind_eqb_eq : forall a b, kind_eqb a b = true <-> a = b.
Proof. destruct a, b; cbn; split; intro H; try reflexivity; try discriminate. Qed.

Lemma kind_eqb_refl : forall k, kind_eqb k k = true.
Proof. destruct k; reflexivity. Qed.

Lemma all_kinds_complete : forall k, In k all_kinds.
Proof. destruct k; cbn; repeat ((left; reflexivity) || right). Qed.
Lemma all_ops_complete : forall o, In o all_ops.
Proof. destruct o; cbn; repeat ((left; reflexivity) || right). Qed.
Lemma all_unops_complete : forall o, In o all_unops.
Proof. destruct o; cbn; repeat ((left; reflexivity) || right). Qed.

Definition is_assign (o : op) : bool :=
  match o with AddA | SubA | MulA | DivA | ModA => true | _ => false end.

Definition base_of (o : op) : op :=
  match o with AddA => Add | SubA => Sub | MulA => Mul | DivA => Div | ModA => Mod | o => o end.

Definition is_num (k : kind) : bool :=
  match k with KInt | KBigInt | KFloat | KByte => true | _ => false end.

(* the `let matched = match (me, other, op) { ... }` of get_output_type, arm by arm, same order *)
Definition matched (fixed : bool) (o : op) (me other : kind) : option kind :=
  match o with
  | And | Or | Xor =>
      match me, other with KBool, KBool => Some KBool | _, _ => None end
  | Lt | Gt | Lte | Gte | Eq | Neq =>
      match me, other, o with
      | KStr, KStr, (Eq | Neq) => Some KBool                      (* first arm of the Rust match *)
      | _, _, _ => if is_num me && is_num other then Some KBool else None
      end
  | BXor | BAnd | BOr | Ls | Rs =>
      match me, other with
      | KInt, KInt | KInt, KByte => Some KInt
      | KInt, KBigInt => Some (if fixed then KBigInt else KInt)    (* F4: typed int, yields bigint *)
      | KBigInt, (KBigInt | KInt | KByte) => Some KBigInt
      | KByte, KByte => Some (if fixed then KByte else KInt)       (* F4: typed int, yields byte *)
      | KByte, KInt => Some KInt
      | KByte, KBigInt => Some (if fixed then KBigInt else KInt)   (* F4: typed int, yields bigint *)
      | _, _ => None
      end
  | Add | Sub | Mul | Div | Mod =>
      match me, other with
      | KInt, KInt => Some KInt
      | KInt, KBigInt => Some KBigInt
      | KInt, KFloat => Some KFloat
      | KFloat, (KFloat | KInt | KBigInt) => Some KFloat
      | KBigInt, (KBigInt | KInt) => Some KBigInt
      | KBigInt, KFloat => Some KFloat
      | _, _ =>
          (* `(x, Byte, ..) | (Byte, x, ..) => *x` : F4 -- x unrestricted before the fix *)
          let byte_arm :=
            match me, other with
            | x, KByte => if fixed then (if is_num x then Some x else None) else Some x
            | KByte, x => if fixed then (if is_num x then Some x else None) else Some x
            | _, _ => None
            end in
          match byte_arm with
          | Some k => Some k
          | None =>
              match me, other, o with
              | KStr, _, Add => Some KStr
              | _, KStr, Add => Some KStr
              | KStr, (KInt | KBigInt), Mul => Some KStr
              | (KInt | KBigInt), KStr, Mul => Some KStr
              | _, _, _ => None
              end
          end
      end
  | AddA | SubA | MulA | DivA | ModA | Is => None     (* never reach the table: handled before it *)
  end.

(* get_output_type for two native operands (no generic / optional / alias involved) *)
Definition out_type_gen (fixed : bool) (o : op) (k1 k2 : kind) : option kind :=
  match o with
  | Is => Some KBool
  | AddA | SubA | MulA | DivA | ModA =>
      match matched fixed (base_of o) k1 k2 with
      | Some t =>
          (* fix: the variable keeps its declared type, so the result must be storable in it.
             before: no such check (`a: int = 1; a += 2.5` leaves a float in an `int`) *)
          if fixed then (if kind_eqb t k1 then Some t else None) else Some t
      | None => None
      end
  | Eq | Neq =>
      (* `matches!(op, Eq | Neq) && lhs == other && lhs.supports_equ()` comes first *)
      if kind_eqb k1 k2 then Some KBool else matched fixed o k1 k2
  | _ => matched fixed o k1 k2
  end.

Definition out_type := out_type_gen true.
Definition out_type_orig := out_type_gen false.

(* prefix operators: the result type is the operand type (`Expr::UnaryMinus | UnaryNot => val.for_type`) *)
Definition out_un_gen (fixed : bool) (o : unop) (k : kind) : option kind :=
  match o with
  | Neg => (* supports_negate: before the fix every native but str / byte, so `-true` compiled *)
      match k with
      | KInt | KBigInt | KFloat => Some k
      | KBool => if fixed then None else Some KBool
      | _ => None
      end
  | Not => match k with KBool => Some KBool | _ => None end
  end.
Definition out_un := out_un_gen true.
Definition out_un_orig := out_un_gen false.

Inductive rt := ROk (k : kind) | RErr | RPanic.

(* apply_math_bin_op_if_applicable!(@no_f64 ..) *)
Definition math_no_f64 (a b : kind) : option kind :=
  match a, b with
  | KInt, KInt => Some KInt
  | KInt, KBigInt => Some KBigInt
  | KInt, KByte => Some KInt
  | KBigInt, KBigInt => Some KBigInt
  | KBigInt, KInt => Some KBigInt
  | KBigInt, KByte => Some KBigInt
  | KByte, KByte => Some KByte
  | KByte, KInt => Some KInt
  | KByte, KBigInt => Some KBigInt
  | _, _ => None
  end.

(* apply_math_bin_op_if_applicable!(..) *)
Definition math (a b : kind) : option kind :=
  match math_no_f64 a b with
  | Some k => Some k
  | None =>
      match a, b with
      | KInt, KFloat | KFloat, KFloat | KFloat, KInt | KFloat, KBigInt | KFloat, KByte
      | KBigInt, KFloat | KByte, KFloat => Some KFloat
      | _, _ => None
      end
  end.

Definition of_opt (x : option kind) : rt := match x with Some k => ROk k | None => RErr end.

(* Primitive::equals on two of the six kinds *)
Definition rt_equals (a b : kind) : rt :=
  if is_num a && is_num b then ROk KBool
  else match a, b with
       | KStr, KStr | KBool, KBool => ROk KBool
       | _, _ => RErr                                   (* "cannot compare A with B" *)
       end.

Definition rt_base (fixed : bool) (o : op) (a b : kind) : rt :=
  match o with
  | Add =>
      match math a b with
      | Some k => ROk k
      | None => match a, b with
                | KStr, _ | _, KStr => ROk KStr          (* str + any, any + str *)
                | _, _ => RErr
                end
      end
  | Sub | Div | Mod => of_opt (math a b)
  | Mul =>
      match math a b with
      | Some k => ROk k
      | None => match a, b with
                | KStr, (KInt | KBigInt) | (KInt | KBigInt), KStr => ROk KStr
                | _, _ => RErr
                end
      end
  | Lt | Gt | Lte | Gte =>
      (* bin_op guards the four ordering operators: "<A > B> is invalid" unless both operands are numbers (fix
         "nil-ordering-comparison"; before it the operands reached apply_bool_bin_op_if_applicable, whose
         `_ => panic!("boolean comparison on a non-boolean")` was an `RPanic` here) *)
      if is_num a && is_num b then ROk KBool else RErr
  | Eq | Neq => rt_equals a b
  | And | Or | Xor => match a, b with KBool, KBool => ROk KBool | _, _ => RErr end
  | BXor | BOr | BAnd | Ls | Rs => of_opt (math_no_f64 a b)
  | Is => (* runtime_addr_check falls back to `equals`; the fix answers `false` for incomparable kinds *)
      if fixed then ROk KBool else rt_equals a b
  | AddA | SubA | MulA | DivA | ModA => RErr             (* not a base operator *)
  end.

(* bin_op_assign applies the base operator to the primitives *)
Definition rt_kind_gen (fixed : bool) (o : op) (a b : kind) : rt := rt_base fixed (base_of o) a b.
Definition rt_kind := rt_kind_gen true.
Definition rt_kind_orig := rt_kind_gen false.

Definition rt_un (o : unop) (k : kind) : rt :=
  match o with
  | Neg => match k with KInt | KBigInt | KFloat => ROk k | _ => RErr end   (* "cannot negate" *)
  | Not => match k with KBool => ROk KBool | _ => RErr end                 (* "not can only negate booleans" *)
  end.

Definition cell_sound (fixed : bool) (o : op) (a b : kind) : bool :=
  match out_type_gen fixed o a b with
  | None => true
  | Some t =>
      match rt_kind_gen fixed o a b with
      | ROk k => kind_eqb k t && (if is_assign o then kind_eqb t a else true)
      | _ => false
      end
  end.

Definition cells : list (op * kind * kind) :=
  flat_map (fun o => flat_map (fun a => map (fun b => (o, a, b)) all_kinds) all_kinds) all_ops.

Lemma cells_complete : forall o a b, In (o, a, b) cells.
Proof.
  intros o a b. unfold cells.
  apply in_flat_map. exists o. split; [apply all_ops_complete|].
  apply in_flat_map. exists a. split; [apply all_kinds_complete|].
  apply in_map. apply all_kinds_complete.
Qed.

Lemma all_cells_sound : forallb (fun c => match c with (o, a, b) => cell_sound true o a b end) cells = true.
Proof. vm_compute. reflexivity. Qed.

Lemma cell_sound_all : forall o a b, cell_sound true o a b = true.
Proof. intros o a b. exact (proj1 (forallb_forall _ _) all_cells_sound (o, a, b) (cells_complete o a b)). Qed.

Lemma cell_sound_spec : forall o a b t,
  out_type o a b = Some t -> rt_kind o a b = ROk t /\ (is_assign o = true -> t = a).
Proof.
  intros o a b t H. pose proof (cell_sound_all o a b) as S.
  unfold cell_sound in S. unfold out_type in H. rewrite H in S.
  unfold rt_kind. destruct (rt_kind_gen true o a b) as [k| |]; try discriminate.
  apply andb_prop in S as [S1 S2]. apply kind_eqb_eq in S1 as ->. split; [reflexivity|].
  intros A. rewrite A in S2. apply kind_eqb_eq. exact S2.
Qed.

(* C02, the table theorem: whatever the static table accepts, the run-time table computes, with that kind.
   The domain (25 operators x 6 x 6 kinds = 900 cells) is finite and is covered completely (all_cells_sound). *)
Theorem op_table_sound : forall o k1 k2 t,
  out_type o k1 k2 = Some t -> rt_kind o k1 k2 = ROk t.
Proof. intros o k1 k2 t H. exact (proj1 (cell_sound_spec _ _ _ _ H)). Qed.

Theorem op_assign_keeps_kind : forall o k1 k2 t,
  is_assign o = true -> out_type o k1 k2 = Some t -> t = k1.
Proof. intros o k1 k2 t A H. exact (proj2 (cell_sound_spec _ _ _ _ H) A). Qed.

Theorem un_table_sound : forall o k t, out_un o k = Some t -> rt_un o k = ROk t /\ t = k.
Proof. intros o k t. destruct o, k; cbn; intro H; inversion H; subst; split; reflexivity. Qed.

Definition bad_cells_orig : list (op * kind * kind) :=
  filter (fun c => match c with (o, a, b) => negb (cell_sound false o a b) end) cells.

Lemma bad_cells_orig_count : length bad_cells_orig = 106%nat.
Proof. vm_compute. reflexivity. Qed.

(* `true + 0b1` compiles (typed bool) and the run-time table has no such cell *)
Lemma op_table_orig_refuted_bool_byte :
  out_type_orig Add KBool KByte = Some KBool /\ rt_kind_orig Add KBool KByte = RErr.
Proof. split; reflexivity. Qed.
(* `byte & byte` is typed int and yields a byte; `int & bigint` is typed int and yields a bigint *)
Lemma op_table_orig_refuted_bitwise :
  out_type_orig BAnd KByte KByte = Some KInt /\ rt_kind_orig BAnd KByte KByte = ROk KByte /\
  out_type_orig BAnd KInt KBigInt = Some KInt /\ rt_kind_orig BAnd KInt KBigInt = ROk KBigInt.
Proof. repeat split; reflexivity. Qed.
(* `a: int = 1; a += 2.5` is accepted and leaves a float in `a` *)
Lemma op_table_orig_refuted_assign :
  out_type_orig AddA KInt KFloat = Some KFloat /\ rt_kind_orig AddA KInt KFloat = ROk KFloat.
Proof. split; reflexivity. Qed.
(* `1 is "x"` is typed bool and dies with "cannot compare Int with Str" *)
Lemma op_table_orig_refuted_is :
  out_type_orig Is KInt KStr = Some KBool /\ rt_kind_orig Is KInt KStr = RErr.
Proof. split; reflexivity. Qed.
(* `-true` compiles and dies with "cannot negate true" *)
Lemma un_table_orig_refuted : out_un_orig Neg KBool = Some KBool /\ rt_un Neg KBool = RErr.
Proof. split; reflexivity. Qed.

Lemma fix_is_conservative : forall o a b,
  cell_sound false o a b = true -> is_assign o = false -> o <> Is ->
  out_type o a b = out_type_orig o a b.
Proof.
  intros o a b S A N. destruct o; try discriminate A; try (exfalso; exact (N eq_refl)).
  all: destruct a, b; try reflexivity; discriminate S.
Qed.
