(* Real-number meaning of the two float primitives defined here (+ - * / are Flocq's Bplus etc., with
   Flocq's Bplus_correct etc.):
     F_of_Z  (`x as f64`)   = the integer rounded to nearest, ties to even, always finite for an i128
     F_rem   (`x % y`, fmod) = x - trunc(x / y) * y, exactly (no rounding), for finite x and finite non-zero y *)
From Coq Require Import ZArith Reals Lia Lra.
From Flocq Require Import Core.Core IEEE754.BinarySingleNaN.
From MS Require Import Num.NumDefs.
Open Scope Z_scope.

Lemma bounded_facts : forall m e, SpecFloat.bounded 53 1024 m e = true -> Zpos m < 2 ^ 53 /\ -1074 <= e.
Proof.
  intros m e H. unfold SpecFloat.bounded in H. apply andb_prop in H. destruct H as [H _].
  unfold SpecFloat.canonical_mantissa in H. apply Zeq_bool_eq in H.
  rewrite Zpos_digits2_pos in H. unfold SpecFloat.fexp, SpecFloat.emin in H.
  pose proof (Zdigits_correct radix2 (Zpos m)) as D. cbn [Z.abs] in D.
  assert (Hd : Zdigits radix2 (Zpos m) <= 53) by lia.
  split; [|lia].
  destruct D as [_ D]. eapply Z.lt_le_trans; [exact D|].
  change (2 ^ 53) with (Zpower radix2 53). apply Zpower_le. exact Hd.
Qed.

Lemma Ztrunc_div_pos : forall a b, 0 <= a -> 0 < b -> Ztrunc (IZR a / IZR b) = a / b.
Proof.
  intros a b Ha Hb. rewrite Ztrunc_floor.
  - apply Zfloor_div. lia.
  - apply Rmult_le_pos; [apply IZR_le; lia|]. apply Rlt_le, Rinv_0_lt_compat, IZR_lt. lia.
Qed.

Lemma scale_mantissa : forall (m : Z) ex e, e <= ex ->
  (IZR m * bpow radix2 ex = IZR (m * 2 ^ (ex - e)) * bpow radix2 e)%R.
Proof.
  intros m ex e H. rewrite mult_IZR.
  change (2 ^ (ex - e)) with (Zpower radix2 (ex - e)). rewrite IZR_Zpower by lia.
  replace ex with ((ex - e) + e) at 1 by lia. rewrite bpow_plus. ring.
Qed.

Lemma sgn_mul : forall s (p : Z), IZR (cond_Zopp s p) = ((if s then -1 else 1) * IZR p)%R.
Proof. intros [|] p; cbn [cond_Zopp]; [rewrite opp_IZR|]; ring. Qed.

Lemma Ztrunc_sign : forall (s : bool) r,
  Ztrunc ((if s then -1 else 1) * r) = (if s then -1 else 1) * Ztrunc r.
Proof.
  intros [|] r; [replace (-1 * r)%R with (- r)%R by ring; rewrite Ztrunc_opp | rewrite Rmult_1_l]; ring.
Qed.

Theorem F_rem_correct : forall x y : float,
  is_finite x = true -> is_finite y = true -> B2R y <> 0%R ->
  is_finite (F_rem x y) = true /\
  B2R (F_rem x y) = (B2R x - IZR (Ztrunc (B2R x / B2R y)) * B2R y)%R.
Proof.
  intros x y Fx Fy Hy0.
  destruct x as [sx|sx| |sx mx ex Bx]; try discriminate;
  destruct y as [sy|sy| |sy my ey By]; try discriminate; try (exfalso; apply Hy0; reflexivity).
  - split; [reflexivity|]. cbn [F_rem B2R]. unfold Rdiv. rewrite Rmult_0_l.
    change 0%R with (IZR 0) at 2. rewrite Ztrunc_IZR. simpl. ring.
  - (* Both mantissas are scaled to the smaller exponent e: x = +-X * 2^e and y = +-Y * 2^e with integers X, Y.
       Then x / y = +-(X / Y), and fmod is +-(X rem Y) * 2^e.  It is a double without rounding: X rem Y is
       below Y and at most X, and the one of X, Y whose exponent is e is an unscaled mantissa, below 2^53. *)
    destruct (bounded_facts _ _ Bx) as [Mx Ex]. destruct (bounded_facts _ _ By) as [My Ey].
    cbn [F_rem].
    set (e := Z.min ex ey).
    set (X := Zpos mx * 2 ^ (ex - e)). set (Y := Zpos my * 2 ^ (ey - e)).
    assert (He1 : e <= ex) by (unfold e; lia). assert (He2 : e <= ey) by (unfold e; lia).
    assert (He3 : -1074 <= e) by (unfold e; lia).
    assert (Px : 0 < 2 ^ (ex - e)) by (apply Z.pow_pos_nonneg; lia).
    assert (Py : 0 < 2 ^ (ey - e)) by (apply Z.pow_pos_nonneg; lia).
    assert (HX : 0 < X) by (unfold X; nia). assert (HY : 0 < Y) by (unfold Y; nia).
    set (r := Z.rem X Y).
    assert (Hr : 0 <= r < Y) by (apply Z.rem_bound_pos; lia).
    assert (Hq : X = Y * (X / Y) + r).
    { unfold r. rewrite Z.rem_mod_nonneg by lia. apply Z.div_mod. lia. }
    assert (HrX : r <= X).
    { unfold r. rewrite Z.rem_mod_nonneg by lia. apply Z.mod_le; lia. }
    assert (Hr53 : r < 2 ^ 53).
    { destruct (Z.min_spec ex ey) as [[_ E]|[_ E]]; fold e in E.
      - assert (X = Zpos mx) by (unfold X; rewrite E, Z.sub_diag; cbn; lia). lia.
      - assert (Y = Zpos my) by (unfold Y; rewrite E, Z.sub_diag; cbn; lia). lia. }
    assert (Vx : B2R (B754_finite sx mx ex Bx) = ((if sx then -1 else 1) * IZR X * bpow radix2 e)%R).
    { cbn [B2R]. unfold F2R. cbn [Fnum Fexp]. rewrite sgn_mul, Rmult_assoc, (scale_mantissa (Zpos mx) ex e He1).
      fold X. ring. }
    assert (Vy : B2R (B754_finite sy my ey By) = ((if sy then -1 else 1) * IZR Y * bpow radix2 e)%R).
    { cbn [B2R]. unfold F2R. cbn [Fnum Fexp]. rewrite sgn_mul, Rmult_assoc, (scale_mantissa (Zpos my) ey e He2).
      fold Y. ring. }
    set (m' := if sx then - r else r).
    pose proof (binary_normalize_correct 53 1024 p53 p1024 mode_NE m' e sx) as N. cbv zeta in N.
    fold (F_norm m' e sx) in N.
    set (x' := F2R (Float radix2 m' e)) in *.
    assert (Vx' : x' = ((if sx then -1 else 1) * IZR r * bpow radix2 e)%R).
    { unfold x', F2R, m'. cbn [Fnum Fexp]. destruct sx; [rewrite opp_IZR|]; ring. }
    assert (G : generic_format radix2 (SpecFloat.fexp 53 1024) x').
    { apply generic_format_F2R. intros Hm. unfold cexp. rewrite mag_F2R_Zdigits by exact Hm.
      assert (Zdigits radix2 m' <= 53).
      { apply Zdigits_le_Zpower. change (Zpower radix2 53) with (2 ^ 53). unfold m'. destruct sx; lia. }
      unfold SpecFloat.fexp, SpecFloat.emin. lia. }
    assert (Hv : Valid_exp (SpecFloat.fexp 53 1024)) by (apply fexp_correct; exact p53).
    rewrite (round_generic radix2 _ (round_mode mode_NE) x' G) in N.
    assert (Hlt : (Rabs x' < bpow radix2 1024)%R).
    { eapply Rle_lt_trans; [|apply (abs_B2R_lt_emax 53 1024 (B754_finite sx mx ex Bx))].
      rewrite Vx, Vx'. rewrite !Rabs_mult. rewrite (Rabs_pos_eq (bpow radix2 e)) by apply bpow_ge_0.
      assert (Rabs (if sx then -1 else 1) = 1)%R as -> by (destruct sx; unfold Rabs; destruct (Rcase_abs _); lra).
      rewrite !Rabs_pos_eq by (apply IZR_le; lia).
      apply Rmult_le_compat_r; [apply bpow_ge_0|]. rewrite !Rmult_1_l. apply IZR_le. exact HrX. }
    rewrite (Rlt_bool_true _ _ Hlt) in N. destruct N as (NR & NF & _).
    split; [exact NF|]. rewrite NR, Vx', Vx, Vy.
    assert (Hb : bpow radix2 e <> 0%R) by (apply Rgt_not_eq, bpow_gt_0).
    assert (HYr : IZR Y <> 0%R) by (apply not_0_IZR; lia).
    assert (Q : ((if sx then -1 else 1) * IZR X * bpow radix2 e / ((if sy then -1 else 1) * IZR Y * bpow radix2 e)
                 = (if sx then -1 else 1) * (if sy then -1 else 1) * (IZR X / IZR Y))%R).
    { destruct sx, sy; field; split; assumption. }
    rewrite Q.
    assert (T : Ztrunc ((if sx then -1 else 1) * (if sy then -1 else 1) * (IZR X / IZR Y))
                = (if sx then -1 else 1) * (if sy then -1 else 1) * (X / Y)).
    { rewrite Rmult_assoc, !Ztrunc_sign, Ztrunc_div_pos by lia. ring. }
    rewrite T.
    assert (HqR : IZR X = (IZR Y * IZR (X / Y) + IZR r)%R) by (rewrite <- mult_IZR, <- plus_IZR; f_equal; exact Hq).
    destruct sx, sy; rewrite !mult_IZR; simpl IZR; rewrite HqR; ring.
Qed.

(* `z as f64`: Flocq's binary_normalize_correct at exponent 0 *)
Lemma normalize_Z : forall (Hp : FLX.Prec_gt_0 53) (Hm : Prec_lt_emax 53 1024) z,
  let r := binary_normalize 53 1024 Hp Hm mode_NE z 0 false in
  let x := round radix2 (SpecFloat.fexp 53 1024) ZnearestE (IZR z) in
  if Rlt_bool (Rabs x) (bpow radix2 1024) then B2R r = x /\ is_finite r = true
  else B2SF r = binary_overflow 53 1024 mode_NE (Rlt_bool (IZR z) 0).
Proof.
  intros Hp Hm z. pose proof (binary_normalize_correct 53 1024 Hp Hm mode_NE z 0 false) as H. cbv zeta in H |- *.
  replace (F2R (Float radix2 z 0)) with (IZR z) in H by (unfold F2R; simpl; lra).
  destruct (Rlt_bool _ _); [destruct H as (A & B & _); split; assumption | exact H].
Qed.

Lemma normalize_Z_correct : forall Hp Hm z, Z.abs z <= 2 ^ 127 ->
  is_finite (binary_normalize 53 1024 Hp Hm mode_NE z 0 false) = true /\
  B2R (binary_normalize 53 1024 Hp Hm mode_NE z 0 false)
  = round radix2 (SpecFloat.fexp 53 1024) ZnearestE (IZR z).
Proof.
  intros Hp Hm z Hz. pose proof (normalize_Z Hp Hm z) as H. cbv zeta in H.
  rewrite Rlt_bool_true in H; [tauto|].
  apply Rle_lt_trans with (bpow radix2 127); [|apply bpow_lt; lia].
  apply abs_round_le_generic.
  - apply (fexp_correct 53 1024 Hp).
  - apply valid_rnd_N.
  - apply generic_format_bpow. vm_compute. discriminate.
  - rewrite <- abs_IZR. change (bpow radix2 127) with (IZR (2 ^ 127)). apply IZR_le. exact Hz.
Qed.

Theorem F_of_Z_correct : forall z, Z.abs z <= 2 ^ 127 ->
  is_finite (F_of_Z z) = true /\
  B2R (F_of_Z z) = round radix2 (SpecFloat.fexp 53 1024) ZnearestE (IZR z).
Proof. exact (normalize_Z_correct p53 p1024). Qed.

(* The folder tests `right == 0.0` after parsing the text as f64, the run-time guard tests the integer.
   A non-zero integer is at least 1 in absolute value, and so is its rounding; beyond the finite range the
   conversion yields an infinity. *)
Lemma F_of_Z_is_zero : forall z, F_is_zero (F_of_Z z) = (z =? 0).
Proof.
  intros z. destruct (Z.eqb_spec z 0) as [->|Hz]; [reflexivity|].
  pose proof (normalize_Z p53 p1024 z) as H. cbv zeta in H. fold (F_norm z 0 false) (F_of_Z z) in H.
  destruct (Rlt_bool _ _).
  - destruct H as [HR HF]. unfold F_is_zero, F_cmp, F_zero.
    rewrite (Bcompare_correct 53 1024 _ (B754_zero false) HF eq_refl), HR. simpl (B2R (B754_zero false)).
    assert (1 <= Rabs (round radix2 (SpecFloat.fexp 53 1024) ZnearestE (IZR z)))%R.
    { apply abs_round_ge_generic.
      - apply (fexp_correct 53 1024 p53).
      - apply valid_rnd_N.
      - change 1%R with (bpow radix2 0). apply generic_format_bpow. vm_compute. discriminate.
      - rewrite <- abs_IZR. apply IZR_le. lia. }
    destruct (Rcompare_spec (round radix2 (SpecFloat.fexp 53 1024) ZnearestE (IZR z)) 0) as [| E |];
      try reflexivity.
    rewrite E, Rabs_R0 in H. lra.
  - unfold binary_overflow in H. simpl in H.
    destruct (F_of_Z z) as [s|s| |s m e B]; simpl in H; try discriminate. destruct s; reflexivity.
Qed.

Lemma F_neg_involutive : forall f, F_neg (F_neg f) = f.
Proof. intros f. unfold F_neg. apply Bopp_involutive. Qed.
