(* C05: the model of the operator macros (NumImpl) meets the specification (NumSpec) for all operand values. *)
From MS Require Import Num.NumImpl Num.NumSpec.

Lemma in_range_iff : forall t z, in_range t z = true <-> imin t <= z <= imax t.
Proof. intros t z. unfold in_range. rewrite andb_true_iff, !Z.leb_le. tauto. Qed.

(* After the lemmas up to [wrap_eq] the arithmetic is about [imin t], [imax t] and [width t] as variables:
   a certificate of lia or nia that mentions 2^127 is slow to check. *)
Lemma range_0 : forall t, imin t <= 0 <= imax t.
Proof. destruct t; cbn; lia. Qed.

Lemma imin_signed : forall t, signed t = true -> imin t = - imax t - 1.
Proof. destruct t; (reflexivity || discriminate). Qed.

Lemma imin_unsigned : forall t, signed t = false -> imin t = 0.
Proof. destruct t; (reflexivity || discriminate). Qed.

Lemma range_width : forall t, imax t - imin t + 1 = 2 ^ width t.
Proof. destruct t; reflexivity. Qed.

Lemma width_small : forall t, 0 < width t <= 128.
Proof. destruct t; cbn; lia. Qed.

Lemma range_pow : forall t,
  imin t = (if signed t then - 2 ^ (width t - 1) else 0) /\
  imax t = (if signed t then 2 ^ (width t - 1) else 2 ^ width t) - 1.
Proof. destruct t; split; reflexivity. Qed.

Lemma wrap_eq : forall t z, wrap t z = (z - imin t) mod 2 ^ width t + imin t.
Proof.
  destruct t; intros z; cbn [wrap imin width]; [reflexivity..|].
  now rewrite Z.sub_0_r, Z.add_0_r.
Qed.

Lemma wrap_id : forall t z, in_range t z = true -> wrap t z = z.
Proof.
  intros t z H. apply in_range_iff in H. rewrite wrap_eq, Z.mod_small; [ring|].
  rewrite <- range_width. lia.
Qed.

Lemma wrap_in_range : forall t z, in_range t (wrap t z) = true.
Proof.
  intros t z. apply in_range_iff. rewrite wrap_eq.
  pose proof (Z.mod_pos_bound (z - imin t) (2 ^ width t)) as B. rewrite <- range_width in *.
  pose proof (range_0 t). lia.
Qed.

Lemma quot_range : forall M x y, - M - 1 <= x <= M -> ~ (x = - M - 1 /\ y = -1) ->
  - M - 1 <= Z.quot x y <= M.
Proof. intros. Z.to_euclidean_division_equations; nia. Qed.

Lemma quot_range_unsigned : forall M x y, 0 <= x <= M -> 0 < y -> 0 <= Z.quot x y <= M.
Proof. intros. Z.to_euclidean_division_equations; nia. Qed.

Lemma rem_between : forall x y, y <> 0 -> 0 <= Z.rem x y <= x \/ x <= Z.rem x y <= 0.
Proof.
  intros x y Hy. pose proof (Z.rem_le (Z.abs x) (Z.abs y)) as L.
  rewrite Z.rem_abs_r, Z.rem_abs_l in L by exact Hy.
  destruct (Z.le_ge_cases 0 x); [left; pose proof (Z.rem_nonneg x y) | right; pose proof (Z.rem_nonpos x y)]; lia.
Qed.

Lemma min_by_m1_spec : forall t x y,
  in_range t x = true -> in_range t y = true -> y <> 0 ->
  min_by_m1 t x y = negb (in_range t (Z.quot x y)).
Proof.
  intros t x y Hx Hy Hy0. apply in_range_iff in Hx, Hy. pose proof (range_0 t) as H0.
  unfold min_by_m1. destruct (signed t) eqn:S; cbn [andb]; symmetry.
  - rewrite (imin_signed t S) in *. destruct ((x =? - imax t - 1) && (y =? -1)) eqn:E.
    + apply andb_true_iff in E. rewrite !Z.eqb_eq in E. destruct E as [-> ->].
      apply negb_true_iff, not_true_iff_false. rewrite in_range_iff.
      rewrite <- (Z.quot_unique_exact (- imax t - 1) (-1) (imax t + 1)); lia.
    + apply andb_false_iff in E. rewrite !Z.eqb_neq in E.
      apply negb_false_iff, in_range_iff. rewrite (imin_signed t S). apply quot_range; lia.
  - rewrite (imin_unsigned t S) in *.
    apply negb_false_iff, in_range_iff. rewrite (imin_unsigned t S). apply quot_range_unsigned; lia.
Qed.

Lemma rem_in_range : forall t x y,
  in_range t x = true -> y <> 0 -> in_range t (Z.rem x y) = true.
Proof.
  intros t x y Hx Hy0. apply in_range_iff in Hx. apply in_range_iff.
  pose proof (range_0 t). pose proof (rem_between x y Hy0). lia.
Qed.

Lemma div_between : forall x p, 0 < p -> 0 <= x / p <= x \/ x <= x / p <= 0.
Proof. intros. Z.to_euclidean_division_equations; nia. Qed.

Lemma shiftr_in_range : forall t x n, in_range t x = true -> 0 <= n -> in_range t (Z.shiftr x n) = true.
Proof.
  intros t x n Hx Hn. apply in_range_iff in Hx. apply in_range_iff. rewrite Z.shiftr_div_pow2 by exact Hn.
  pose proof (range_0 t). pose proof (div_between x (2 ^ n) (Z.pow_pos_nonneg 2 n eq_refl Hn)). lia.
Qed.

Definition sub_ityb (s t : ity) : bool := (imin t <=? imin s) && (imax s <=? imax t).

Lemma in_range_widen : forall s t z, in_range s z = true -> sub_ityb s t = true -> in_range t z = true.
Proof. intros s t z. unfold sub_ityb. rewrite andb_true_iff, !Z.leb_le, !in_range_iff. lia. Qed.

Lemma as_widen : forall s t z, in_range s z = true -> sub_ityb s t = true -> as_ t z = z.
Proof. intros s t z H S. apply wrap_id, (in_range_widen s t z H S). Qed.

Lemma as_u32_byte : forall z, in_range U8 z = true -> Some (as_u32 z) = try_u32 z.
Proof.
  intros z H. apply in_range_iff in H. cbn in H. unfold as_u32, try_u32. rewrite Z.mod_small by lia.
  destruct (Z.leb_spec 0 z), (Z.leb_spec z 4294967295); (reflexivity || lia).
Qed.

Lemma is_num_kind : forall a, is_num a -> exists k, kind_of a = Some k.
Proof. intros a H. destruct (kind_of a) as [k|] eqn:E; [exists k; reflexivity | contradiction]. Qed.

(* The macros of ops.rs have one arm per pair of numeric constructors (16), each with its own casts.  On
   operands that fit their kinds every arm is the same expression in the promoted kind, without a cast: the
   form in which NumSpec is written. *)
Ltac kinds a b Ka Kb :=
  destruct a as [?x|?x|?x|?x|?x], b as [?y|?y|?y|?y|?y]; try discriminate Ka; try discriminate Kb;
  injection Ka as <-; injection Kb as <-; cbn [wf] in *.

Lemma math_no_f64_nf : forall f a b ka kb, wf a -> wf b -> kind_of a = Some ka -> kind_of b = Some kb ->
  math_no_f64 f a b = match promote ka kb with
                      | KFloat => None
                      | k => Some (lift (mk k) (f (ity_of k) (Zval a) (Zval b)))
                      end.
Proof.
  intros f a b ka kb Ha Hb Ka Kb. kinds a b Ka Kb; cbn [math_no_f64 promote];
  rewrite ?(as_widen _ _ _ Ha), ?(as_widen _ _ _ Hb) by reflexivity; reflexivity.
Qed.

Lemma math_f64_nf : forall o a b ka kb, kind_of a = Some ka -> kind_of b = Some kb ->
  promote ka kb = KFloat -> math_f64 o a b = Some (Flt (flt_op o (Fval a) (Fval b))).
Proof. intros o a b ka kb Ka Kb. kinds a b Ka Kb; (discriminate || reflexivity). Qed.

Lemma shift_op_nf : forall v o a b ka kb, wf a -> wf b -> kind_of a = Some ka -> kind_of b = Some kb ->
  shift_op v o a b = match promote ka kb with
                     | KFloat => Err
                     | k => shift_arm (sh_fn v) (ity_of k) (mk k) o (Zval a) (try_u32 (Zval b))
                     end.
Proof.
  intros v o a b ka kb Ha Hb Ka Kb. kinds a b Ka Kb; cbn [shift_op promote];
  rewrite ?(as_widen _ _ _ Ha), ?(as_u32_byte _ Hb) by reflexivity; reflexivity.
Qed.

Lemma promoted : forall a b ka kb, wf a -> wf b -> kind_of a = Some ka -> kind_of b = Some kb ->
  promote ka kb <> KFloat ->
  in_range (ity_of (promote ka kb)) (Zval a) = true /\ in_range (ity_of (promote ka kb)) (Zval b) = true /\
  is_zero b = (Zval b =? 0).
Proof.
  intros a b ka kb Ha Hb Ka Kb Hk.
  kinds a b Ka Kb; try (now contradiction Hk); cbn [promote ity_of Zval is_zero];
  (split; [|split; [|reflexivity]]); eauto using in_range_widen.
Qed.

Definition int_spec (t : ity) (o : aop) (x y : Z) : option Z :=
  if is_divlike o && (y =? 0) then None else checked t (exact_Z o x y).

Definition int_meets (s : option Z) (r : res Z) : Prop :=
  match s with Some z => r = Ok z | None => is_failure r end.

Lemma expect_meets : forall s, int_meets s (expect s).
Proof. intros [z|]; cbn; auto. Qed.

Lemma plain_meets : forall m t e, (m = Wrap -> in_range t e = true) -> int_meets (checked t e) (plain m t e).
Proof.
  intros m t e H. unfold checked, plain. destruct (in_range t e); [reflexivity|].
  destruct m; [exact I | discriminate (H eq_refl)].
Qed.

Lemma rust_div_meets : forall t x y, in_range t x = true -> in_range t y = true ->
  int_meets (int_spec t Div x y) (rust_div t x y).
Proof.
  intros t x y Hx Hy. unfold int_spec, rust_div, checked. cbn [is_divlike andb exact_Z].
  destruct (Z.eqb_spec y 0) as [|Hy0]; [exact I|].
  rewrite (min_by_m1_spec t x y Hx Hy Hy0). destruct (in_range t (Z.quot x y)); cbn; auto.
Qed.

Lemma wrapping_rem_meets : forall t x y, in_range t x = true ->
  int_meets (int_spec t Rem x y) (wrapping_rem t x y).
Proof.
  intros t x y Hx. unfold int_spec, wrapping_rem, checked. cbn [is_divlike andb exact_Z].
  destruct (Z.eqb_spec y 0) as [|Hy0]; [exact I|]. rewrite (rem_in_range t x y Hx Hy0). reflexivity.
Qed.

Lemma fixed_int_ok : forall t o x y,
  in_range t x = true -> in_range t y = true ->
  int_meets (int_spec t o x y) (fixed_int t o x y).
Proof.
  intros t o x y Hx Hy. destruct o; cbn [fixed_int].
  1-3: apply expect_meets.
  - apply rust_div_meets; assumption.
  - apply wrapping_rem_meets; assumption.
Qed.

Lemma orig_int_ok : forall m t o x y,
  in_range t x = true -> in_range t y = true ->
  (o = Rem -> min_by_m1 t x y = false) ->
  (m = Wrap -> is_divlike o = false -> in_range t (exact_Z o x y) = true) ->
  int_meets (int_spec t o x y) (orig_int m t o x y).
Proof.
  intros m t o x y Hx Hy Hrem Hov. destruct o; cbn [orig_int].
  1-3: apply plain_meets; intros E; exact (Hov E eq_refl).
  - apply rust_div_meets; assumption.
  - unfold rust_rem. rewrite (Hrem eq_refl). apply wrapping_rem_meets; assumption.
Qed.

Lemma lift_meets : forall k z r, int_meets (checked (ity_of k) z) r -> meets (repr k z) (lift (mk k) r).
Proof.
  intros k z r. unfold checked, repr. destruct (in_range (ity_of k) z); cbn [int_meets meets].
  - intros ->. reflexivity.
  - destruct r; cbn; auto.
Qed.

Lemma int_arm_meets : forall k o x y (g : bool) r,
  (g = true -> (y =? 0) = true) ->
  int_meets (int_spec (ity_of k) o x y) r ->
  meets (if is_divlike o && (y =? 0) then Undefined else repr k (exact_Z o x y))
        (if is_divlike o && g then Err else lift (mk k) r).
Proof.
  intros k o x y g r Hg H. unfold int_spec in H.
  destruct (is_divlike o && (y =? 0)) eqn:Z.
  - destruct (is_divlike o && g); [exact I | destruct r; cbn in *; auto].
  - replace (is_divlike o && g) with false
      by (destruct (is_divlike o), g; try reflexivity; rewrite (Hg eq_refl) in Z; discriminate).
    apply lift_meets, H.
Qed.

Lemma zero_guard_sound : forall v b, zero_guard v b = true -> is_zero b = true.
Proof. intros v b. destruct v, b; cbn; congruence. Qed.

Lemma zero_guard_fixed : forall b, zero_guard Fixed b = is_zero b.
Proof. destruct b; reflexivity. Qed.

Lemma arith_meets : forall v o a b ka kb, wf a -> wf b -> kind_of a = Some ka -> kind_of b = Some kb ->
  (promote ka kb = KFloat -> is_divlike o = true -> zero_guard v b = is_zero b) ->
  (promote ka kb <> KFloat ->
   in_range (ity_of (promote ka kb)) (Zval a) = true -> in_range (ity_of (promote ka kb)) (Zval b) = true ->
   int_meets (int_spec (ity_of (promote ka kb)) o (Zval a) (Zval b))
             (int_op v (ity_of (promote ka kb)) o (Zval a) (Zval b))) ->
  meets (spec_arith o a b) (arith v o a b).
Proof.
  intros v o a b ka kb Ha Hb Ka Kb Hg Hi. unfold spec_arith, arith, apply_math.
  rewrite Ka, Kb, (math_no_f64_nf _ a b ka kb Ha Hb Ka Kb).
  pose proof (promoted a b ka kb Ha Hb Ka Kb) as P. pose proof (math_f64_nf o a b ka kb Ka Kb) as F.
  pose proof (zero_guard_sound v b) as G.
  destruct (promote ka kb).
  1-3: destruct P as (Rx & Ry & Z); [discriminate|]; rewrite Z in *; apply int_arm_meets;
       [exact G | apply Hi; (assumption || discriminate)].
  rewrite (F eq_refl). cbn [option_map]. destruct (is_divlike o); cbn [andb]; [|reflexivity].
  rewrite (Hg eq_refl eq_refl). destruct (is_zero b); cbn; auto.
Qed.

Theorem arith_fixed : forall o a b, wf a -> wf b -> is_num a -> is_num b ->
  meets (spec_arith o a b) (arith Fixed o a b).
Proof.
  intros o a b Ha Hb Na Nb. destruct (is_num_kind a Na) as [ka Ka], (is_num_kind b Nb) as [kb Kb].
  apply (arith_meets Fixed o a b ka kb Ha Hb Ka Kb).
  - intros _ _. apply zero_guard_fixed.
  - intros _. apply fixed_int_ok.
Qed.

(* & | xor stay in range: a range says that the bits from position n on are all 0 (unsigned), or all 0 or
   all 1 (signed), and the bitwise operators act on each bit separately. *)
Lemma unsigned_range_shiftr : forall n x, 0 <= n ->
  (0 <= x <= 2 ^ n - 1) <-> Z.shiftr x n = 0.
Proof.
  intros n x Hn. rewrite Z.shiftr_div_pow2 by exact Hn.
  pose proof (Z.pow_pos_nonneg 2 n). rewrite Z.div_small_iff by lia. lia.
Qed.

Lemma signed_range_shiftr : forall n x, 0 <= n ->
  (- 2 ^ n <= x <= 2 ^ n - 1) <-> (Z.shiftr x n = 0 \/ Z.shiftr x n = -1).
Proof.
  intros n x Hn. pose proof (Z.pow_pos_nonneg 2 n).
  assert (E : Z.shiftr (x + 1 * 2 ^ n) n = Z.shiftr x n + 1)
    by (rewrite !Z.shiftr_div_pow2 by exact Hn; apply Z.div_add; lia).
  pose proof (unsigned_range_shiftr n x Hn). pose proof (unsigned_range_shiftr n (x + 1 * 2 ^ n) Hn). lia.
Qed.

Lemma shiftr_bit_op : forall o x y n,
  Z.shiftr (bit_op o x y) n = bit_op o (Z.shiftr x n) (Z.shiftr y n).
Proof.
  intros o x y n. destruct o; cbn [bit_op].
  - apply Z.shiftr_land.
  - apply Z.shiftr_lor.
  - apply Z.shiftr_lxor.
Qed.

Lemma bit_op_signs : forall o a b, (a = 0 \/ a = -1) -> (b = 0 \/ b = -1) ->
  bit_op o a b = 0 \/ bit_op o a b = -1.
Proof. intros o a b [->| ->] [->| ->]; destruct o; cbn; auto. Qed.

Lemma bit_in_range : forall t o x y,
  in_range t x = true -> in_range t y = true -> in_range t (bit_op o x y) = true.
Proof.
  intros t o x y Hx Hy. apply in_range_iff in Hx, Hy. apply in_range_iff.
  destruct (range_pow t) as [Emin Emax]. rewrite Emin, Emax in *. pose proof (width_small t) as W.
  destruct (signed t).
  - apply signed_range_shiftr in Hx, Hy; [|lia..].
    apply signed_range_shiftr; [lia|]. rewrite shiftr_bit_op. apply bit_op_signs; assumption.
  - apply unsigned_range_shiftr in Hx, Hy; [|lia..].
    apply unsigned_range_shiftr; [lia|]. rewrite shiftr_bit_op. rewrite Hx, Hy. destruct o; reflexivity.
Qed.

Theorem bit_exact : forall o a b, wf a -> wf b -> is_num a -> is_num b ->
  meets (spec_bit o a b) (bit o a b).
Proof.
  intros o a b Ha Hb Na Nb. destruct (is_num_kind a Na) as [ka Ka], (is_num_kind b Nb) as [kb Kb].
  unfold spec_bit, bit. rewrite Ka, Kb, (math_no_f64_nf _ a b ka kb Ha Hb Ka Kb).
  pose proof (promoted a b ka kb Ha Hb Ka Kb) as P.
  destruct (promote ka kb); [| | |exact I].
  all: destruct P as (Rx & Ry & _); [discriminate|]; unfold repr; rewrite (bit_in_range _ o _ _ Rx Ry); reflexivity.
Qed.

Lemma wrap_congr : forall t z, exists k, wrap t z = z + k * 2 ^ width t.
Proof.
  intros t z. exists (- ((z - imin t) / 2 ^ width t)). rewrite wrap_eq.
  pose proof (width_small t). pose proof (Z.div_mod (z - imin t) (2 ^ width t)). lia.
Qed.

(* the test of ExactShl::exact_shl: shifting the truncated result back restores the operand iff no bit was lost *)
Lemma shl_back : forall t x n, 0 <= n < width t ->
  (Z.shiftr (wrap t (x * 2 ^ n)) n =? x) = in_range t (x * 2 ^ n).
Proof.
  intros t x n Hn.
  assert (Hp : 0 < 2 ^ n) by (apply Z.pow_pos_nonneg; lia).
  destruct (in_range t (x * 2 ^ n)) eqn:R.
  - rewrite (wrap_id _ _ R). apply Z.eqb_eq.
    rewrite Z.shiftr_div_pow2 by lia. apply Z.div_mul. lia.
  - apply Z.eqb_neq. intros E.
    destruct (wrap_congr t (x * 2 ^ n)) as [k Hk].
    assert (Hw : 2 ^ width t = 2 ^ (width t - n) * 2 ^ n)
      by (rewrite <- Z.pow_add_r by lia; f_equal; lia).
    assert (Hq : 0 < 2 ^ (width t - n)) by (apply Z.pow_pos_nonneg; lia).
    rewrite Z.shiftr_div_pow2 in E by lia.
    rewrite Hk, Hw in E.
    replace (x * 2 ^ n + k * (2 ^ (width t - n) * 2 ^ n)) with ((x + k * 2 ^ (width t - n)) * 2 ^ n) in E by ring.
    rewrite Z.div_mul in E by lia.
    assert (k = 0) by nia. subst k.
    rewrite Z.mul_0_l, Z.add_0_r in Hk.
    pose proof (wrap_in_range t (x * 2 ^ n)) as W. rewrite Hk in W. congruence.
Qed.

Definition sh_exact (t : ity) (o : sop) (x n : Z) : option Z :=
  if n <? width t then match o with Shl => checked t (x * 2 ^ n) | Shr => Some (Z.shiftr x n) end
  else None.

Lemma exact_sh_exact : forall t o x n, 0 <= n -> exact_sh t o x n = sh_exact t o x n.
Proof.
  intros t o x n Hn. unfold exact_sh, checked_sh, sh_exact, checked.
  destruct (Z.ltb_spec n (width t)); [|destruct o; reflexivity]. destruct o; [|reflexivity].
  rewrite (shl_back t x n) by lia. destruct (in_range t (x * 2 ^ n)) eqn:R; [|reflexivity].
  rewrite (wrap_id _ _ R). reflexivity.
Qed.

Lemma checked_sh_exact : forall t o x n,
  (o = Shl -> n < width t -> in_range t (x * 2 ^ n) = true) -> checked_sh t o x n = sh_exact t o x n.
Proof.
  intros t o x n H. unfold checked_sh, sh_exact, checked.
  destruct (Z.ltb_spec n (width t)) as [Hn|]; [|reflexivity]. destruct o; [|reflexivity].
  rewrite (H eq_refl Hn), (wrap_id _ _ (H eq_refl Hn)). reflexivity.
Qed.

Definition sh_good (f : ity -> sop -> Z -> Z -> option Z) (t : ity) (o : sop) (x : Z) : Prop :=
  forall n, 0 <= n < width t ->
    f t o x n = match o with
                | Shl => if in_range t (x * 2 ^ n) then Some (x * 2 ^ n) else None
                | Shr => Some (Z.shiftr x n)
                end.
Definition sh_range (f : ity -> sop -> Z -> Z -> option Z) (t : ity) (o : sop) (x : Z) : Prop :=
  forall n, width t <= n -> f t o x n = None.

Lemma checked_sh_good : forall t o x,
  (o = Shl -> forall n, 0 <= n < width t -> in_range t (x * 2 ^ n) = true) ->
  sh_good checked_sh t o x.
Proof.
  intros t o x H n Hn. rewrite checked_sh_exact by (intros E _; exact (H E n Hn)).
  unfold sh_exact. destruct (Z.ltb_spec n (width t)); [reflexivity|lia].
Qed.

Lemma checked_sh_range : forall t o x, sh_range checked_sh t o x.
Proof.
  intros t o x n Hn. unfold checked_sh. destruct (Z.ltb_spec n (width t)); [lia|reflexivity].
Qed.

Lemma shift_arm_meets : forall f k o x n,
  (0 <= n -> f (ity_of k) o x n = sh_exact (ity_of k) o x n) ->
  meets (if (0 <=? n) && (n <? width (ity_of k))
         then match o with Shl => repr k (x * 2 ^ n) | Shr => Exact (mk k (Z.shiftr x n)) end
         else Undefined)
        (shift_arm f (ity_of k) (mk k) o x (try_u32 n)).
Proof.
  intros f k o x n H. pose proof (width_small (ity_of k)) as W. unfold shift_arm, try_u32.
  destruct (Z.leb_spec 0 n) as [Hn|]; cbn [andb]; [|exact I].
  destruct (Z.leb_spec n 4294967295); cbn [andb].
  - rewrite (H Hn). unfold sh_exact, repr, checked. destruct (n <? width (ity_of k)); [|exact I].
    destruct o; [|reflexivity]. destruct (in_range (ity_of k) (x * 2 ^ n)); cbn; auto.
  - destruct (Z.ltb_spec n (width (ity_of k))); [lia|exact I].
Qed.

Lemma shift_meets : forall v o a b ka kb, wf a -> wf b -> kind_of a = Some ka -> kind_of b = Some kb ->
  (promote ka kb <> KFloat -> 0 <= Zval b ->
   sh_fn v (ity_of (promote ka kb)) o (Zval a) (Zval b) = sh_exact (ity_of (promote ka kb)) o (Zval a) (Zval b)) ->
  meets (spec_shift o a b) (shift_op v o a b).
Proof.
  intros v o a b ka kb Ha Hb Ka Kb H. unfold spec_shift.
  rewrite Ka, Kb, (shift_op_nf v o a b ka kb Ha Hb Ka Kb).
  destruct (promote ka kb); [| | |exact I].
  all: apply shift_arm_meets; apply H; discriminate.
Qed.

Theorem shift_exact : forall o a b, wf a -> wf b -> is_num a -> is_num b ->
  meets (spec_shift o a b) (shift_op Fixed o a b).
Proof.
  intros o a b Ha Hb Na Nb. destruct (is_num_kind a Na) as [ka Ka], (is_num_kind b Nb) as [kb Kb].
  apply (shift_meets Fixed o a b ka kb Ha Hb Ka Kb). intros _ Hn. apply exact_sh_exact, Hn.
Qed.

Theorem cmp_exact : forall o a b, wf a -> wf b -> is_num a -> is_num b ->
  meets (spec_cmp o a b) (ord_op o a b).
Proof.
  intros o a b Ha Hb Na Nb. destruct (is_num_kind a Na) as [ka Ka], (is_num_kind b Nb) as [kb Kb].
  unfold spec_cmp. rewrite Ka, Kb. kinds a b Ka Kb; cbn [ord_op has_float];
  rewrite ?(as_widen _ _ _ Ha), ?(as_widen _ _ _ Hb) by reflexivity; reflexivity.
Qed.

Theorem equals_exact : forall a b, wf a -> wf b -> is_num a -> is_num b ->
  match spec_eq a b with Some r => equals a b = Ok r | None => False end.
Proof.
  intros a b Ha Hb Na Nb. destruct (is_num_kind a Na) as [ka Ka], (is_num_kind b Nb) as [kb Kb].
  unfold spec_eq. rewrite Ka, Kb. kinds a b Ka Kb; cbn [equals has_float];
  rewrite ?(as_widen _ _ _ Ha), ?(as_widen _ _ _ Hb) by reflexivity; reflexivity.
Qed.

Lemma negate_meets : forall v a, v <> Orig Wrap -> meets (spec_neg a) (negate v a).
Proof.
  intros v a Hv.
  assert (N : forall t x, int_meets (checked t (- x)) (neg_int v t x)).
  { intros t x. destruct v as [m|]; [apply plain_meets; intros -> | apply expect_meets]. now contradiction Hv. }
  destruct a as [x|x|x|x|x]; cbn [spec_neg negate]; try exact I.
  - apply (lift_meets KInt), N.
  - apply (lift_meets KBig), N.
  - reflexivity.
Qed.

Theorem neg_fixed : forall a, wf a -> meets (spec_neg a) (negate Fixed a).
Proof. intros a _. apply negate_meets. discriminate. Qed.

Theorem not_exact : forall a, meets (spec_not a) (not_ a).
Proof. intros a. destruct a; cbn; auto. Qed.

Lemma binop_meets : forall v op a b, wf a -> wf b -> is_num a -> is_num b ->
  (forall o, op = Arith o -> meets (spec_arith o a b) (arith v o a b)) ->
  (forall o, op = Shift o -> meets (spec_shift o a b) (shift_op v o a b)) ->
  meets (spec_binop op a b) (binop_eval v op a b).
Proof.
  intros v op a b Ha Hb Na Nb HA HS. destruct op as [o|o|o|o|o]; cbn [spec_binop binop_eval].
  - apply HA. reflexivity.
  - apply bit_exact; assumption.
  - apply HS. reflexivity.
  - apply cmp_exact; assumption.
  - pose proof (equals_exact a b Ha Hb Na Nb) as H.
    destruct (spec_eq a b); [|contradiction]. rewrite H. destruct o; reflexivity.
Qed.

Theorem binop_fixed : forall op a b, wf a -> wf b -> is_num a -> is_num b ->
  meets (spec_binop op a b) (binop_eval Fixed op a b).
Proof.
  intros op a b Ha Hb Na Nb. apply binop_meets; auto; intros o _.
  - apply arith_fixed; assumption.
  - apply shift_exact; assumption.
Qed.

Lemma repr_kind : forall k z v, k <> KFloat -> repr k z = Exact v -> rkind_of v = RNum k.
Proof.
  intros k z v Hk H. unfold repr in H. destruct (in_range (ity_of k) z); [|discriminate].
  injection H as <-. destruct k; (reflexivity || contradiction).
Qed.

Theorem binop_kind : forall op a b ka kb v,
  kind_of a = Some ka -> kind_of b = Some kb -> spec_binop op a b = Exact v ->
  rkind_of v = result_kind op ka kb.
Proof.
  intros op a b ka kb v Ka Kb H.
  destruct op as [o|o|o|o|o]; cbn [spec_binop result_kind] in *.
  - unfold spec_arith in H. rewrite Ka, Kb in H.
    destruct (is_divlike o && is_zero b); [discriminate|].
    destruct (promote ka kb); [apply repr_kind in H; [exact H|discriminate] ..|].
    injection H as <-. reflexivity.
  - unfold spec_bit in H. rewrite Ka, Kb in H.
    destruct (promote ka kb); [apply repr_kind in H; [exact H|discriminate] ..|discriminate].
  - unfold spec_shift in H. rewrite Ka, Kb in H. cbv zeta in H.
    destruct (promote ka kb); [..|discriminate].
    all: destruct (_ && _); [|discriminate]; destruct o;
         [apply repr_kind in H; [exact H|discriminate] | injection H as <-; reflexivity].
  - unfold spec_cmp in H. rewrite Ka, Kb in H. injection H as <-. reflexivity.
  - destruct (spec_eq a b); destruct o; inversion H; reflexivity.
Qed.

Theorem neg_kind : forall a v, spec_neg a = Exact v -> Some (rkind_of v) = option_map RNum (kind_of a).
Proof.
  intros a v H. destruct a; cbn [spec_neg kind_of option_map] in *; try discriminate.
  1,2: apply repr_kind in H; [rewrite H; reflexivity | discriminate].
  injection H as <-. reflexivity.
Qed.

(* The original code meets the specification except in four classes of operands (reproduced on the real
   binaries; repaired by the four fixes/num-*.diff, one per class):
     K1 float_by_byte_zero : `float / byte 0`, `float % byte 0` yield inf / NaN (zero guard misses Byte(0))
     K2 rem_min_by_m1      : `MIN % -1` panics although the exact remainder 0 is representable
     K3 overflows          : in a release build an overflowing + - * (and unary minus of MIN) wraps around
     K4 shl_loses_bits     : `x << n` with an admissible n whose exact value x * 2^n does not fit the result
                             kind yields the truncated bit pattern (checked_shl only checks n) *)
Definition float_by_byte_zero (op : binop) (a b : value) : Prop :=
  exists o f, op = Arith o /\ is_divlike o = true /\ a = Flt f /\ b = Byte 0.

Definition rem_min_by_m1 (op : binop) (a b : value) : Prop :=
  op = Arith Rem /\
  match kind_of a, kind_of b with
  | Some ka, Some kb => promote ka kb <> KFloat /\
                        min_by_m1 (ity_of (promote ka kb)) (Zval a) (Zval b) = true
  | _, _ => False
  end.

Definition overflows (op : binop) (a b : value) : Prop :=
  exists o, op = Arith o /\ is_divlike o = false /\
  match kind_of a, kind_of b with
  | Some ka, Some kb => promote ka kb <> KFloat /\
                        in_range (ity_of (promote ka kb)) (exact_Z o (Zval a) (Zval b)) = false
  | _, _ => False
  end.

Definition shl_loses_bits (op : binop) (a b : value) : Prop :=
  op = Shift Shl /\
  match kind_of a, kind_of b with
  | Some ka, Some kb => promote ka kb <> KFloat /\
                        0 <= Zval b < width (ity_of (promote ka kb)) /\
                        in_range (ity_of (promote ka kb)) (Zval a * 2 ^ Zval b) = false
  | _, _ => False
  end.

Theorem arith_orig : forall m o a b, wf a -> wf b -> is_num a -> is_num b ->
  ~ float_by_byte_zero (Arith o) a b ->
  ~ rem_min_by_m1 (Arith o) a b ->
  (m = Wrap -> ~ overflows (Arith o) a b) ->
  meets (spec_arith o a b) (arith (Orig m) o a b).
Proof.
  intros m o a b Ha Hb Na Nb Hbz Hrem Hov.
  destruct (is_num_kind a Na) as [ka Ka], (is_num_kind b Nb) as [kb Kb].
  apply (arith_meets (Orig m) o a b ka kb Ha Hb Ka Kb).
  - (* the guard misses Byte(0); in a float arm that is the excluded class K1 *)
    intros Hk Ed. destruct b as [y|y|y|y|y]; try reflexivity. cbn [zero_guard is_zero].
    destruct (Z.eqb_spec y 0) as [->|]; [|reflexivity].
    injection Kb as <-. destruct a as [x|x|x|x|x]; try discriminate Ka; injection Ka as <-; try discriminate Hk.
    exfalso. apply Hbz. exists o, x. auto.
  - intros Hk Rx Ry. cbn [int_op]. apply orig_int_ok; try assumption.
    + intros ->. destruct (min_by_m1 _ _ _) eqn:M; [|reflexivity].
      exfalso. apply Hrem. split; [reflexivity|]. rewrite Ka, Kb. split; assumption.
    + intros -> Ed. destruct (in_range _ (exact_Z _ _ _)) eqn:R; [reflexivity|].
      exfalso. apply (Hov eq_refl). exists o. rewrite Ka, Kb. repeat split; assumption.
Qed.

Theorem shift_orig : forall m o a b, wf a -> wf b -> is_num a -> is_num b ->
  ~ shl_loses_bits (Shift o) a b ->
  meets (spec_shift o a b) (shift_op (Orig m) o a b).
Proof.
  intros m o a b Ha Hb Na Nb Hk.
  destruct (is_num_kind a Na) as [ka Ka], (is_num_kind b Nb) as [kb Kb].
  apply (shift_meets (Orig m) o a b ka kb Ha Hb Ka Kb). intros Hf Hn. cbn [sh_fn].
  apply checked_sh_exact. intros -> Hw. destruct (in_range _ _) eqn:R; [reflexivity|].
  exfalso. apply Hk. split; [reflexivity|]. rewrite Ka, Kb. repeat split; assumption.
Qed.

Theorem binop_orig : forall m op a b, wf a -> wf b -> is_num a -> is_num b ->
  ~ float_by_byte_zero op a b -> ~ rem_min_by_m1 op a b -> (m = Wrap -> ~ overflows op a b) ->
  ~ shl_loses_bits op a b ->
  meets (spec_binop op a b) (binop_eval (Orig m) op a b).
Proof.
  intros m op a b Ha Hb Na Nb H1 H2 H3 H4. apply binop_meets; auto; intros o ->.
  - apply arith_orig; assumption.
  - apply shift_orig; assumption.
Qed.

Theorem neg_orig_trap : forall a, wf a -> meets (spec_neg a) (negate (Orig Trap) a).
Proof. intros a _. apply negate_meets. discriminate. Qed.

Lemma orig_wrap_refuted : exists op a b,
  wf a /\ wf b /\ is_num a /\ is_num b /\ overflows op a b /\
  binop_eval (Orig Wrap) op a b = Ok (Int (-2147483648)) /\
  ~ meets (spec_binop op a b) (binop_eval (Orig Wrap) op a b).
Proof.
  exists (Arith Add), (Int 2147483647), (Int 1).
  split; [reflexivity|]. split; [reflexivity|]. split; [discriminate|]. split; [discriminate|].
  split; [exists Add; cbn; repeat split; discriminate|]. split; [reflexivity|].
  vm_compute. auto.
Qed.

Lemma orig_float_by_byte_zero_refuted : forall m, exists op a b,
  wf a /\ wf b /\ is_num a /\ is_num b /\ float_by_byte_zero op a b /\
  binop_eval (Orig m) op a b = Ok (Flt (B754_infinity false)) /\
  ~ meets (spec_binop op a b) (binop_eval (Orig m) op a b).
Proof.
  intros m. exists (Arith Div), (Flt (F_of_Z 1)), (Byte 0).
  assert (E : binop_eval (Orig m) (Arith Div) (Flt (F_of_Z 1)) (Byte 0) = Ok (Flt (B754_infinity false)))
    by (destruct m; vm_compute; reflexivity).
  split; [exact I|]. split; [reflexivity|]. split; [discriminate|]. split; [discriminate|].
  split; [exists Div, (F_of_Z 1); auto|]. split; [exact E|].
  rewrite E. vm_compute. auto.
Qed.

Lemma orig_rem_min_by_m1_refuted : forall m, exists op a b,
  wf a /\ wf b /\ is_num a /\ is_num b /\ rem_min_by_m1 op a b /\
  spec_binop op a b = Exact (Int 0) /\ binop_eval (Orig m) op a b = Panic.
Proof.
  intros m. exists (Arith Rem), (Int (-2147483648)), (Int (-1)).
  split; [reflexivity|]. split; [reflexivity|]. split; [discriminate|]. split; [discriminate|].
  split; [split; [reflexivity | cbn; split; [discriminate | reflexivity]]|].
  split; [reflexivity | destruct m; reflexivity].
Qed.

Lemma orig_shl_refuted : forall m, exists op a b,
  wf a /\ wf b /\ is_num a /\ is_num b /\ shl_loses_bits op a b /\
  spec_binop op a b = Undefined /\ binop_eval (Orig m) op a b = Ok (Int (-2147483648)) /\
  binop_eval Fixed op a b = Err.
Proof.
  intros m. exists (Shift Shl), (Int 3), (Int 31).
  split; [reflexivity|]. split; [reflexivity|]. split; [discriminate|]. split; [discriminate|].
  split; [split; [reflexivity | cbn; split; [discriminate | split; [lia | reflexivity]]]|].
  split; [reflexivity|]. split; [destruct m; reflexivity | reflexivity].
Qed.

Lemma orig_neg_wrap_refuted :
  wf (Int (-2147483648)) /\ spec_neg (Int (-2147483648)) = Undefined /\
  negate (Orig Wrap) (Int (-2147483648)) = Ok (Int (-2147483648)).
Proof. repeat split. Qed.
