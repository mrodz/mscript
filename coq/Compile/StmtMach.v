(* C01, statement level -- part 1: the interpreter loop as a small-step machine INCLUDING block frames.
   `xstep` is the body of the `fix loop` of run_fn_gen (Vm/Model.v) for every outcome except call / ret:
   SNext, SGoto, SFail as ExprSim.step, plus SPush (if_stmt / while_loop / else_stmt), SGotoPop (jmp_pop) and
   SPopScope (done).  `xrun` is its reflexive-transitive closure with every CALL taken in one big step (run_fn of
   the callee); `xstep_loop`, `xrun_loop` and `xfail_loop` tie them to Verify.Sound.loop. *)
From MS Require Import Vm.Model Lang.Syntax Compile.Compile Verify.Sound Compile.ExprBase Compile.ExprSim.
From Coq Require Import Lia.
Open Scope nat_scope.

Section XSteps.
  Variable p : program.
  Variable name : str.
  Variable code : list instr.

  Definition xstep (a : act) (g : gstate) : rstatus :=
    match nth_error code (a_ip a) with
    | None => Escaped
    | Some i =>
      let g := trc name a g i in
      match Model.exec i a g with
      | SFail e => Failed e g
      | SNext a g => Running (set_ip a (S (a_ip a))) g
      | SGoto off a g => match goto (length code) (a_ip a) off with
                         | Some t => Running (set_ip a t) g | None => Failed E_goto_range g end
      | SPush l a g => Running (set_ip (set_ss a (S (a_ss a))) (S (a_ip a))) (push_frame g l)
      | SGotoPop off n a g =>
        match goto (length code) (a_ip a) off with
        | None => Failed E_goto_range g
        | Some t => match pop_frames n g with
                    | Some g' => Running (set_ip a t) g' | None => Failed (E_panic OP_JMP_POP) g end
        end
      | SPopScope a g =>
        match a_ss a with
        | O => Running (set_ip a (S (a_ip a))) g
        | S k => match pop_frame g with
                 | Some g' => Running (set_ip (set_ss a k) (S (a_ip a))) g'
                 | None => Failed (E_panic OP_DONE) g end
        end
      | SRet _ _ _ => Escaped
      | SCall _ _ _ _ _ => Escaped
      end
    end.

  Fixpoint xsteps (n : nat) (r : rstatus) : rstatus :=
    match n with
    | O => r
    | S n => match r with Running a g => xsteps n (xstep a g) | _ => r end
    end.

  Definition xreach (r r' : rstatus) : Prop := exists n, xsteps n r = r'.

  Lemma xsteps_stop_failed : forall n e g, xsteps n (Failed e g) = Failed e g.
  Proof. destruct n; reflexivity. Qed.
  Lemma xsteps_stop_escaped : forall n, xsteps n Escaped = Escaped.
  Proof. destruct n; reflexivity. Qed.

  Lemma xsteps_trans : forall n m r a g r', xsteps n r = Running a g -> xsteps m (Running a g) = r' -> xsteps (n + m) r = r'.
  Proof.
    induction n as [|n IH]; intros m r a g r' H1 H2.
    - cbn in H1. subst r. exact H2.
    - destruct r as [a0 g0|e0 g0|].
      + cbn [xsteps Nat.add] in *. eapply IH; eassumption.
      + rewrite xsteps_stop_failed in H1. discriminate.
      + rewrite xsteps_stop_escaped in H1. discriminate.
  Qed.

  Lemma xreach_refl : forall r, xreach r r.
  Proof. intros r. exists 0. reflexivity. Qed.
  Lemma xreach_step : forall a g r, xstep a g = r -> xreach (Running a g) r.
  Proof. intros a g r H. exists 1. cbn [xsteps]. rewrite H. reflexivity. Qed.
  Lemma xreach_trans : forall r a g r', xreach r (Running a g) -> xreach (Running a g) r' -> xreach r r'.
  Proof. intros r a g r' [n H1] [m H2]. exists (n + m). eapply xsteps_trans; eassumption. Qed.

  Lemma step_xstep : forall a g, step name code a g <> Escaped -> xstep a g = step name code a g.
  Proof.
    intros a g H. unfold step, xstep in *.
    destruct (nth_error code (a_ip a)) as [i|]; [|reflexivity].
    destruct (Model.exec i a (trc name a g i)); try reflexivity; congruence.
  Qed.

  Lemma steps_xsteps : forall n a g r, steps name code n (Running a g) = r -> r <> Escaped ->
    xsteps n (Running a g) = r.
  Proof.
    induction n as [|n IH]; intros a g r H Hr; [exact H|].
    cbn [steps xsteps] in *.
    assert (E : step name code a g <> Escaped) by (intros E; rewrite E, steps_stop_escaped in H; congruence).
    rewrite (step_xstep a g E). destruct (step name code a g) as [a1 g1|e1 g1|]; [now apply IH| |congruence].
    rewrite steps_stop_failed in H. now rewrite xsteps_stop_failed.
  Qed.

  Lemma reaches_xreach_running : forall a g a' g', reaches name code (Running a g) (Running a' g') ->
    xreach (Running a g) (Running a' g').
  Proof. intros a g a' g' [n H]. exists n. apply steps_xsteps; [exact H|discriminate]. Qed.

  Lemma xstep_loop : forall rc callee fuel a g,
    match xstep a g with
    | Running a' g' => loop rc callee name code (S fuel) a g = loop rc callee name code fuel a' g'
    | Failed e g' => loop rc callee name code (S fuel) a g = RFail e g'
    | Escaped => True
    end.
  Proof.
    intros rc callee fuel a g. cbn [loop]. unfold xstep. destruct (nth_error code (a_ip a)) as [i|]; [|exact Logic.I].
    fold (trc name a g i).
    destruct (Model.exec i a (trc name a g i)) as [a1 g1|off a1 g1|l a1 g1|off k a1 g1|a1 g1| | |e]; try reflexivity; try exact Logic.I.
    - destruct (goto (length code) (a_ip a1) off); reflexivity.
    - destruct (goto (length code) (a_ip a1) off); [|reflexivity]. destruct (pop_frames k g1); reflexivity.
    - destruct (a_ss a1); [reflexivity|]. destruct (pop_frame g1); reflexivity.
  Qed.

  Definition next_act (a1 : act) (rv : option value) : act :=
    set_ip (match rv with Some v => set_ops a1 (a_ops a1 ++ [v]) | None => a1 end) (S (a_ip a1)).

  Inductive xrun : act -> gstate -> act -> gstate -> Prop :=
  | xr_refl : forall a g, xrun a g a g
  | xr_step : forall a g a1 g1 a' g', xstep a g = Running a1 g1 -> xrun a1 g1 a' g' -> xrun a g a' g'
  | xr_call : forall a g i d dest cb argv a1 g1 fuel rv g2 a' g',
      nth_error code (a_ip a) = Some i -> decode i = DOk d ->
      exec_d d a (trc name a g i) = SCall dest cb argv a1 g1 ->
      run_fn fuel p dest argv cb g1 = RDone rv g2 ->
      xrun (next_act a1 rv) g2 a' g' -> xrun a g a' g'.

  Definition xfail_at (a : act) (g : gstate) (e : err) (g' : gstate) : Prop :=
    xstep a g = Failed e g' \/
    exists i d dest cb argv a1 g1 fuel,
      nth_error code (a_ip a) = Some i /\ decode i = DOk d /\
      exec_d d a (trc name a g i) = SCall dest cb argv a1 g1 /\ run_fn fuel p dest argv cb g1 = RFail e g'.
  Definition xfail (a : act) (g : gstate) (e : err) (g' : gstate) : Prop :=
    exists a1 g1, xrun a g a1 g1 /\ xfail_at a1 g1 e g'.

  Lemma xrun_refl : forall a g, xrun a g a g.
  Proof. intros. apply xr_refl. Qed.
  Lemma xrun_trans : forall a g a1 g1 a2 g2, xrun a g a1 g1 -> xrun a1 g1 a2 g2 -> xrun a g a2 g2.
  Proof.
    intros a g a1 g1 a2 g2 H. revert a2 g2. induction H; intros ax gx Hnext; [exact Hnext| |].
    - eapply xr_step; [eassumption|]. now apply IHxrun.
    - eapply xr_call; try eassumption. now apply IHxrun.
  Qed.
  Lemma xrun_fail : forall a g a1 g1 e g2, xrun a g a1 g1 -> xfail a1 g1 e g2 -> xfail a g e g2.
  Proof. intros a g a1 g1 e g2 H (a2 & g3 & H2 & H3). exists a2, g3. split; [eapply xrun_trans; eassumption|exact H3]. Qed.
  Lemma xrun_step1 : forall a g a1 g1, xstep a g = Running a1 g1 -> xrun a g a1 g1.
  Proof. intros. eapply xr_step; [eassumption|apply xr_refl]. Qed.
  Lemma xfail_step1 : forall a g e g', xstep a g = Failed e g' -> xfail a g e g'.
  Proof. intros a g e g' H. exists a, g. split; [apply xr_refl|now left]. Qed.

  Lemma xsteps_xrun : forall n a g,
    match xsteps n (Running a g) with
    | Running a' g' => xrun a g a' g'
    | Failed e g' => xfail a g e g'
    | Escaped => True
    end.
  Proof.
    induction n as [|n IH]; intros a g; [apply xr_refl|].
    cbn [xsteps]. destruct (xstep a g) as [a1 g1|e1 g1|] eqn:E.
    - specialize (IH a1 g1). destruct (xsteps n (Running a1 g1)) as [a' g'|e g'|].
      + exact (xr_step _ _ _ _ _ _ E IH).
      + exact (xrun_fail _ _ _ _ _ _ (xrun_step1 _ _ _ _ E) IH).
      + exact Logic.I.
    - rewrite xsteps_stop_failed. now apply xfail_step1.
    - now rewrite xsteps_stop_escaped.
  Qed.
  Lemma run_ok_xrun : forall d lo hi a g a' g', run_ok name code d lo hi a g a' g' -> xrun a g a' g'.
  Proof.
    intros d lo hi a g a' g' [[n R] _]. pose proof (xsteps_xrun n a g) as H.
    now rewrite (steps_xsteps n a g _ R) in H.
  Qed.
  Lemma reaches_xfail : forall a g e g', reaches name code (Running a g) (Failed e g') -> xfail a g e g'.
  Proof.
    intros a g e g' [n R]. pose proof (xsteps_xrun n a g) as H.
    now rewrite (steps_xsteps n a g _ R) in H.
  Qed.

  Lemma xstep_next : forall a g i dI ip a1 g1, a_ip a = ip -> nth_error code ip = Some i -> decode i = DOk dI ->
    exec_d dI a (trc name a g i) = SNext a1 g1 ->
    xrun a g (set_ip a1 (S (a_ip a1))) g1.
  Proof.
    intros a g i dI ip a1 g1 Hip Hf Hd He. apply xrun_step1. unfold xstep. rewrite Hip, Hf. unfold Model.exec.
    rewrite Hd, He. reflexivity.
  Qed.

  Lemma xstep_fail : forall a g i dI ip e, a_ip a = ip -> nth_error code ip = Some i -> decode i = DOk dI ->
    exec_d dI a (trc name a g i) = SFail e ->
    xfail a g e (trc name a g i).
  Proof.
    intros a g i dI ip e Hip Hf Hd He. apply xfail_step1. unfold xstep. rewrite Hip, Hf. unfold Model.exec.
    rewrite Hd, He. reflexivity.
  Qed.

  Lemma xstep_goto : forall a g i dI ip off a1 g1 t, a_ip a = ip -> nth_error code ip = Some i -> decode i = DOk dI ->
    exec_d dI a (trc name a g i) = SGoto off a1 g1 -> goto (length code) (a_ip a1) off = Some t ->
    xrun a g (set_ip a1 t) g1.
  Proof.
    intros a g i dI ip off a1 g1 t Hip Hf Hd He Hg. apply xrun_step1. unfold xstep. rewrite Hip, Hf. unfold Model.exec.
    rewrite Hd, He, Hg. reflexivity.
  Qed.

  Lemma xstep_push : forall a g i dI ip l a1 g1, a_ip a = ip -> nth_error code ip = Some i -> decode i = DOk dI ->
    exec_d dI a (trc name a g i) = SPush l a1 g1 ->
    xrun a g (set_ip (set_ss a1 (S (a_ss a1))) (S (a_ip a1))) (push_frame g1 l).
  Proof.
    intros a g i dI ip l a1 g1 Hip Hf Hd He. apply xrun_step1. unfold xstep. rewrite Hip, Hf. unfold Model.exec.
    rewrite Hd, He. reflexivity.
  Qed.

  Lemma xstep_gotopop : forall a g i dI ip off n a1 g1 t g2, a_ip a = ip -> nth_error code ip = Some i -> decode i = DOk dI ->
    exec_d dI a (trc name a g i) = SGotoPop off n a1 g1 -> goto (length code) (a_ip a1) off = Some t ->
    pop_frames n g1 = Some g2 ->
    xrun a g (set_ip a1 t) g2.
  Proof.
    intros a g i dI ip off n a1 g1 t g2 Hip Hf Hd He Hg Hp. apply xrun_step1. unfold xstep. rewrite Hip, Hf. unfold Model.exec.
    rewrite Hd, He, Hg, Hp. reflexivity.
  Qed.

  Lemma xstep_popscope : forall a g i dI ip a1 g1 k g2, a_ip a = ip -> nth_error code ip = Some i -> decode i = DOk dI ->
    exec_d dI a (trc name a g i) = SPopScope a1 g1 -> a_ss a1 = S k -> pop_frame g1 = Some g2 ->
    xrun a g (set_ip (set_ss a1 k) (S (a_ip a1))) g2.
  Proof.
    intros a g i dI ip a1 g1 k g2 Hip Hf Hd He Hs Hp. apply xrun_step1. unfold xstep. rewrite Hip, Hf. unfold Model.exec.
    rewrite Hd, He, Hs, Hp. reflexivity.
  Qed.
End XSteps.

Lemma code_at_tail : forall pre post, code_at (pre ++ post) (length pre) post.
Proof. intros pre post. rewrite <- (app_nil_r post) at 1. apply code_at_embed. Qed.
Lemma code_at_end : forall pre mid post, code_at (pre ++ mid ++ post) (length pre + length mid) post.
Proof. intros pre mid post. rewrite app_assoc, <- app_length. apply code_at_tail. Qed.

Lemma dec_store : forall x, decode (mkI OP_STORE [x]) = DOk (DStore x).
Proof. reflexivity. Qed.
Lemma dec_void : decode (mkI OP_VOID []) = DOk DVoid.
Proof. reflexivity. Qed.
Lemma dec_printn : decode (mkI OP_PRINTN [s_star]) = DOk DPrint.
Proof. reflexivity. Qed.
Lemma dec_assert : forall sp, decode (mkI OP_ASSERT [sp]) = DOk (DAssert (Some sp)).
Proof. reflexivity. Qed.
Lemma dec_bin_op_assign : forall sym x, decode (mkI OP_BIN_OP_ASSIGN [sym; x]) = DOk (DBinOpAssign sym x).
Proof. reflexivity. Qed.
Lemma dec_else : decode (mkI OP_ELSE_STMT []) = DOk DElse.
Proof. reflexivity. Qed.
Lemma dec_done : decode (mkI OP_DONE []) = DOk DDone.
Proof. reflexivity. Qed.

Lemma dec_off_sN : forall o k n, small n -> dec_off (mkI o [sN n]) k = DOk (k (Z.of_nat n)).
Proof. intros o k n H. unfold dec_off. cbn [arg1 args mkI]. now rewrite parse_sN. Qed.
Lemma dec_if : forall n, small n -> decode (mkI OP_IF_STMT [sN n]) = DOk (DIf (Z.of_nat n)).
Proof. intros n. exact (dec_off_sN OP_IF_STMT DIf n). Qed.
Lemma dec_while : forall n, small n -> decode (mkI OP_WHILE_LOOP [sN n]) = DOk (DWhile (Z.of_nat n)).
Proof. intros n. exact (dec_off_sN OP_WHILE_LOOP DWhile n). Qed.
Lemma dec_jmp : forall n, small n -> decode (mkI OP_JMP [sN n]) = DOk (DJmp (Z.of_nat n)).
Proof. intros n. exact (dec_off_sN OP_JMP DJmp n). Qed.

Lemma parse_nat_sN : forall n, small n -> parse_nat (sN n) = Some n.
Proof.
  intros n H. unfold parse_nat. rewrite parse_sN by exact H.
  destruct (Z.of_nat n <? 0)%Z eqn:E; [apply Z.ltb_lt in E; lia|]. now rewrite Nat2Z.id.
Qed.

(* for n > 0, neg_off n is the integer -n as show_Z prints it; "-0" is no such print and parses by computation *)
Lemma parse_neg_off : forall n, small n -> parse_Z (neg_off n) = Some (- Z.of_nat n)%Z.
Proof.
  intros n H. destruct n as [|n]; [reflexivity|].
  rewrite <- parse_show_neg by (unfold small in H; lia).
  unfold neg_off, sN, show_Z.
  replace (- Z.of_nat (S n) <? 0)%Z with true by (symmetry; apply Z.ltb_lt; lia).
  replace (Z.of_nat (S n) <? 0)%Z with false by (symmetry; apply Z.ltb_ge; lia).
  now rewrite Z.opp_involutive.
Qed.

(* jmp_pop with two arguments: forward jump, pop n frames (a resolved break / continue) *)
Lemma dec_jmp_pop2 : forall off n, small off -> small n ->
  decode (mkI OP_JMP_POP [sN off; sN n]) = DOk (DJmpPop (Z.of_nat off) n).
Proof.
  intros off n Ho Hn.
  change (decode (mkI OP_JMP_POP [sN off; sN n])) with
    (match parse_Z (sN off), parse_nat (sN n) with
     | Some o, Some k => DOk (DJmpPop o k) | _, _ => DErr (E_bad_arg OP_JMP_POP) end).
  rewrite parse_sN by exact Ho. rewrite parse_nat_sN by exact Hn. reflexivity.
Qed.
(* the back edge of a loop: one argument, pops ONE frame *)
Lemma dec_jmp_pop_back : forall n, small n ->
  decode (mkI OP_JMP_POP [neg_off n]) = DOk (DJmpPop (- Z.of_nat n)%Z 1).
Proof.
  intros n H.
  change (decode (mkI OP_JMP_POP [neg_off n])) with
    (match parse_Z (neg_off n) with Some o => DOk (DJmpPop o 1) | None => DErr (E_bad_arg OP_JMP_POP) end).
  rewrite parse_neg_off by exact H. reflexivity.
Qed.

Lemma goto_back : forall len ip n, n <= ip -> ip < len -> goto len ip (- Z.of_nat n)%Z = Some (ip - n).
Proof. intros len ip n H1 H2. rewrite goto_some by lia. f_equal. lia. Qed.

(* an invariant of the machine: in every frame a name is bound at most once (bindings are made by assoc_set,
   removed by assoc_del, frames start empty) *)
Definition keys_nd (l : list (str * N)) : Prop := NoDup (map fst l).
Definition frames_nd (fs : list frame) : Prop := Forall (fun f => keys_nd (vars f)) fs.

Lemma assoc_keys : forall A (l : list (str * A)) x, assoc x l <> None <-> In x (map fst l).
Proof.
  intros A. induction l as [|[k v] l IH]; intros x; cbn [assoc map fst In]; [split; [congruence|intros []]|].
  destruct (str_eqb k x) eqn:E.
  - apply str_eqb_eq in E. split; [now left|discriminate].
  - rewrite IH. split; [now right|]. intros [->|H]; [now rewrite str_eqb_refl in E|exact H].
Qed.
Lemma assoc_none_notin : forall k (l : list (str * N)), ~ In k (map fst l) -> assoc k l = None.
Proof. intros k l H. destruct (assoc k l) eqn:E; [|reflexivity]. exfalso. apply H, assoc_keys. congruence. Qed.

Lemma in_keys_assoc_set : forall k (v : N) x l, In x (map fst (assoc_set k v l)) -> x = k \/ In x (map fst l).
Proof.
  intros k v x l H. apply assoc_keys in H. destruct (str_eqb x k) eqn:E; [left; now apply str_eqb_eq|right].
  apply assoc_keys. rewrite assoc_set_other in H; [exact H|]. intros ->. now rewrite str_eqb_refl in E.
Qed.
Lemma keys_nd_assoc_set : forall k (v : N) l, keys_nd l -> keys_nd (assoc_set k v l).
Proof.
  unfold keys_nd. intros k v. induction l as [|[k' v'] l IH]; intros H; cbn [assoc_set map fst].
  - constructor; [intros []|constructor].
  - cbn [map fst] in H. apply NoDup_cons_iff in H as [Hn Hd]. destruct (str_eqb k' k) eqn:E; cbn [map fst].
    + apply str_eqb_eq in E. subst k'. constructor; assumption.
    + constructor; [|now apply IH]. intros Hin. apply in_keys_assoc_set in Hin as [->|Hin]; [|contradiction].
      rewrite str_eqb_refl in E. discriminate.
Qed.
Lemma in_keys_assoc_del : forall k x (l : list (str * N)), In x (map fst (assoc_del k l)) -> In x (map fst l).
Proof.
  intros k x. induction l as [|[k' v'] l IH]; cbn [assoc_del map fst In]; [auto|].
  destruct (str_eqb k' k); cbn [map fst In]; [auto|]. intros [H|H]; auto.
Qed.
Lemma keys_nd_assoc_del : forall k (l : list (str * N)), keys_nd l -> keys_nd (assoc_del k l).
Proof.
  unfold keys_nd. intros k. induction l as [|[k' v'] l IH]; intros H; cbn [assoc_del map fst]; [exact H|].
  cbn [map fst] in H. apply NoDup_cons_iff in H as [Hn Hd]. destruct (str_eqb k' k); [exact Hd|].
  cbn [map fst]. constructor; [|now apply IH]. intros Hin. apply Hn. eapply in_keys_assoc_del. exact Hin.
Qed.
Lemma assoc_del_nd_none : forall k (l : list (str * N)), keys_nd l -> assoc k (assoc_del k l) = None.
Proof.
  unfold keys_nd. intros k. induction l as [|[k' v'] l IH]; intros H; [reflexivity|].
  cbn [map fst] in H. apply NoDup_cons_iff in H as [Hn Hd]. cbn [assoc_del].
  destruct (str_eqb k' k) eqn:E.
  - apply str_eqb_eq in E. subst k'. now apply assoc_none_notin.
  - cbn [assoc]. rewrite E. now apply IH.
Qed.

Lemma nd_top : forall f fs vs, frames_nd (f :: fs) -> keys_nd vs -> frames_nd ({| lab := lab f; vars := vs |} :: fs).
Proof. intros f fs vs H Hv. constructor; [exact Hv|exact (Forall_inv_tail H)]. Qed.

Lemma nd_bind_local : forall g n v g', bind_local g n v = Some g' -> frames_nd (frames g) -> frames_nd (frames g').
Proof.
  intros g n v g' H Hn. unfold bind_local in H. destruct (frames g) as [|f fs] eqn:E; [discriminate|].
  injection H as <-. apply nd_top; [exact Hn|]. apply keys_nd_assoc_set. exact (Forall_inv Hn).
Qed.
Lemma nd_store_var : forall g n v g', store_var g n v = Some g' -> frames_nd (frames g) -> frames_nd (frames g').
Proof.
  intros g n v g' H Hn. unfold store_var in H. destruct (find_in_function n (frames g)).
  - injection H as <-. exact Hn.
  - eapply nd_bind_local; eassumption.
Qed.
Lemma nd_delete_names : forall ns vs vs', keys_nd vs -> delete_names ns vs = inl (Some vs') -> keys_nd vs'.
Proof.
  induction ns as [|n ns IH]; intros vs vs' H E; cbn [delete_names] in E.
  - injection E as <-. exact H.
  - destruct (assoc n vs); [|discriminate]. eapply IH; [|exact E]. now apply keys_nd_assoc_del.
Qed.
Lemma nd_pop_frames : forall n g g', pop_frames n g = Some g' -> frames_nd (frames g) -> frames_nd (frames g').
Proof.
  induction n as [|n IH]; intros g g' H Hn; cbn [pop_frames] in H; [injection H as <-; exact Hn|].
  unfold pop_frame in H. destruct (frames g) as [|f fs] eqn:E; [discriminate|].
  eapply IH; [exact H|]. exact (Forall_inv_tail Hn).
Qed.

Definition sres_nd (r : sres) : Prop :=
  match r with
  | SNext _ g | SGoto _ _ g | SPush _ _ g | SGotoPop _ _ _ g | SPopScope _ g | SRet _ _ g | SCall _ _ _ _ g =>
    frames_nd (frames g)
  | SFail _ => True
  end.

(* the stores bind in the top frame, the deletes remove from it, nothing else touches the frames *)
Lemma exec_d_nd : forall d a g, frames_nd (frames g) -> sres_nd (exec_d d a g).
Proof.
  intros d a g Hn. destruct d; unfold exec_d;
    repeat match goal with
           | |- sres_nd (match ?x with _ => _ end) => destruct x eqn:?
           | |- sres_nd (let '(_, _) := ?x in _) => destruct x
           end; try exact Logic.I; try exact Hn;
    try (eapply nd_bind_local; eassumption); try (eapply nd_store_var; eassumption).
  all: apply nd_top; [exact Hn|]; apply Forall_inv in Hn.
  - eapply nd_delete_names; eassumption.
  - now apply keys_nd_assoc_del.
Qed.

Lemma xstep_nd : forall name code a g a' g', xstep name code a g = Running a' g' ->
  frames_nd (frames g) -> frames_nd (frames g').
Proof.
  intros name code a g a' g' H Hn. unfold xstep in H.
  destruct (nth_error code (a_ip a)) as [i|]; [|discriminate].
  unfold Model.exec in H. destruct (decode i) as [d|e]; [|discriminate].
  pose proof (exec_d_nd d a (trc name a g i) Hn) as Hs.
  destruct (exec_d d a (trc name a g i)) as [a1 g1|off a1 g1|l a1 g1|off k a1 g1|a1 g1| | |e]; cbn [sres_nd] in Hs; try discriminate.
  - injection H as _ <-. exact Hs.
  - destruct (goto (length code) (a_ip a1) off); [|discriminate]. injection H as _ <-. exact Hs.
  - injection H as _ <-. constructor; [constructor|exact Hs].
  - destruct (goto (length code) (a_ip a1) off); [|discriminate].
    destruct (pop_frames k g1) as [g2|] eqn:E; [|discriminate]. injection H as _ <-. eapply nd_pop_frames; eassumption.
  - destruct (a_ss a1); [injection H as _ <-; exact Hs|].
    destruct (pop_frame g1) as [g2|] eqn:E; [|discriminate]. injection H as _ <-.
    apply (nd_pop_frames 1 g1 g2); [cbn [pop_frames]; now rewrite E|exact Hs].
Qed.

Lemma xsteps_nd : forall name code n a g a' g', xsteps name code n (Running a g) = Running a' g' ->
  frames_nd (frames g) -> frames_nd (frames g').
Proof.
  intros name code. induction n as [|n IH]; intros a g a' g' H Hn; [injection H as _ <-; exact Hn|].
  cbn [xsteps] in H. destruct (xstep name code a g) as [a1 g1|e1 g1|] eqn:E.
  - eapply IH; [exact H|]. eapply xstep_nd; eassumption.
  - now rewrite xsteps_stop_failed in H.
  - now rewrite xsteps_stop_escaped in H.
Qed.

Lemma xreach_nd : forall name code a g a' g', xreach name code (Running a g) (Running a' g') ->
  frames_nd (frames g) -> frames_nd (frames g').
Proof. intros name code a g a' g' [n H]. eapply xsteps_nd. exact H. Qed.

Lemma loop_mono : forall rc (callee callee' : str -> list value -> option (list (str * N)) -> gstate -> rres) name code,
  (forall d av cb g r, callee d av cb g = r -> r <> RFuel -> callee' d av cb g = r) ->
  forall f a g r, loop rc callee name code f a g = r -> r <> RFuel ->
  forall j, loop rc callee' name code (f + j) a g = r.
Proof.
  intros rc callee callee' name code Hc. induction f as [|f IH]; intros a g r H Hr j; [cbn in H; congruence|].
  cbn [Nat.add loop] in *. destruct (nth_error code (a_ip a)) as [i|]; [|exact H].
  destruct (Model.exec i a _) as [a1 g1|off a1 g1|l a1 g1|off k a1 g1|a1 g1|rv a1 g1|dest cb argv a1 g1|e]; try exact H.
  - now apply IH.
  - destruct (goto (length code) (a_ip a1) off); [now apply IH|exact H].
  - now apply IH.
  - destruct (goto (length code) (a_ip a1) off); [|exact H]. destruct (pop_frames k g1); [now apply IH|exact H].
  - destruct (a_ss a1); [now apply IH|]. destruct (pop_frame g1); [now apply IH|exact H].
  - destruct (callee dest argv cb g1) as [rv g2|e g2|] eqn:E.
    + rewrite (Hc _ _ _ _ _ E ltac:(discriminate)). destruct (negb _); [exact H|now apply IH].
    + rewrite (Hc _ _ _ _ _ E ltac:(discriminate)). exact H.
    + congruence.
Qed.

Lemma run_fn_gen_mono : forall rc p f name argv cb g r, run_fn_gen rc f p name argv cb g = r -> r <> RFuel ->
  forall j, run_fn_gen rc (f + j) p name argv cb g = r.
Proof.
  intros rc p. induction f as [|f IH]; intros name argv cb g r H Hr j; [cbn in H; congruence|].
  cbn [Nat.add]. rewrite run_fn_gen_S in *. destruct (assoc name p) as [code|]; [|exact H].
  eapply loop_mono; [|exact H|exact Hr]. intros d av cb0 g0 r0 E Hr0. now apply IH.
Qed.

Lemma run_fn_mono : forall p f f' name argv cb g r, run_fn f p name argv cb g = r -> r <> RFuel -> f <= f' ->
  run_fn f' p name argv cb g = r.
Proof.
  intros p f f' name argv cb g r H Hr Hle. replace f' with (f + (f' - f)) by lia. now apply run_fn_gen_mono.
Qed.

(* the arity check of run_fn (Vm/Model.v: run_fn = run_fn_gen rcT) *)
Definition rcT : str -> nat -> bool -> bool := fun _ _ _ => true.

Lemma loop_call : forall callee name code k a g i d dest cb argv a1 g1,
  nth_error code (a_ip a) = Some i -> decode i = DOk d -> exec_d d a (trc name a g i) = SCall dest cb argv a1 g1 ->
  loop rcT callee name code (S k) a g =
  match callee dest argv cb g1 with
  | RDone rv g2 => loop rcT callee name code k (next_act a1 rv) g2
  | RFail e g2 => RFail e g2
  | RFuel => RFuel
  end.
Proof.
  intros callee name code k a g i d dest cb argv a1 g1 Hi Hd He. cbn [loop]. rewrite Hi. unfold Model.exec. rewrite Hd.
  fold (trc name a g i). now rewrite He.
Qed.

Lemma xrun_loop : forall p name code a g a' g', xrun p name code a g a' g' ->
  exists N n, forall f0, N <= f0 -> forall k,
    loop rcT (run_fn f0 p) name code (n + k) a g = loop rcT (run_fn f0 p) name code k a' g'.
Proof.
  intros p name code a g a' g' H. induction H as [a g|a g a1 g1 a' g' Hs _ IH|a g i d dest cb argv a1 g1 fuel rv g2 a' g' Hi Hd He Hr _ IH].
  - exists 0, 0. intros f0 _ k. reflexivity.
  - destruct IH as (N & n & IH). exists N, (S n). intros f0 Hf k.
    pose proof (xstep_loop name code rcT (run_fn f0 p) (n + k) a g) as H1. rewrite Hs in H1.
    change (S n + k) with (S (n + k)). rewrite H1. now apply IH.
  - destruct IH as (N & n & IH). exists (Nat.max fuel N), (S n). intros f0 Hf k.
    change (S n + k) with (S (n + k)). rewrite (loop_call _ _ _ _ _ _ _ _ _ _ _ _ _ Hi Hd He).
    rewrite (run_fn_mono p fuel f0 dest argv cb g1 _ Hr ltac:(discriminate) ltac:(lia)). apply IH. lia.
Qed.

Lemma xfail_loop : forall p name code a g e g', xfail p name code a g e g' ->
  exists N n, forall f0, N <= f0 -> forall k, loop rcT (run_fn f0 p) name code (n + k) a g = RFail e g'.
Proof.
  intros p name code a g e g' (a1 & g1 & Hr & Hf).
  destruct (xrun_loop _ _ _ _ _ _ _ Hr) as (N & n & Hrun).
  destruct Hf as [Hf|(i & d & dest & cb & argv & a2 & g2 & fuel & Hi & Hd & He & Hc)].
  - exists N, (n + 1). intros f0 Hf0 k. rewrite <- Nat.add_assoc, (Hrun f0 Hf0).
    pose proof (xstep_loop name code rcT (run_fn f0 p) k a1 g1) as H1. rewrite Hf in H1. exact H1.
  - exists (Nat.max fuel N), (n + 1). intros f0 Hf0 k. rewrite <- Nat.add_assoc, (Hrun f0 ltac:(lia)).
    change (1 + k) with (S k). rewrite (loop_call _ _ _ _ _ _ _ _ _ _ _ _ _ Hi Hd He).
    now rewrite (run_fn_mono p fuel f0 dest argv cb g2 _ Hc ltac:(discriminate) ltac:(lia)).
Qed.

Lemma run_fn_S : forall prog name code argv cb g f0, assoc name prog = Some code ->
  run_fn (S f0) prog name argv cb g =
  loop rcT (run_fn f0 prog) name code f0 (act0 name argv cb) (push_frame g (LFun name)).
Proof. intros prog name code argv cb g f0 Hc. unfold run_fn. now rewrite run_fn_gen_S, Hc. Qed.

Lemma run_fn_finish : forall prog name code argv cb g a' g' R,
  assoc name prog = Some code ->
  xrun prog name code (act0 name argv cb) (push_frame g (LFun name)) a' g' ->
  (forall f0 k, loop rcT (run_fn f0 prog) name code (S k) a' g' = R) ->
  exists fuel', run_fn fuel' prog name argv cb g = R.
Proof.
  intros prog name code argv cb g a' g' R Hc Hx Hfin.
  destruct (xrun_loop _ _ _ _ _ _ _ Hx) as (N & n & Hloop).
  exists (S (Nat.max N (n + 1))). rewrite (run_fn_S _ _ _ _ _ _ _ Hc).
  replace (Nat.max N (n + 1)) with (n + S (Nat.max N (n + 1) - n - 1)) at 2 by lia.
  rewrite Hloop by lia. apply Hfin.
Qed.

Lemma run_fn_fail : forall prog name code argv cb g e g',
  assoc name prog = Some code ->
  xfail prog name code (act0 name argv cb) (push_frame g (LFun name)) e g' ->
  exists fuel', run_fn fuel' prog name argv cb g = RFail e g'.
Proof.
  intros prog name code argv cb g e g' Hc Hx.
  destruct (xfail_loop _ _ _ _ _ _ _ Hx) as (N & n & Hloop).
  exists (S (Nat.max N n)). rewrite (run_fn_S _ _ _ _ _ _ _ Hc).
  replace (Nat.max N n) with (n + (Nat.max N n - n)) at 2 by lia. apply Hloop. lia.
Qed.

Lemma loop_ret : forall rc callee name code k a g i d rv a1 g1,
  nth_error code (a_ip a) = Some i -> decode i = DOk d -> exec_d d a (trc name a g i) = SRet rv a1 g1 ->
  loop rc callee name code (S k) a g = RDone rv (with_frames g1 (drop_to_function (frames g1))).
Proof.
  intros rc callee name code k a g i d rv a1 g1 Hi Hd He. cbn [loop]. rewrite Hi. unfold Model.exec. rewrite Hd.
  fold (trc name a g i). now rewrite He.
Qed.
Lemma run_fn_ret : forall prog name code argv cb g a' g' i d rv a1 g1,
  assoc name prog = Some code ->
  xrun prog name code (act0 name argv cb) (push_frame g (LFun name)) a' g' ->
  nth_error code (a_ip a') = Some i -> decode i = DOk d -> exec_d d a' (trc name a' g' i) = SRet rv a1 g1 ->
  exists fuel', run_fn fuel' prog name argv cb g = RDone rv (with_frames g1 (drop_to_function (frames g1))).
Proof.
  intros prog name code argv cb g a' g' i d rv a1 g1 Hc Hx Hi Hd He. eapply run_fn_finish; [exact Hc|exact Hx|].
  intros f0 k. exact (loop_ret _ _ _ _ _ _ _ _ _ _ _ _ Hi Hd He).
Qed.

Lemma loop_falloff : forall rc callee name code k a g g', nth_error code (a_ip a) = None -> pop_frame g = Some g' ->
  loop rc callee name code (S k) a g = RDone None g'.
Proof. intros rc callee name code k a g g' Hi Hp. cbn [loop]. now rewrite Hi, Hp. Qed.
Lemma run_fn_falloff : forall prog name code argv cb g a' g' g'',
  assoc name prog = Some code ->
  xrun prog name code (act0 name argv cb) (push_frame g (LFun name)) a' g' ->
  nth_error code (a_ip a') = None -> pop_frame g' = Some g'' ->
  exists fuel', run_fn fuel' prog name argv cb g = RDone None g''.
Proof.
  intros prog name code argv cb g a' g' g'' Hc Hx Hi Hp. eapply run_fn_finish; [exact Hc|exact Hx|].
  intros f0 k. exact (loop_falloff _ _ _ _ _ _ _ _ Hi Hp).
Qed.
