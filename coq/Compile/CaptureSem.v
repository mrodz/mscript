(* C07, semantic reading of the capture list: it is all a function can observe of its defining scopes.  In the reference
   semantics Lang/Eval.v a closure captures the WHOLE visible environment `locals e ++ captured e`; for bodies without
   call, self-call or function literal, two captured environments that agree on `free_vars ps body` give the same result
   of the call, so restricting the environment to that list changes nothing.
   WfS / WfB carry two rules the compiler enforces anyway: `modify x` only for an x that is not a local of the function
   (assignment.rs: "`x` is a variable of this function, not one captured from an enclosing function: `modify` does not
   apply"; necessary: `modify_of_local_needs_side_condition`), and a counter declared fresh (collide = false) is not
   already a local.
   Without calls in the body values stay first-order during the call, so "same result" is plain equality; with them one
   needs a step-indexed relation between closure values (not done). *)
From MS Require Import Vm.Model Lang.Syntax Compile.Compile Compile.ExprBase Compile.ExprSim Compile.CaptureSpec Lang.Eval.
From Coq Require Import Lia.
Open Scope nat_scope.

(* the local functions of Eval.exec (`ev`, `in_block`, the `iter` and `bump` of a from loop) and of Eval.eval (`evals`,
   `call_clos`) as definitions of their own *)
Definition evS (r : eres) (k : rvalue -> rstate -> sres_) : sres_ :=
  match r with
  | EVal v s => k v s | ENoVal s => SFailed (FType 3) s | EFail f s => SFailed f s | EFuel => SFuel end.

Definition in_block (fuel : nat) (body : list stmt) (e : fenv) (s : rstate) : sres_ :=
  match exec_block fuel (push_scope e) body s with
  | SOk g e s => SOk g (pop_scope e) s | r => r end.

Definition on_ok (r : sres_) (k : signal -> fenv -> rstate -> sres_) : sres_ :=
  match r with SOk g e s => k g e s | SFailed f s => SFailed f s | SFuel => SFuel end.

Definition cname_of (name : option str) : str := match name with Some x => x | None => [0%N] end.
Definition fin_ (collide : bool) (cname : str) (e : fenv) : fenv := if collide then e else undeclare e cname.

Definition bump_ (k : fenv -> rstate -> sres_) (c : N) (e : fenv) (sv : rvalue) (s : rstate) : sres_ :=
  match sget s c, sv with
  | Some (RInt i'), RInt d => if i32_ok (i' + d) then k e (sset s c (RInt (i' + d))) else SFailed FOverflow s
  | _, _ => SFailed (FType 13) s end.
Definition step_ (fuel : nat) (step : option expr) (k : fenv -> rstate -> sres_) (c : N) (e : fenv) (s : rstate) : sres_ :=
  match step with
  | None => bump_ k c e (RInt 1) s
  | Some se => match eval fuel e se s with
               | EVal sv s => bump_ k c e sv s | ENoVal s => SFailed (FType 3) s
               | EFail f s => SFailed f s | EFuel => SFuel end
  end.

Definition from_iter (fuel : nat) (incl : bool) (hi : Z) (cname : str) (collide : bool)
  (step : option expr) (body : list stmt) : nat -> fenv -> rstate -> sres_ :=
  fix iter (n : nat) (e : fenv) (s : rstate) : sres_ :=
    match n with O => SFuel | S n =>
    match lookup_scopes cname (locals e) with
    | None => SFailed (FUnbound cname) s
    | Some c =>
      match sget s c with
      | Some (RInt i) =>
        if (if incl then i <=? hi else i <? hi)%Z then
          match in_block fuel body e s with
          | SOk (SigNormal | SigContinue) e s => step_ fuel step (iter n) c e s
          | SOk SigBreak e s => SOk SigNormal (fin_ collide cname e) s
          | SOk g e s => SOk g (fin_ collide cname e) s
          | r => r end
        else SOk SigNormal (fin_ collide cname e) s
      | _ => SFailed (FType 13) s end
    end end.

Definition eval_args (fuel : nat) (e : fenv) : list expr -> rstate -> list rvalue -> (list rvalue * rstate) + eres :=
  fix evals (l : list expr) (s : rstate) (acc : list rvalue) : (list rvalue * rstate) + eres :=
    match l with
    | [] => inl (rev acc, s)
    | a :: l => match eval fuel e a s with
                | EVal v s => evals l s (v :: acc)
                | ENoVal s => inr (EFail (FType 3) s)
                | r => inr r end
    end.

Definition call_closure (fuel : nat) (f : rvalue) (vs : list rvalue) (s : rstate) : eres :=
  match f with
  | RClos ps body cenv =>
    match bind_params ps vs s [] with
    | None => EFail (FType 4) s
    | Some (sc, s) =>
      match exec_block fuel {| locals := [sc]; captured := cenv; cur := Some f |} body s with
      | SOk (SigReturn (Some v)) _ s => EVal v s
      | SOk _ _ s => ENoVal s
      | SFailed f s => EFail f s
      | SFuel => EFuel end
    end
  | _ => EFail (FType 5) s end.

Lemma eval_S_Call : forall fuel e f l s, eval (S fuel) e (ECall f l) s =
  match eval fuel e f s with
  | EVal vf s => match eval_args fuel e l s [] with
                 | inl (vs, s) => call_closure fuel vf vs s
                 | inr r => r end
  | ENoVal s => EFail (FType 3) s | r => r end.
Proof. reflexivity. Qed.
Lemma eval_S_Fn : forall fuel e ps body s,
  eval (S fuel) e (EFn ps body) s = EVal (RClos ps body (locals e ++ captured e)) s.
Proof. reflexivity. Qed.
Lemma exec_S_Assign : forall fuel e x v s, exec (S fuel) e (SAssign x v) s =
  evS (eval fuel e v s) (fun v s => let '(e, s) := assign e s x v in SOk SigNormal e s).
Proof. reflexivity. Qed.
Lemma exec_S_Modify : forall fuel e x v s, exec (S fuel) e (SModify x v) s =
  evS (eval fuel e v s) (fun v s => match lookup_scopes x (captured e) with
                                    | Some c => SOk SigNormal e (sset s c v)
                                    | None => SFailed (FUnbound x) s end).
Proof. reflexivity. Qed.
Lemma exec_S_OpAssign : forall fuel e x o v s, exec (S fuel) e (SOpAssign x o v) s =
  evS (eval fuel e v s) (fun v s =>
      match lookup_scopes x (locals e ++ captured e) with
      | Some c => match sget s c with
                  | Some cur_ => match binop_sem o cur_ v s with
                                 | EVal r s => SOk SigNormal e (sset s c r)
                                 | EFail f s => SFailed f s | _ => SFailed (FType 9) s end
                  | None => SFailed (FUnbound x) s end
      | None => SFailed (FUnbound x) s end).
Proof. reflexivity. Qed.
Lemma exec_S_Print : forall fuel e v s, exec (S fuel) e (SPrint v) s =
  evS (eval fuel e v s) (fun v s => match rshow v with
                                    | Some l => SOk SigNormal e (sprint s l) | None => SFailed (FType 10) s end).
Proof. reflexivity. Qed.
Lemma exec_S_Assert : forall fuel e v sp s, exec (S fuel) e (SAssert v sp) s =
  evS (eval fuel e v s) (fun v s => match v with
                                    | RBool true => SOk SigNormal e s
                                    | RBool false => SFailed (FAssert sp) s
                                    | _ => SFailed (FType 11) s end).
Proof. reflexivity. Qed.
Lemma exec_S_Expr : forall fuel e v s, exec (S fuel) e (SExpr v) s =
  match eval fuel e v s with
  | EVal _ s | ENoVal s => SOk SigNormal e s | EFail f s => SFailed f s | EFuel => SFuel end.
Proof. reflexivity. Qed.
Definition if_k (e : fenv) (yes no : fenv -> rstate -> sres_) (v : rvalue) (s : rstate) : sres_ :=
  match v with
  | RBool true => yes e s
  | RBool false => no e s
  | _ => SFailed (FType 12) s end.
Lemma exec_S_If : forall fuel e c body s, exec (S fuel) e (SIf c body) s =
  evS (eval fuel e c s) (if_k e (in_block fuel body) (SOk SigNormal)).
Proof. reflexivity. Qed.
Lemma exec_S_IfElse : forall fuel e c body els s, exec (S fuel) e (SIfElse c body els) s =
  evS (eval fuel e c s) (if_k e (in_block fuel body) (in_block fuel els)).
Proof. reflexivity. Qed.
Lemma exec_S_IfElif : forall fuel e c body nxt s, exec (S fuel) e (SIfElif c body nxt) s =
  evS (eval fuel e c s) (if_k e (in_block fuel body) (in_block fuel [nxt])).
Proof. reflexivity. Qed.
Lemma exec_S_While : forall fuel e c body s, exec (S fuel) e (SWhile c body) s =
  evS (eval fuel e c s) (fun v s => match v with
                       | RBool false => SOk SigNormal e s
                       | RBool true =>
                         match in_block fuel body e s with
                         | SOk (SigNormal | SigContinue) e s => exec fuel e (SWhile c body) s
                         | SOk SigBreak e s => SOk SigNormal e s
                         | r => r end
                       | _ => SFailed (FType 12) s end).
Proof. reflexivity. Qed.
Lemma exec_S_From : forall fuel e a b incl step name collide body s,
  exec (S fuel) e (SFrom a b incl step name collide body) s =
  evS (eval fuel e a s) (fun va s => evS (eval fuel e b s) (fun vb s =>
      match va, vb with
      | RInt _, RInt hi =>
        let '(e, s) := (if collide then assign e s (cname_of name) va else declare e s (cname_of name) va) in
        from_iter fuel incl hi (cname_of name) collide step body fuel e s
      | _, _ => SFailed (FType 13) s end)).
Proof. reflexivity. Qed.
Lemma exec_S_Return : forall fuel e v s, exec (S fuel) e (SReturn (Some v)) s =
  evS (eval fuel e v s) (fun v s => SOk (SigReturn (Some v)) e s).
Proof. reflexivity. Qed.
Lemma exec_block_S_cons : forall fuel e st l s, exec_block (S fuel) e (st :: l) s =
  match exec fuel e st s with
  | SOk SigNormal e s => exec_block fuel e l s
  | r => r end.
Proof. reflexivity. Qed.

Lemma from_iter_S : forall fuel incl hi cname collide step body n e s,
  from_iter fuel incl hi cname collide step body (S n) e s =
    match lookup_scopes cname (locals e) with
    | None => SFailed (FUnbound cname) s
    | Some c =>
      match sget s c with
      | Some (RInt i) =>
        if (if incl then i <=? hi else i <? hi)%Z then
          match in_block fuel body e s with
          | SOk (SigNormal | SigContinue) e s =>
            step_ fuel step (from_iter fuel incl hi cname collide step body n) c e s
          | SOk SigBreak e s => SOk SigNormal (fin_ collide cname e) s
          | SOk g e s => SOk g (fin_ collide cname e) s
          | r => r end
        else SOk SigNormal (fin_ collide cname e) s
      | _ => SFailed (FType 13) s end
    end.
Proof. reflexivity. Qed.

Inductive WfS : list str -> stmt -> Prop :=
| W_Assign : forall bd x e, pure e = true -> WfS bd (SAssign x e)
| W_Modify : forall bd x e, pure e = true -> ~ In x bd -> WfS bd (SModify x e)
| W_OpAssign : forall bd x o e, pure e = true -> WfS bd (SOpAssign x o e)
| W_Print : forall bd e, pure e = true -> WfS bd (SPrint e)
| W_Assert : forall bd e sp, pure e = true -> WfS bd (SAssert e sp)
| W_Expr : forall bd e, pure e = true -> WfS bd (SExpr e)
| W_If : forall bd c b, pure c = true -> WfB bd b -> WfS bd (SIf c b)
| W_IfElse : forall bd c b e, pure c = true -> WfB bd b -> WfB bd e -> WfS bd (SIfElse c b e)
| W_IfElif : forall bd c b n, pure c = true -> WfB bd b -> WfS bd n -> WfS bd (SIfElif c b n)
| W_While : forall bd c b, pure c = true -> WfB bd b -> WfS bd (SWhile c b)
| W_From : forall bd a b incl step name collide body,
    pure a = true -> pure b = true -> (forall e, step = Some e -> pure e = true) ->
    (collide = false -> ~ In (cname_of name) bd) ->
    WfB (counter_scope name bd) body ->
    WfS bd (SFrom a b incl step name collide body)
| W_Break : forall bd, WfS bd SBreak
| W_Continue : forall bd, WfS bd SContinue
| W_Return : forall bd r, (forall e, r = Some e -> pure e = true) -> WfS bd (SReturn r)
with WfB : list str -> list stmt -> Prop :=
| WB_nil : forall bd, WfB bd []
| WB_cons : forall bd s l, WfS bd s -> WfB (binds s ++ bd) l -> WfB bd (s :: l).

Lemma binds_other : forall s, (forall x e, s <> SAssign x e) -> binds s = [].
Proof. intros s H. destruct s; try reflexivity. exfalso. exact (H x e eq_refl). Qed.

Lemma str_dec : forall a b : str, a = b \/ a <> b.
Proof.
  intros a b. destruct (str_eqb a b) eqn:E; [left; now apply str_eqb_eq|right].
  intros ->. rewrite str_eqb_refl in E. discriminate.
Qed.

Lemma assoc_del_other : forall {A} x y (sc : list (str * A)), x <> y -> assoc y (assoc_del x sc) = assoc y sc.
Proof.
  intros A x y sc Hne. induction sc as [|[k v] sc IH]; cbn [assoc_del assoc]; [reflexivity|].
  destruct (str_eqb k x) eqn:E.
  - apply str_eqb_eq in E. subst k. now rewrite (str_eqb_neq x y Hne).
  - cbn [assoc]. destruct (str_eqb k y); [reflexivity|exact IH].
Qed.

Lemma lookup_app : forall x l1 l2, lookup_scopes x (l1 ++ l2) =
  match lookup_scopes x l1 with Some c => Some c | None => lookup_scopes x l2 end.
Proof.
  intros x l1 l2. induction l1 as [|sc l1 IH]; cbn [app lookup_scopes]; [reflexivity|].
  destruct (assoc x sc); [reflexivity|exact IH].
Qed.

Section TwoRuns.
Variable c1 c2 : list scope.                    (* the two captured environments *)

Definition R (x : str) : Prop := lookup_scopes x c1 = lookup_scopes x c2.

Definition Keeps (bd : list str) (e : fenv) : Prop :=
  forall y, In y bd -> lookup_scopes y (locals e) <> None.

(* same locals; the static `bound` names are really local at run time *)
Definition Rel (bd : list str) (e1 e2 : fenv) : Prop :=
  locals e1 = locals e2 /\ captured e1 = c1 /\ captured e2 = c2 /\ Keeps bd e1.

Definition SameS (Pe : fenv -> fenv -> Prop) (r1 r2 : sres_) : Prop :=
  match r1, r2 with
  | SOk g1 e1 s1, SOk g2 e2 s2 => g1 = g2 /\ s1 = s2 /\ Pe e1 e2
  | SFailed f1 s1, SFailed f2 s2 => f1 = f2 /\ s1 = s2
  | SFuel, SFuel => True
  | _, _ => False end.

(* a statement changes the innermost scope of the locals only: the enclosing ones, T, are carried along, so that a
   block, whose own scope is popped at its end, is back at the locals it started from *)
Definition Post (bd : list str) (T : list scope) (e1 e2 : fenv) : Prop :=
  Rel bd e1 e2 /\ tl (locals e1) = T.
Definition RelS (bd : list str) (T : list scope) : sres_ -> sres_ -> Prop := SameS (Post bd T).

Lemma SameS_fail : forall Pe f s, SameS Pe (SFailed f s) (SFailed f s).
Proof. intros. cbn. auto. Qed.
Lemma SameS_evS : forall Pe r k1 k2,
  (forall v s, SameS Pe (k1 v s) (k2 v s)) -> SameS Pe (evS r k1) (evS r k2).
Proof. intros Pe r k1 k2 H. destruct r; cbn [evS]; [apply H|apply SameS_fail|apply SameS_fail|exact Logic.I]. Qed.
Lemma SameS_on_ok : forall (P Q : fenv -> fenv -> Prop) r1 r2 k1 k2,
  SameS P r1 r2 -> (forall g f1 f2 s, P f1 f2 -> SameS Q (k1 g f1 s) (k2 g f2 s)) ->
  SameS Q (on_ok r1 k1) (on_ok r2 k2).
Proof.
  intros P Q r1 r2 k1 k2 H Hk. destruct r1, r2; cbn [SameS on_ok] in *; try contradiction; try exact H.
  destruct H as (<- & <- & H). now apply Hk.
Qed.
Lemma SameS_mono : forall (P Q : fenv -> fenv -> Prop) r1 r2,
  (forall e1 e2, P e1 e2 -> Q e1 e2) -> SameS P r1 r2 -> SameS Q r1 r2.
Proof.
  intros P Q r1 r2 H. destruct r1, r2; cbn; auto. intros (A & B & C). auto.
Qed.

Lemma RelS_intro : forall bd T g e1 e2 s, Post bd T e1 e2 -> RelS bd T (SOk g e1 s) (SOk g e2 s).
Proof. intros bd T g e1 e2 s H. split; [reflexivity|]. split; [reflexivity|exact H]. Qed.
Lemma RelS_ok : forall bd g e1 e2 s, Rel bd e1 e2 -> RelS bd (tl (locals e1)) (SOk g e1 s) (SOk g e2 s).
Proof. intros bd g e1 e2 s H. apply RelS_intro. split; [exact H|reflexivity]. Qed.

Lemma Rel_weaken : forall bd bd' e1 e2, (forall y, In y bd -> In y bd') -> Rel bd' e1 e2 -> Rel bd e1 e2.
Proof. intros bd bd' e1 e2 Hi (A & B & C & D). repeat split; auto. intros y Hy. apply D. auto. Qed.
Lemma RelS_weaken : forall bd bd' T r1 r2, (forall y, In y bd -> In y bd') -> RelS bd' T r1 r2 -> RelS bd T r1 r2.
Proof.
  intros bd bd' T r1 r2 Hi. apply SameS_mono. intros e1 e2 [H1 H2]. split; [exact (Rel_weaken _ _ _ _ Hi H1)|exact H2].
Qed.

Lemma Rel_locals : forall bd e1 e2 e1' e2',
  Rel bd e1 e2 -> locals e1' = locals e1 -> locals e2' = locals e2 ->
  captured e1' = c1 -> captured e2' = c2 -> Rel bd e1' e2'.
Proof.
  intros bd e1 e2 e1' e2' (A & B & C & D) H1 H2 H3 H4. repeat split; auto; try congruence.
  intros y Hy. rewrite H1. now apply D.
Qed.

Lemma lookup_env_eq : forall bd e1 e2 x, Rel bd e1 e2 -> (~ In x bd -> R x) ->
  lookup_scopes x (locals e1 ++ captured e1) = lookup_scopes x (locals e2 ++ captured e2).
Proof.
  intros bd e1 e2 x (A & B & C & D) H. rewrite !lookup_app, <- A, B, C.
  destruct (lookup_scopes x (locals e1)) eqn:E; [reflexivity|].
  apply H. intros Hin. exact (D x Hin E).
Qed.

(* call-free expressions: no fuel-indexed hypothesis is needed *)
Lemma eval_rel : forall x, pure x = true -> forall fuel bd e1 e2 s, Rel bd e1 e2 -> (forall y, FreeE bd x y -> R y) ->
  eval fuel e1 x s = eval fuel e2 x s.
Proof.
  induction x; intros Hp fuel bd e1 e2 st HR Hfree; cbn [pure] in Hp; try discriminate;
    try (apply Bool.andb_true_iff in Hp as [Hp1 Hp2]); (destruct fuel as [|fuel]; [reflexivity|]); try reflexivity.
  - rewrite !eval_EVar, (lookup_env_eq bd e1 e2 x HR); [reflexivity|]. intros Hn. apply Hfree. now apply FE_Var.
  - rewrite !eval_EBin, (IHx1 Hp1 fuel bd e1 e2 st HR (fun y H => Hfree y (FE_BinL _ _ _ _ _ H))).
    destruct (eval fuel e2 x1 st) as [va s'|s'|f s'|]; try reflexivity.
    rewrite (IHx2 Hp2 fuel bd e1 e2 s' HR (fun y H => Hfree y (FE_BinR _ _ _ _ _ H))). reflexivity.
  - rewrite !eval_EAnd, (IHx1 Hp1 fuel bd e1 e2 st HR (fun y H => Hfree y (FE_AndL _ _ _ _ H))).
    destruct (eval fuel e2 x1 st) as [[z|[|]|t| |ps0 b0 env0] s'|s'|f s'|]; try reflexivity.
    rewrite (IHx2 Hp2 fuel bd e1 e2 s' HR (fun y H => Hfree y (FE_AndR _ _ _ _ H))). reflexivity.
  - rewrite !eval_EOr, (IHx1 Hp1 fuel bd e1 e2 st HR (fun y H => Hfree y (FE_OrL _ _ _ _ H))).
    destruct (eval fuel e2 x1 st) as [[z|[|]|t| |ps0 b0 env0] s'|s'|f s'|]; try reflexivity.
    rewrite (IHx2 Hp2 fuel bd e1 e2 s' HR (fun y H => Hfree y (FE_OrR _ _ _ _ H))). reflexivity.
  - rewrite !eval_ENot, (IHx Hp fuel bd e1 e2 st HR (fun y H => Hfree y (FE_Not _ _ _ H))). reflexivity.
  - rewrite !eval_ENeg, (IHx Hp fuel bd e1 e2 st HR (fun y H => Hfree y (FE_Neg _ _ _ H))). reflexivity.
  - rewrite !eval_ENilOr, (IHx1 Hp1 fuel bd e1 e2 st HR (fun y H => Hfree y (FE_NilOrL _ _ _ _ H))).
    destruct (eval fuel e2 x1 st) as [[z|[|]|t| |ps0 b0 env0] s'|s'|f s'|]; try reflexivity.
    exact (IHx2 Hp2 fuel bd e1 e2 s' HR (fun y H => Hfree y (FE_NilOrR _ _ _ _ H))).
  - rewrite !eval_EGet, (IHx Hp fuel bd e1 e2 st HR (fun y H => Hfree y (FE_Get _ _ _ _ H))). reflexivity.
Qed.

Lemma evS_rel : forall fuel x bd e1 e2 s Pe k1 k2,
  pure x = true -> Rel bd e1 e2 -> (forall y, FreeE bd x y -> R y) ->
  (forall v s', SameS Pe (k1 v s') (k2 v s')) -> SameS Pe (evS (eval fuel e1 x s) k1) (evS (eval fuel e2 x s) k2).
Proof. intros fuel x bd e1 e2 s Pe k1 k2 Hp HR Hfree Hk. rewrite (eval_rel x Hp fuel bd e1 e2 s HR Hfree). now apply SameS_evS. Qed.

Lemma declare_rel : forall bd e1 e2 s x v, Rel bd e1 e2 ->
  snd (declare e1 s x v) = snd (declare e2 s x v)
  /\ Rel (x :: bd) (fst (declare e1 s x v)) (fst (declare e2 s x v))
  /\ tl (locals (fst (declare e1 s x v))) = tl (locals e1).
Proof.
  intros bd [L1 C1 cu1] [L2 C2 cu2] s x v (A & B & C & D). cbn [locals captured] in *. subst L2 C1 C2.
  unfold Keeps in D. cbn [locals] in D.
  unfold declare, alloc. cbn [locals captured cur].
  destruct L1 as [|sc r]; cbn [fst snd locals captured tl].
  - split; [reflexivity|]. split; [|reflexivity]. repeat split; cbn [locals captured]; auto.
    intros y [<-|Hy]; cbn [locals lookup_scopes assoc].
    + rewrite str_eqb_refl. discriminate.
    + exfalso. exact (D y Hy eq_refl).
  - split; [reflexivity|]. split; [|reflexivity]. repeat split; cbn [locals captured]; auto.
    intros y Hy. cbn [locals lookup_scopes].
    destruct (str_dec x y) as [<-|Hne].
    + rewrite assoc_set_same. discriminate.
    + destruct Hy as [Hy|Hy]; [contradiction|]. rewrite assoc_set_other by congruence.
      exact (D y Hy).
Qed.

Lemma assign_rel : forall bd e1 e2 s x v, Rel bd e1 e2 ->
  snd (assign e1 s x v) = snd (assign e2 s x v)
  /\ Rel (x :: bd) (fst (assign e1 s x v)) (fst (assign e2 s x v))
  /\ tl (locals (fst (assign e1 s x v))) = tl (locals e1).
Proof.
  intros bd e1 e2 s x v HR. unfold assign. destruct HR as (A & B & C & D). rewrite <- A.
  destruct (lookup_scopes x (locals e1)) eqn:E.
  - cbn [fst snd]. split; [reflexivity|]. split; [|reflexivity]. repeat split; auto.
    intros y [<-|Hy]; [congruence|now apply D].
  - apply declare_rel. repeat split; auto.
Qed.

Lemma undeclare_rel : forall bd inner e1 e2 x,
  Rel inner e1 e2 -> (forall y, In y bd -> In y inner) -> ~ In x bd ->
  Rel bd (undeclare e1 x) (undeclare e2 x) /\ tl (locals (undeclare e1 x)) = tl (locals e1).
Proof.
  intros bd inner [L1 C1 cu1] [L2 C2 cu2] x (A & B & C & D) Hi Hx. cbn [locals captured] in *. subst L2 C1 C2.
  unfold Keeps in D. cbn [locals] in D. unfold undeclare. cbn [locals captured cur].
  destruct L1 as [|sc r]; cbn [locals captured tl].
  - split; [|reflexivity]. repeat split; auto. intros y Hy. cbn [locals]. apply D. auto.
  - split; [|reflexivity]. repeat split; auto. intros y Hy. cbn [locals lookup_scopes].
    assert (Hne : x <> y) by (intros ->; contradiction).
    rewrite (assoc_del_other x y sc Hne). exact (D y (Hi y Hy)).
Qed.

Lemma fin_rel : forall bd inner collide cname e1 e2,
  Rel inner e1 e2 -> (forall y, In y bd -> In y inner) -> (collide = false -> ~ In cname bd) ->
  Post bd (tl (locals e1)) (fin_ collide cname e1) (fin_ collide cname e2).
Proof.
  intros bd inner collide cname e1 e2 HR Hi Hc. unfold fin_, Post. destruct collide.
  - split; [exact (Rel_weaken _ _ _ _ Hi HR)|reflexivity].
  - exact (undeclare_rel bd inner e1 e2 cname HR Hi (Hc eq_refl)).
Qed.

Definition IS (fuel : nat) : Prop := forall st bd e1 e2, WfS bd st -> Rel bd e1 e2 ->
  (forall y, FreeS bd st y -> R y) ->
  forall s, RelS (binds st ++ bd) (tl (locals e1)) (exec fuel e1 st s) (exec fuel e2 st s).
Definition IB (fuel : nat) : Prop := forall l bd e1 e2, WfB bd l -> Rel bd e1 e2 ->
  (forall y, FreeBlock bd l y -> R y) ->
  forall s, RelS bd (tl (locals e1)) (exec_block fuel e1 l s) (exec_block fuel e2 l s).

Lemma Rel_push : forall bd e1 e2, Rel bd e1 e2 -> Rel bd (push_scope e1) (push_scope e2).
Proof.
  intros bd e1 e2 (A & B & C & D). unfold push_scope.
  split; [cbn [locals]; now rewrite A|]. split; [exact B|]. split; [exact C|].
  intros y Hy. cbn [locals lookup_scopes assoc]. now apply D.
Qed.

Lemma in_block_rel : forall fuel, IB fuel -> forall bd body e1 e2 s,
  WfB bd body -> Rel bd e1 e2 -> (forall y, FreeBlock bd body y -> R y) ->
  SameS (fun e1' e2' => Rel bd e1' e2' /\ locals e1' = locals e1)
        (in_block fuel body e1 s) (in_block fuel body e2 s).
Proof.
  intros fuel HB bd body e1 e2 s Hw HR Hfree.
  apply (SameS_on_ok _ _ _ _ _ _ (HB body bd _ _ Hw (Rel_push _ _ _ HR) Hfree s)).
  intros g f1 f2 s1 ((A' & B' & C' & D') & Ht). cbn [push_scope locals tl] in Ht.
  assert (L1 : locals (pop_scope f1) = locals e1) by exact Ht.
  split; [reflexivity|]. split; [reflexivity|]. split; [|exact L1].
  apply (Rel_locals bd e1 e2); [exact HR|exact L1| |exact B'|exact C'].
  unfold pop_scope; cbn [locals]. rewrite <- A', Ht. now destruct HR.
Qed.

Lemma in_block_post : forall fuel, IB fuel -> forall bd body e1 e2 s,
  WfB bd body -> Rel bd e1 e2 -> (forall y, FreeBlock bd body y -> R y) ->
  RelS bd (tl (locals e1)) (in_block fuel body e1 s) (in_block fuel body e2 s).
Proof.
  intros fuel HB bd body e1 e2 s Hw HR Hfree.
  eapply SameS_mono; [|exact (in_block_rel fuel HB bd body e1 e2 s Hw HR Hfree)].
  intros f1 f2 [H1 H2]. split; [exact H1|now rewrite H2].
Qed.

Section FromLoop.
  Variable fuel : nat.
  Hypothesis HB : IB fuel.
  Variables (bd inner : list str) (incl : bool) (hi : Z) (cname : str) (collide : bool)
            (step : option expr) (body : list stmt).
  Hypothesis Hincl : forall y, In y bd -> In y inner.
  Hypothesis Hcoll : collide = false -> ~ In cname bd.
  Hypothesis Hwf : WfB inner body.
  Hypothesis Hfree_body : forall y, FreeBlock inner body y -> R y.
  Hypothesis Hstep_pure : forall e, step = Some e -> pure e = true.
  Hypothesis Hfree_step : forall e y, step = Some e -> FreeE inner e y -> R y.

  Lemma bump_rel : forall T (k : fenv -> rstate -> sres_) c e1 e2 sv s,
    (forall s', RelS bd T (k e1 s') (k e2 s')) ->
    RelS bd T (bump_ k c e1 sv s) (bump_ k c e2 sv s).
  Proof.
    intros T k c e1 e2 sv s Hk. unfold bump_.
    destruct (sget s c) as [[z| | | |]|]; try apply SameS_fail.
    destruct sv; try apply SameS_fail.
    destruct (i32_ok (z + z0)); [apply Hk|apply SameS_fail].
  Qed.

  Lemma step_rel : forall T (k : fenv -> rstate -> sres_) c e1 e2 s,
    Rel inner e1 e2 ->
    (forall s', RelS bd T (k e1 s') (k e2 s')) ->
    RelS bd T (step_ fuel step k c e1 s) (step_ fuel step k c e2 s).
  Proof.
    intros T k c e1 e2 s HR Hk. unfold step_. destruct step as [se|] eqn:Est; [|now apply bump_rel].
    apply (evS_rel fuel se inner); [exact (Hstep_pure se eq_refl)|exact HR|exact (fun y => Hfree_step se y eq_refl)|].
    intros sv s'. now apply bump_rel.
  Qed.

  Lemma from_iter_rel : forall n e1 e2 s, Rel inner e1 e2 ->
    RelS bd (tl (locals e1)) (from_iter fuel incl hi cname collide step body n e1 s)
                             (from_iter fuel incl hi cname collide step body n e2 s).
  Proof.
    induction n as [|n IHn]; intros e1 e2 s HR; [exact Logic.I|].
    rewrite !from_iter_S.
    assert (HL : locals e2 = locals e1) by (destruct HR as (A & _); now rewrite A).
    rewrite HL.
    destruct (lookup_scopes cname (locals e1)) as [c|]; [|apply SameS_fail].
    destruct (sget s c) as [[i| | | |]|]; try apply SameS_fail.
    destruct (if incl then (i <=? hi)%Z else (i <? hi)%Z);
      [|apply RelS_intro; exact (fin_rel bd inner collide cname e1 e2 HR Hincl Hcoll)].
    apply (SameS_on_ok _ _ _ _ _ _ (in_block_rel fuel HB inner body e1 e2 s Hwf HR Hfree_body)).
    intros g f1 f2 s1 [HR' HL']. rewrite <- HL'.
    destruct g; first [apply step_rel; [exact HR'|]; intros s'; now apply IHn
                      |apply RelS_intro; exact (fin_rel bd inner collide cname f1 f2 HR' Hincl Hcoll)].
  Qed.
End FromLoop.

Lemma if_k_rel : forall bd e1 e2 (yes no : fenv -> rstate -> sres_) v s,
  (forall s, RelS bd (tl (locals e1)) (yes e1 s) (yes e2 s)) ->
  (forall s, RelS bd (tl (locals e1)) (no e1 s) (no e2 s)) ->
  RelS bd (tl (locals e1)) (if_k e1 yes no v s) (if_k e2 yes no v s).
Proof.
  intros bd e1 e2 yes no v s Hy Hn. unfold if_k.
  destruct v as [z|[|]|t| |ps0 b0 env0]; try apply SameS_fail; auto.
Qed.

Lemma setup_rel : forall bd e1 e2 s (collide : bool) x v, Rel bd e1 e2 ->
  exists e1' e2' s', (if collide then assign e1 s x v else declare e1 s x v) = (e1', s') /\
                     (if collide then assign e2 s x v else declare e2 s x v) = (e2', s') /\
                     Rel (x :: bd) e1' e2' /\ tl (locals e1') = tl (locals e1).
Proof.
  intros bd e1 e2 s collide x v HR.
  assert (H : let p1 := if collide then assign e1 s x v else declare e1 s x v in
              let p2 := if collide then assign e2 s x v else declare e2 s x v in
              snd p1 = snd p2 /\ Rel (x :: bd) (fst p1) (fst p2) /\ tl (locals (fst p1)) = tl (locals e1))
    by (destruct collide; [now apply assign_rel|now apply declare_rel]).
  cbv zeta in H. destruct (if collide then assign e1 s x v else declare e1 s x v) as [e1' s1'],
                          (if collide then assign e2 s x v else declare e2 s x v) as [e2' s2'].
  cbn [fst snd] in H. destruct H as (<- & H). now exists e1', e2', s1'.
Qed.

Lemma IS_step : forall fuel, IS fuel -> IB fuel -> IS (S fuel).
Proof.
  intros fuel HS HB st bd e1 e2 Hw HR Hfree s.
  inversion Hw; subst; cbn [binds app].
  - rewrite !exec_S_Assign. apply (evS_rel fuel e bd _ _ _ _ _ _ H HR (fun y Hy => Hfree y (FS_Assign _ _ _ _ Hy))). intros v s'.
    rewrite !let_pair. destruct (assign_rel bd e1 e2 s' x v HR) as (Es & HR' & Ht). rewrite <- Es.
    apply RelS_intro. split; [exact HR'|exact Ht].
  - rewrite !exec_S_Modify. apply (evS_rel fuel e bd _ _ _ _ _ _ H HR (fun y Hy => Hfree y (FS_ModifyRhs _ _ _ _ Hy))). intros v s'.
    (* the side condition of WfS: x is not a local, hence free, and both runs write the same captured cell *)
    assert (Hx : R x) by (apply Hfree; now apply FS_ModifyTarget).
    destruct HR as (A & B & C & D). rewrite B, C. unfold R in Hx. rewrite <- Hx.
    destruct (lookup_scopes x c1); [|apply SameS_fail].
    cbn. repeat split; auto.
  - rewrite !exec_S_OpAssign. apply (evS_rel fuel e bd _ _ _ _ _ _ H HR (fun y Hy => Hfree y (FS_OpAssignRhs _ _ _ _ _ Hy))). intros v s'.
    rewrite (lookup_env_eq bd e1 e2 x HR) by (intros Hn; apply Hfree; now apply FS_OpAssignTarget).
    destruct (lookup_scopes x (locals e2 ++ captured e2)) as [c|]; [|apply SameS_fail].
    destruct (sget s' c) as [cur_|]; [|apply SameS_fail].
    destruct (binop_sem o cur_ v s') as [r s''|s''|f s''|]; try apply SameS_fail. now apply RelS_ok.
  - rewrite !exec_S_Print. apply (evS_rel fuel e bd _ _ _ _ _ _ H HR (fun y Hy => Hfree y (FS_Print _ _ _ Hy))). intros v s'.
    destruct (rshow v); [now apply RelS_ok|apply SameS_fail].
  - rewrite !exec_S_Assert. apply (evS_rel fuel e bd _ _ _ _ _ _ H HR (fun y Hy => Hfree y (FS_Assert _ _ _ _ Hy))). intros v s'.
    destruct v as [z|[|]|t| |ps0 b0 env0]; try apply SameS_fail. now apply RelS_ok.
  - rewrite !exec_S_Expr, (eval_rel e H fuel bd e1 e2 s HR (fun y Hy => Hfree y (FS_Expr _ _ _ Hy))).
    destruct (eval fuel e2 e s) as [v s'|s'|f s'|]; first [now apply RelS_ok|apply SameS_fail|exact Logic.I].
  - rewrite !exec_S_If. apply (evS_rel fuel c bd _ _ _ _ _ _ H HR (fun y Hy => Hfree y (FS_IfCond _ _ _ _ Hy))). intros v s'.
    apply if_k_rel; intros s0; [|now apply RelS_ok]. apply in_block_post; auto. intros y Hy. now apply Hfree, FS_IfBody.
  - rewrite !exec_S_IfElse. apply (evS_rel fuel c bd _ _ _ _ _ _ H HR (fun y Hy => Hfree y (FS_IfElseCond _ _ _ _ _ Hy))). intros v s'.
    apply if_k_rel; intros s0; (apply in_block_post; auto; intros y Hy; apply Hfree); [now apply FS_IfElseThen|now apply FS_IfElseElse].
  - rewrite !exec_S_IfElif. apply (evS_rel fuel c bd _ _ _ _ _ _ H HR (fun y Hy => Hfree y (FS_IfElifCond _ _ _ _ _ Hy))). intros v s'.
    apply if_k_rel; intros s0; apply in_block_post; auto.
    + intros y Hy. now apply Hfree, FS_IfElifThen.
    + constructor; [assumption|constructor].
    + intros y Hy. apply Hfree, FS_IfElifNext.
      rewrite FreeBlock_cons_iff in Hy. destruct Hy as [Hy|Hy]; [exact Hy|now apply FreeBlock_nil in Hy].
  - rewrite !exec_S_While. apply (evS_rel fuel c bd _ _ _ _ _ _ H HR (fun y Hy => Hfree y (FS_WhileCond _ _ _ _ Hy))). intros v s'.
    destruct v as [z|[|]|t| |ps0 b0 env0]; try apply SameS_fail; [|now apply RelS_ok].
    apply (SameS_on_ok _ _ _ _ _ _ (in_block_rel fuel HB bd b e1 e2 s' H0 HR (fun y Hy => Hfree y (FS_WhileBody _ _ _ _ Hy)))).
    intros g f1 f2 s1 [HR' HL']. rewrite <- HL'.
    destruct g; first [exact (HS (SWhile c b) bd f1 f2 Hw HR' Hfree s1)|now apply RelS_ok].
  - rewrite !exec_S_From.
    apply (evS_rel fuel a bd _ _ _ _ _ _ H HR (fun y Hy => Hfree y (FS_FromLo _ _ _ _ _ _ _ _ _ Hy))). intros va s1.
    apply (evS_rel fuel b bd _ _ _ _ _ _ H0 HR (fun y Hy => Hfree y (FS_FromHi _ _ _ _ _ _ _ _ _ Hy))). intros vb s2.
    destruct va as [z1| | | |]; try apply SameS_fail. destruct vb as [hi| | | |]; try apply SameS_fail.
    destruct (setup_rel bd e1 e2 s2 collide (cname_of name) (RInt z1) HR) as (e1' & e2' & s' & -> & -> & HR' & Ht).
    rewrite <- Ht.
    apply (from_iter_rel fuel HB bd (counter_scope name bd)); auto.
    + intros y Hy. destruct name; cbn [counter_scope]; [now right|exact Hy].
    + intros y Hy. apply Hfree. now apply FS_FromBody.
    + intros se y -> Hy. apply Hfree. now apply FS_FromStep.
    + apply (Rel_weaken _ (cname_of name :: bd)); [|exact HR'].
      intros y Hy. destruct name as [c|]; cbn [counter_scope cname_of] in *; [exact Hy|now right].
  - now apply RelS_ok.
  - now apply RelS_ok.
  - destruct r as [v|]; [|now apply RelS_ok].
    rewrite !exec_S_Return. apply (evS_rel fuel v bd _ _ _ _ _ _ (H v eq_refl) HR (fun y Hy => Hfree y (FS_Return _ _ _ Hy))).
    intros rv s'. now apply RelS_ok.
Qed.

Lemma IB_step : forall fuel, IS fuel -> IB fuel -> IB (S fuel).
Proof.
  intros fuel HS HB l bd e1 e2 Hw HR Hfree s. destruct l as [|st l]; [now apply RelS_ok|].
  inversion Hw as [|? ? ? Hws Hwl]; subst. rewrite !exec_block_S_cons.
  apply (SameS_on_ok _ _ _ _ _ _ (HS st bd e1 e2 Hws HR (fun y Hy => Hfree y (FB_Here _ _ _ _ Hy)) s)).
  intros g f1 f2 s1 [HR' HT]. rewrite <- HT.
  apply (RelS_weaken bd (binds st ++ bd)); [intros y Hy; apply in_or_app; now right|].
  destruct g; first [now apply RelS_ok|exact (HB l _ f1 f2 Hwl HR' (fun y Hy => Hfree y (FB_Later _ _ _ _ Hy)) s1)].
Qed.

Lemma all_fuel : forall fuel, IS fuel /\ IB fuel.
Proof.
  induction fuel as [|fuel (HS & HB)].
  - split; intros ? bd e1 e2 _ _ _ s; exact Logic.I.
  - split; [now apply IS_step|now apply IB_step].
Qed.
End TwoRuns.

Lemma bind_params_binds : forall ps vs s acc sc s',
  bind_params ps vs s acc = Some (sc, s') ->
  forall y, In y ps \/ assoc y acc <> None -> assoc y sc <> None.
Proof.
  induction ps as [|p ps IH]; intros vs s acc sc s' E y Hy; destruct vs as [|v vs]; cbn [bind_params] in E;
    try discriminate.
  - inversion E; subst. destruct Hy as [[]|Hy]; exact Hy.
  - unfold alloc in E. apply (IH _ _ _ _ _ E).
    destruct (str_dec p y) as [<-|Hne].
    + right. rewrite assoc_set_same. discriminate.
    + destruct Hy as [[Hy|Hy]|Hy]; [contradiction|now left|right]. rewrite assoc_set_other by congruence. exact Hy.
Qed.

Theorem closure_depends_only_on_free_vars : forall fuel ps body cenv1 cenv2 vs s,
  WfB ps body ->
  (forall x, In x (free_vars ps body) -> lookup_scopes x cenv1 = lookup_scopes x cenv2) ->
  call_closure fuel (RClos ps body cenv1) vs s = call_closure fuel (RClos ps body cenv2) vs s.
Proof.
  intros fuel ps body cenv1 cenv2 vs s Hw Hag. unfold call_closure.
  destruct (bind_params ps vs s []) as [[sc s']|] eqn:Eb; [|reflexivity].
  destruct (all_fuel cenv1 cenv2 fuel) as (_ & HB).
  assert (HR : Rel cenv1 cenv2 ps
                   {| locals := [sc]; captured := cenv1; cur := Some (RClos ps body cenv1) |}
                   {| locals := [sc]; captured := cenv2; cur := Some (RClos ps body cenv2) |}).
  { repeat split; cbn [locals captured]; auto. intros y Hy. cbn [locals lookup_scopes].
    pose proof (bind_params_binds ps vs s [] sc s' Eb y (or_introl Hy)) as H.
    destruct (assoc y sc); [discriminate|contradiction]. }
  pose proof (HB body ps _ _ Hw HR (fun y Hy => Hag y (proj2 (free_vars_spec ps body y) Hy)) s') as H.
  unfold RelS in H.
  destruct (exec_block fuel {| locals := [sc]; captured := cenv1; cur := Some (RClos ps body cenv1) |} body s')
    as [g1 f1 s1|f1 s1|],
    (exec_block fuel {| locals := [sc]; captured := cenv2; cur := Some (RClos ps body cenv2) |} body s')
    as [g2 f2 s2|f2 s2|]; cbn [SameS] in H; try contradiction; try reflexivity.
  - destruct H as (<- & <- & _). reflexivity.
  - destruct H as (<- & <-). reflexivity.
Qed.

Definition restrict_env (F : list str) (cenv : list scope) : list scope :=
  map (filter (fun p : str * N => mem_str (fst p) F)) cenv.

Lemma assoc_filter : forall F x (sc : scope),
  assoc x (filter (fun p : str * N => mem_str (fst p) F) sc) = if mem_str x F then assoc x sc else None.
Proof.
  intros F x sc. induction sc as [|[k v] sc IH]; cbn [filter assoc fst].
  - now destruct (mem_str x F).
  - destruct (mem_str k F) eqn:Ek; cbn [assoc].
    + destruct (str_eqb k x) eqn:E.
      * apply str_eqb_eq in E. subst k. now rewrite Ek.
      * exact IH.
    + rewrite IH. destruct (str_eqb k x) eqn:E; [|reflexivity].
      apply str_eqb_eq in E. subst k. now rewrite Ek.
Qed.

Lemma lookup_restrict : forall F x cenv,
  lookup_scopes x (restrict_env F cenv) = if mem_str x F then lookup_scopes x cenv else None.
Proof.
  intros F x cenv. induction cenv as [|sc cenv IH]; cbn [restrict_env map lookup_scopes].
  - now destruct (mem_str x F).
  - rewrite assoc_filter. fold (restrict_env F cenv). rewrite IH. destruct (mem_str x F); reflexivity.
Qed.

Theorem capture_list_suffices : forall fuel ps body cenv vs s,
  WfB ps body ->
  call_closure fuel (RClos ps body cenv) vs s
  = call_closure fuel (RClos ps body (restrict_env (free_vars ps body) cenv)) vs s.
Proof.
  intros fuel ps body cenv vs s Hw. apply closure_depends_only_on_free_vars; [exact Hw|].
  intros x Hx. rewrite lookup_restrict. apply mem_str_In in Hx. now rewrite Hx.
Qed.

Theorem literal_call_sees_only_free_vars : forall fuel e ps body args s,
  WfB ps body ->
  eval (S (S fuel)) e (ECall (EFn ps body) args) s =
    match eval_args (S fuel) e args s [] with
    | inl (vs, s') =>
      call_closure (S fuel)
        (RClos ps body (restrict_env (free_vars ps body) (locals e ++ captured e))) vs s'
    | inr r => r end.
Proof.
  intros fuel e ps body args s Hw. rewrite eval_S_Call, eval_S_Fn.
  destruct (eval_args (S fuel) e args s []) as [[vs s']|r]; [|reflexivity].
  now apply capture_list_suffices.
Qed.

Corollary closed_function_ignores_environment : forall fuel ps body cenv cenv' vs s,
  WfB ps body -> free_vars ps body = [] ->
  call_closure fuel (RClos ps body cenv) vs s = call_closure fuel (RClos ps body cenv') vs s.
Proof.
  intros fuel ps body cenv cenv' vs s Hw E. apply closure_depends_only_on_free_vars; [exact Hw|].
  rewrite E. intros x [].
Qed.

Module CaptureSemExamples.
Import CaptureExamples.
Definition st0 : rstate := {| store := [RInt 5; RInt 7]; rout := [] |}.
Definition env0 : list scope := [[(x_, 0%N); (y_, 1%N)]].

(* fn() { print x; x = 1; return x + 0 }: x is free, y is not; the restricted environment drops y *)
Definition body1 : list stmt :=
  [SPrint (EVar x_); SAssign x_ (EInt 1); SReturn (Some (EBin BAdd (EVar x_) (EInt 0)))].
Example body1_wf : WfB [] body1.
Proof. repeat constructor; try discriminate. intros e E. inversion E. reflexivity. Qed.
Example body1_restricted : restrict_env (free_vars [] body1) env0 = [[(x_, 0%N)]].
Proof. vm_compute. reflexivity. Qed.
Example body1_runs : call_closure 10 (RClos [] body1 env0) [] st0
  = EVal (RInt 1) {| store := [RInt 5; RInt 7; RInt 1]; rout := [[53%N]] |}
  /\ call_closure 10 (RClos [] body1 [[(x_, 0%N)]]) [] st0 = call_closure 10 (RClos [] body1 env0) [] st0.
Proof. vm_compute. split; reflexivity. Qed.
(* dropping a FREE variable is observable: the theorem is not about an inert environment *)
Example body1_needs_x : call_closure 10 (RClos [] body1 []) [] st0 = EFail (FUnbound x_) st0.
Proof. vm_compute. reflexivity. Qed.

(* fn() { x = 1; modify x = 2 }: x is local when modify runs, so the analysis (like the compiler, which REJECTS this
   program) does not capture x, while the reference semantics would write the outer x *)
Definition body_bad : list stmt := [SAssign x_ (EInt 1); SModify x_ (EInt 2)].
Example modify_of_local_needs_side_condition :
  free_vars [] body_bad = []
  /\ call_closure 10 (RClos [] body_bad env0) [] st0
     <> call_closure 10 (RClos [] body_bad (restrict_env (free_vars [] body_bad) env0)) [] st0.
Proof. split; [vm_compute; reflexivity|]. vm_compute. discriminate. Qed.
End CaptureSemExamples.
