(* C01, statement level -- non-vacuity: concrete nested programs, compiled by the model of the code generator
   (cprogram = cstmt ...) and run by the VM model, agree with the reference semantics.  An example of the first
   fragment also states its membership (ok_block / mod_ok: the hypotheses of module_correct / module_top_correct can
   be met); the programs with from loops are outside it and their two runs are only compared, by computation (all of
   them but nv_s5 are in the second fragment: Props/C01.v C01_nv_in_fragment). *)
From MS Require Import Lang.Eval.
From MS Require Import Vm.Model Lang.Syntax Compile.Compile Verify.Sound Compile.ExprBase Compile.ExprSim.
From MS Require Import Compile.StmtMach Compile.StmtRel Compile.StmtFrag Compile.StmtSim Compile.StmtFun Compile.StmtMod.
From MS Require Import Compile.StmtFragB.
Open Scope nat_scope.

Definition vx : str := [120%N].   Definition vy : str := [121%N].   Definition vi : str := [105%N].
Definition vt : str := [116%N].   Definition vacc : str := [97%N; 99%N; 99%N].
Definition nvp : str := [109%N; 46%N; 109%N; 109%N; 109%N].          (* m.mmm *)
Definition vm_out (p : source) (fuel : nat) := fst (execute fuel (cprogram nvp p) (s_module_fn nvp)).

(* the reference run and the VM run are each evaluated ONCE, to the same output o, and what an example says of the
   output is checked on o: an example mentions `run N p` up to five times, and coqchk would evaluate it as often.
   The VM run is evaluated as run_fn: `execute` would also reverse the trace. *)
Lemma runs_agree : forall p N o (Q : list str -> Prop), run N p = (o, RODone) ->
  match run_fn N (cprogram nvp p) (s_module_fn nvp) [] None g0 with
  | RDone _ g => frames g = [] /\ out g = o
  | _ => False
  end ->
  Q o -> vm_out p N = (fst (run N p), Done) /\ snd (run N p) = RODone /\ Q (fst (run N p)).
Proof.
  intros p N o Q H1 H2 H3. unfold vm_out, execute.
  destruct (run_fn N (cprogram nvp p) (s_module_fn nvp) [] None g0) as [rv g|e g|]; try contradiction.
  destruct H2 as [Hf <-]. rewrite H1, Hf. repeat split. exact H3.
Qed.
Arguments runs_agree {p N o} Q.

Lemma vm_out_applies : forall p N o, vm_out p N = (o, Done) -> exists fuel',
  fst (fst (execute fuel' (cprogram nvp p) (s_module_fn nvp))) = o /\
  snd (fst (execute fuel' (cprogram nvp p) (s_module_fn nvp))) = Done.
Proof. intros p N o H. exists N. unfold vm_out in H. now rewrite H. Qed.

Definition nv_s1 : source :=
  [ SAssign vx (EInt 3);
    SAssign vy (EStr [118%N; 61%N]);
    SOpAssign vx BAdd (EInt 4);
    SPrint (EBin BAdd (EVar vy) (EVar vx));
    SAssert (EBin BEq (EVar vx) (EInt 7)) [115%N];
    SExpr (EBin BMul (EVar vx) (EInt 2));
    SOpAssign vx BSub (EBin BMul (EInt 5) (EInt 2));
    SPrint (EVar vx) ].
Example C01_nv_stage1 :
  ok_block [] None [] false [] nv_s1 = true /\
  vm_out nv_s1 200 = (fst (run 200 nv_s1), Done) /\ snd (run 200 nv_s1) = RODone /\
  fst (run 200 nv_s1) = [[118; 61; 55]; [45; 51]]%N.
Proof.
  split; [vm_compute; reflexivity|].
  eapply (runs_agree (fun o => o = _)); [vm_compute; reflexivity|vm_compute; split; reflexivity|reflexivity].
Qed.

(* the output stops at exactly the failing statement *)
Definition nv_s1f : source :=
  [ SAssign vx (EInt 3); SPrint (EVar vx);
    SAssert (EBin BLt (EVar vx) (EInt 2)) [115%N; 112%N];
    SPrint (EInt 99) ].
Example C01_nv_stage1_fail :
  ok_block [] None [] false [] nv_s1f = true /\
  run 200 nv_s1f = ([[51%N]], ROFail (FAssert [115%N; 112%N])) /\
  vm_out nv_s1f 200 = ([[51%N]], RuntimeErr (E_assert [115%N; 112%N]) [LFun (s_module_fn nvp)]).
Proof. vm_compute. repeat split. Qed.

Definition nv_s2 : source :=
  [ SAssign vi (EInt 0); SAssign vacc (EInt 0);
    SWhile (EBin BLt (EVar vi) (EInt 5))
      [ SOpAssign vi BAdd (EInt 1);
        SIfElif (EBin BEq (EBin BMod (EVar vi) (EInt 2)) (EInt 0))
          [ SAssign vt (EBin BMul (EVar vi) (EInt 10));          (* t lives in the <if> block only *)
            SOpAssign vacc BAdd (EVar vt) ]
          (SIfElse (EBin BEq (EVar vi) (EInt 3))
             [ SPrint (EStr [116%N; 104%N; 114%N; 101%N; 101%N]) ]
             [ SIf (EAnd (EBin BEq (EVar vi) (EInt 5)) (EBool true)) [ SAssign vt (EInt 5); SPrint (EVar vt) ] ]);
        SPrint (EVar vacc) ];
    SPrint (EVar vacc) ].
Example C01_nv_stage2 :
  ok_block [] None [] false [] nv_s2 = true /\
  vm_out nv_s2 2000 = (fst (run 2000 nv_s2), Done) /\ snd (run 2000 nv_s2) = RODone /\
  length (fst (run 2000 nv_s2)) = 8.
Proof.
  split; [vm_compute; reflexivity|].
  eapply (runs_agree (fun o => length o = 8)); [vm_compute; reflexivity|vm_compute; split; reflexivity|reflexivity].
Qed.

Definition nv_s3 : source :=
  [ SAssign vi (EInt 0);
    SWhile (EBin BLt (EVar vi) (EInt 10))
      [ SOpAssign vi BAdd (EInt 1);
        SIf (EBin BEq (EVar vi) (EInt 2)) [ SContinue ];
        SIf (EBin BGt (EVar vi) (EInt 4))
          [ SAssign vy (EVar vi);
            SIfElse (EBin BEq (EVar vy) (EInt 6)) [ SBreak ] [ SPrint (EStr [103%N; 116%N]) ] ];
        SAssign vx (EInt 0);
        SWhile (EBool true) [ SOpAssign vx BAdd (EInt 1); SIf (EBin BGe (EVar vx) (EVar vi)) [ SBreak ] ];
        SPrint (EBin BMul (EVar vi) (EVar vx)) ];
    SPrint (EVar vi) ].
Example C01_nv_stage3 :
  ok_block [] None [] false [] nv_s3 = true /\
  vm_out nv_s3 5000 = (fst (run 5000 nv_s3), Done) /\ snd (run 5000 nv_s3) = RODone /\
  fst (run 5000 nv_s3) = [[49]; [57]; [49; 54]; [103; 116]; [50; 53]; [54]]%N.
Proof.
  split; [vm_compute; reflexivity|].
  eapply (runs_agree (fun o => o = _)); [vm_compute; reflexivity|vm_compute; split; reflexivity|reflexivity].
Qed.

(* stage 3b: from loops (named counter; bounds and step are arbitrary call-free expressions, the step may mention the
   counter) *)
Definition vj : str := [106%N].   Definition vn : str := [110%N].
Definition nv_s4 : source :=
  [ SAssign vn (EInt 7); SAssign vacc (EInt 0);
    SFrom (EBin BSub (EVar vn) (EInt 7)) (EBin BSub (EBin BMul (EVar vn) (EInt 2)) (EInt 7)) true
          (Some (EBin BAdd (EBin BMod (EVar vi) (EInt 2)) (EInt 2))) (Some vi) false
      [ SIf (EBin BEq (EVar vi) (EInt 2)) [ SContinue ];
        SFrom (EInt 0) (EVar vi) false None (Some vj) false
          [ SIf (EBin BGt (EVar vj) (EInt 3)) [ SBreak ];
            SOpAssign vacc BAdd (EBin BMul (EVar vi) (EVar vj)) ];
        SWhile (EBin BGt (EVar vacc) (EInt 40)) [ SOpAssign vacc BSub (EInt 15); SIf (EBin BLt (EVar vacc) (EInt 30)) [ SBreak ] ];
        SPrint (EBin BAdd (EBin BAdd (EVar vi) (EStr [58%N])) (EVar vacc)) ];
    SPrint (EVar vacc) ].
Example C01_nv_stage3_from :
  vm_out nv_s4 5000 = (fst (run 5000 nv_s4), Done) /\ snd (run 5000 nv_s4) = RODone /\
  length (fst (run 5000 nv_s4)) = 4.
Proof. eapply (runs_agree (fun o => length o = 4)); [vm_compute; reflexivity|vm_compute; split; reflexivity|reflexivity]. Qed.

(* the conclusion of the C01 theorems for nv_s4, here by computation *)
Example C01_nv_theorem_applies : exists fuel',
  fst (fst (execute fuel' (cprogram nvp nv_s4) (s_module_fn nvp))) = fst (run 5000 nv_s4) /\
  snd (fst (execute fuel' (cprogram nvp nv_s4) (s_module_fn nvp))) = Done.
Proof. exact (vm_out_applies _ _ _ (proj1 C01_nv_stage3_from)). Qed.

(* stage 4b: closure-free module-level functions, called in expression position (assignment / print / expression
   statement, also inside loops); early return from inside a loop inside an if; a function that falls off its end
   (void; ret) *)
Definition vf : str := [102%N].   Definition vg : str := [103%N].
Definition nv_ft : ftab :=
  [ (vf, ([vn], [ SAssign vacc (EInt 0);
                  SFrom (EInt 0) (EVar vn) false None (Some vi) false
                    [ SIf (EBin BGt (EVar vi) (EInt 3)) [ SReturn (Some (EBin BMul (EVar vacc) (EInt 100))) ];
                      SOpAssign vacc BAdd (EVar vi) ];
                  SReturn (Some (EVar vacc)) ]));
    (vg, ([vx; vy], [ SIf (EBin BLt (EVar vx) (EVar vy)) [ SPrint (EStr [60%N]); SReturn (Some (EVar vy)) ];
                      SPrint (EBin BAdd (EVar vx) (EVar vy)) ])) ].
Definition nv_main : list stmt :=
  [ SAssign vt (ECall (EVar vf) [EInt 3]);
    SPrint (EVar vt);
    SPrint (ECall (EVar vf) [EBin BAdd (EVar vt) (EInt 4)]);
    SExpr (ECall (EVar vg) [EVar vt; EInt 1]);
    SWhile (EBin BLt (EVar vt) (EInt 500))
      [ SIfElse (EBin BLt (EVar vt) (EInt 5)) [ SAssign vt (ECall (EVar vg) [EVar vt; EInt 9]) ]
                                              [ SAssign vt (ECall (EVar vf) [EVar vt]) ];
        SPrint (EVar vt) ] ].
Definition nv_s5 : source := fmodule nv_ft nv_main.
Example C01_nv_stage4b :
  vm_out nv_s5 5000 = (fst (run 5000 nv_s5), Done) /\ snd (run 5000 nv_s5) = RODone /\
  fst (run 5000 nv_s5) = [[51]; [54; 48; 48]; [52]; [60]; [57]; [54; 48; 48]]%N.
Proof. eapply (runs_agree (fun o => o = _)); [vm_compute; reflexivity|vm_compute; split; reflexivity|reflexivity]. Qed.

Example C01_nv_fun_theorem_applies : exists fuel',
  fst (fst (execute fuel' (cprogram nvp nv_s5) (s_module_fn nvp))) = fst (run 5000 nv_s5) /\
  snd (fst (execute fuel' (cprogram nvp nv_s5) (s_module_fn nvp))) = Done.
Proof. exact (vm_out_applies _ _ _ (proj1 C01_nv_stage4b)). Qed.

(* stage 4c: recursion through `self` (an early return from inside a loop inside an if, the recursive call in
   expression position), functions calling earlier functions through their captured cells (g captures f; k captures
   g but not f) *)
Definition vk : str := [107%N].   Definition vr : str := [114%N].   Definition va : str := [97%N].
Definition vb : str := [98%N].    Definition vu : str := [117%N].   Definition vz : str := [122%N].   Definition vw : str := [119%N].
Definition nv_ft2 : ftab :=
  [ (vf, ([vn], [ SIf (EBin BLe (EVar vn) (EInt 0)) [ SReturn (Some (EInt 0)) ];
                  SAssign vacc (EInt 0);
                  SIf (EBin BGt (EVar vn) (EInt 1))
                    [ SFrom (EInt 0) (EVar vn) false None (Some vi) false
                        [ SIf (EBin BGe (EVar vi) (EInt 2))
                            [ SAssign vt (ESelf [EBin BSub (EVar vn) (EInt 2)]);
                              SReturn (Some (EBin BAdd (EVar vt) (EInt 100))) ];
                          SOpAssign vacc BAdd (EVar vi) ] ];
                  SAssign vr (ESelf [EBin BSub (EVar vn) (EInt 1)]);
                  SReturn (Some (EBin BAdd (EBin BAdd (EVar vr) (EVar vn)) (EVar vacc))) ]));
    (vg, ([va; vb], [ SAssign vu (ECall (EVar vf) [EVar va]);
                      SPrint (EVar vu);
                      SReturn (Some (EBin BAdd (EVar vu) (EVar vb))) ]));
    (vk, ([vz], [ SAssign vw (ECall (EVar vg) [EVar vz; EInt 1]);
                  SReturn (Some (EVar vw)) ])) ].
Definition nv_main2 : list stmt :=
  [ SAssign vx (ECall (EVar vk) [EInt 3]);
    SPrint (EVar vx);
    SPrint (ECall (EVar vg) [EInt 2; EInt 10]);
    SIf (EBin BGt (EVar vx) (EInt 0)) [ SPrint (ECall (EVar vf) [EInt 5]) ] ].
Definition nv_s6 : source := fmodule nv_ft2 nv_main2.
Example C01_nv_stage4c :
  vm_out nv_s6 5000 = (fst (run 5000 nv_s6), Done) /\ snd (run 5000 nv_s6) = RODone /\
  fst (run 5000 nv_s6) = [[49; 48; 49]; [49; 48; 50]; [52]; [49; 52]; [50; 48; 49]]%N.
Proof. eapply (runs_agree (fun o => o = _)); [vm_compute; reflexivity|vm_compute; split; reflexivity|reflexivity]. Qed.

Example C01_nv_rec_theorem_applies : exists fuel',
  fst (fst (execute fuel' (cprogram nvp nv_s6) (s_module_fn nvp))) = fst (run 5000 nv_s6) /\
  snd (fst (execute fuel' (cprogram nvp nv_s6) (s_module_fn nvp))) = Done.
Proof. exact (vm_out_applies _ _ _ (proj1 C01_nv_stage4c)). Qed.

(* stage 5a: anonymous from loops (hidden register counters, nested, with step / break / continue) and colliding
   counters (the counter is an existing variable that survives the loop) *)
Definition nv_s7 : source :=
  [ SAssign vn (EInt 1); SAssign vacc (EInt 0); SAssign vi (EInt 100);
    SFrom (EInt 1) (EBin BAdd (EVar vn) (EInt 4)) true (Some (EInt 2)) None false
      [ SOpAssign vacc BAdd (EInt 1);
        SFrom (EInt 0) (EInt 3) false None None false
          [ SIf (EBin BEq (EVar vacc) (EInt 2)) [ SContinue ];
            SOpAssign vacc BAdd (EInt 10);
            SFrom (EInt 0) (EInt 9) false None (Some vi) true
              [ SIf (EBin BGe (EVar vi) (EInt 2)) [ SBreak ];
                SPrint (EVar vi) ] ];
        SIf (EBin BGt (EVar vacc) (EInt 60)) [ SBreak ] ];
    SPrint (EVar vacc);
    SPrint (EVar vi) ].
Example C01_nv_stage5a :
  vm_out nv_s7 5000 = (fst (run 5000 nv_s7), Done) /\ snd (run 5000 nv_s7) = RODone /\
  length (fst (run 5000 nv_s7)) = 14.
Proof. eapply (runs_agree (fun o => length o = 14)); [vm_compute; reflexivity|vm_compute; split; reflexivity|reflexivity]. Qed.

(* stage 5a+: function definitions anywhere at the top level of the module, after data assignments and statements
   (the shape of the check's skeleton programs) *)
Definition vh : str := [104%N].
Definition nv_s8 : source :=
  [ SAssign vn (EInt 1); SAssign vk (EInt 0);
    SAssign vh (EFn [vx] [SReturn (Some (EBin BMul (EVar vx) (EInt 2)))]);
    SFrom (EInt 1) (EVar vn) true (Some (EInt 2)) None false
      [ SAssign vk (EBin BAdd (EVar vk) (EInt 1)); SExpr (ECall (EVar vh) [EVar vn]); SPrint (EVar vk) ];
    SAssign vn (EBin BAdd (EVar vn) (EInt 1));
    SAssign vf (EFn [vn] [ SAssign vk (EInt 0);
                           SIfElse (EBin BLt (EVar vn) (EInt 2)) [ SPrint (EStr [116%N]) ]
                             [ SFrom (EInt 0) (EInt 3) false None (Some vj) false
                                 [ SAssign vk (EVar vj); SIf (EBin BEq (EVar vk) (EInt 1)) [ SContinue ];
                                   SAssign vt (ECall (EVar vh) [EVar vk]); SPrint (EVar vt) ] ];
                           SReturn (Some (EVar vk)) ]);
    SPrint (ECall (EVar vf) [EInt 0]);
    SPrint (ECall (EVar vf) [EVar vn]) ].
Example C01_nv_stage5_interleaved :
  vm_out nv_s8 5000 = (fst (run 5000 nv_s8), Done) /\ snd (run 5000 nv_s8) = RODone /\
  fst (run 5000 nv_s8) = [[49]; [116]; [48]; [48]; [52]; [50]]%N.
Proof. eapply (runs_agree (fun o => o = _)); [vm_compute; reflexivity|vm_compute; split; reflexivity|reflexivity]. Qed.

(* stage 5b: calls nested anywhere in expressions and conditions (arguments containing calls, recursion in operand
   position: fib) *)
Definition nv_s9 : source :=
  [ SAssign vh (EFn [vx] [SReturn (Some (EBin BMul (EVar vx) (EInt 2)))]);
    SAssign vf (EFn [vn] [ SIf (EBin BLt (EVar vn) (EInt 2)) [ SReturn (Some (EVar vn)) ];
                           SReturn (Some (EBin BAdd (ESelf [EBin BSub (EVar vn) (EInt 1)]) (ESelf [EBin BSub (EVar vn) (EInt 2)]))) ]);
    SAssign vk (EInt 0);
    SPrint (EBin BAdd (EBin BMul (ECall (EVar vf) [EInt 10]) (EInt 2)) (ECall (EVar vh) [ECall (EVar vf) [ECall (EVar vh) [EInt 3]]]));
    SWhile (EBin BLt (ECall (EVar vh) [EVar vk]) (ECall (EVar vf) [EInt 5]))
      [ SOpAssign vk BAdd (ECall (EVar vf) [EInt 2]);
        SIfElse (EAnd (EBin BEq (ECall (EVar vf) [EVar vk]) (EInt 1)) (ENot (EBin BGt (ECall (EVar vh) [EVar vk]) (EInt 3))))
          [ SPrint (EVar vk) ] [ SAssert (EBin BGe (ECall (EVar vh) [EVar vk]) (ENeg (EBin BAdd (ECall (EVar vf) [EInt 1]) (EInt 0)))) [115%N] ] ];
    SPrint (EVar vk) ].
Example C01_nv_stage5b :
  mod_ok [] [] (classify nv_s9) /\
  vm_out nv_s9 5000 = (fst (run 5000 nv_s9), Done) /\ snd (run 5000 nv_s9) = RODone /\
  fst (run 5000 nv_s9) = [[49; 50; 54]; [49]; [51]]%N.
Proof.
  split; [apply mod_okb_sound; vm_compute; reflexivity|].
  eapply (runs_agree (fun o => o = _)); [vm_compute; reflexivity|vm_compute; split; reflexivity|reflexivity].
Qed.

(* stage 5c: functions that capture DATA variables of the module (by reference: the module reassigns n between the
   calls), directly and through a captured function; a step expression reading a captured variable; calls in the
   bounds of a from loop with a hidden counter; a loop counter with the name of a captured variable shadows it *)
Definition nv_s10 : source :=
  [ SAssign vn (EInt 3); SAssign vk (EInt 10);
    SAssign vf (EFn [vx] [SReturn (Some (EBin BAdd (EVar vx) (EVar vn)))]);
    SAssign vg (EFn [vx] [ SIf (EBin BGt (EVar vk) (EInt 5)) [ SPrint (EVar vk) ];
                           SAssign vt (EBin BMul (ECall (EVar vf) [EVar vx]) (EVar vk));
                           SFrom (EInt 0) (EInt 25) false (Some (EVar vk)) (Some vj) false [ SPrint (EVar vj) ];
                           SFrom (EInt 0) (EInt 1) false None (Some vk) false [ SAssign vt (EBin BAdd (EVar vt) (EVar vk)) ];
                           SAssign vr (EInt 1);
                           SReturn (Some (EBin BAdd (EVar vt) (EVar vr))) ]);
    SPrint (ECall (EVar vg) [EInt 2]);
    SAssign vn (EInt 4);
    SFrom (ECall (EVar vf) [EInt (-4)]) (ECall (EVar vf) [EInt (-2)]) false None None false [ SOpAssign vn BAdd (EInt 1); SPrint (ECall (EVar vf) [EVar vk]) ];
    SPrint (ECall (EVar vg) [ECall (EVar vf) [EInt 0]]);
    SPrint (EVar vk) ].
Example C01_nv_stage5c :
  vm_out nv_s10 5000 = (fst (run 5000 nv_s10), Done) /\ snd (run 5000 nv_s10) = RODone /\
  length (fst (run 5000 nv_s10)) = 13 /\ nth 4 (fst (run 5000 nv_s10)) [] = [53; 49]%N /\ nth 11 (fst (run 5000 nv_s10)) [] = [49; 50; 49]%N.
Proof.
  eapply (runs_agree (fun o => length o = 13 /\ nth 4 o [] = _ /\ nth 11 o [] = _));
    [vm_compute; reflexivity|vm_compute; split; reflexivity|repeat split].
Qed.
