(* The relation between the reference semantics (Lang/Eval.v) and the VM model for programs with first-class function
   values.  Cells are mutable and shared (`modify` writes through a captured cell), so values are related up to a typed
   partial bijection `cinj` between source cells and VM cells, which only grows: a closure is related to a VFun whose code
   is the compiled literal and whose captured cells are paired with those of the captured environment (vrel / clos_ok);
   paired cells hold related values (heap_ok); Cl relates one activation: its scopes to its frames (Rfr2), its captured
   environment to its captured cells. *)
From Coq Require Import List Arith ZArith Lia Bool.
Import ListNotations.
From MS Require Import Base.Str Vm.Model Lang.Syntax Lang.Eval Compile.Compile Compile.ExprBase Compile.ExprSim.
From MS Require Import Compile.StmtMach Compile.StmtRel Compile.StmtFrag Compile.StmtSim Compile.StmtFun Compile.ClosFrag.
Open Scope nat_scope.

Definition cinj := N -> N -> kind -> Prop.
Definition cinj_le (b b' : cinj) : Prop := forall c c' k, b c c' k -> b' c c' k.
Definition bext (b b' : cinj) (s : rstate) (g : gstate) : Prop :=
  cinj_le b b' /\
  forall c c' k, b' c c' k -> b c c' k \/ (length (store s) <= N.to_nat c /\ length (cells g) <= N.to_nat c').
Definition add_pair (b : cinj) (c c' : N) (k : kind) : cinj :=
  fun d d' k' => b d d' k' \/ (d = c /\ d' = c' /\ k' = k).
(* the VM cells outside the relation are the registers *)
Definition keep (b : cinj) (g g' : gstate) : Prop :=
  forall c' w, cell_get g c' = Some w -> (forall c k, ~ b c c' k) -> cell_get g' c' = Some w.

Lemma cinj_le_refl : forall b, cinj_le b b.
Proof. intros b c c' k H. exact H. Qed.
Lemma cinj_le_trans : forall a b c, cinj_le a b -> cinj_le b c -> cinj_le a c.
Proof. intros a b c H1 H2 x y k H. exact (H2 _ _ _ (H1 _ _ _ H)). Qed.
Lemma bext_refl : forall b s g, bext b b s g.
Proof. intros b s g. split; [apply cinj_le_refl|]. intros c c' k H. now left. Qed.
Lemma bext_trans : forall b b1 b2 s g s1 g1, bext b b1 s g -> bext b1 b2 s1 g1 ->
  length (store s) <= length (store s1) -> length (cells g) <= length (cells g1) -> bext b b2 s g.
Proof.
  intros b b1 b2 s g s1 g1 [A1 A2] [B1 B2] Hs Hg. split; [eapply cinj_le_trans; eassumption|].
  intros c c' k H. destruct (B2 _ _ _ H) as [H1|[H1 H2]]; [exact (A2 _ _ _ H1)|right; lia].
Qed.

Lemma cell_get_lt : forall g c w, cell_get g c = Some w -> N.to_nat c < length (cells g).
Proof. intros g c w H. apply nth_error_Some. unfold cell_get in H. congruence. Qed.
Lemma cell_get_old : forall g g' extra c w, cells g' = cells g ++ extra -> cell_get g c = Some w -> cell_get g' c = Some w.
Proof. intros g g' extra c w E H. pose proof (cell_get_lt _ _ _ H) as Hlt. unfold cell_get in *. now rewrite E, nth_error_app1. Qed.
Lemma cell_get_new : forall g g' w, cells g' = cells g ++ [w] -> cell_get g' (N.of_nat (length (cells g))) = Some w.
Proof. intros g g' w E. unfold cell_get. now rewrite E, Nnat.Nat2N.id, nth_error_app2, Nat.sub_diag by lia. Qed.
Lemma cell_get_set_other : forall g c c' w, c <> c' -> cell_get (cell_set g c' w) c = cell_get g c.
Proof. intros g c c' w Hne. unfold cell_get, cell_set. cbn [cells]. apply nth_error_set_nth_other. intros E. apply Hne. now apply N2Nat.inj. Qed.
Lemma sget_old : forall s s' extra c v, store s' = store s ++ extra -> sget s c = Some v -> sget s' c = Some v.
Proof. intros s s' extra c v E H. unfold sget in *. rewrite E, nth_error_app1; [exact H|]. apply nth_error_Some. congruence. Qed.
Lemma sget_new : forall s s' v, store s' = store s ++ [v] -> sget s' (N.of_nat (length (store s))) = Some v.
Proof. intros s s' v E. unfold sget. now rewrite E, Nnat.Nat2N.id, nth_error_app2, Nat.sub_diag by lia. Qed.

Lemma bext_unpaired : forall b b' s g c' w, bext b b' s g -> cell_get g c' = Some w -> (forall c k, ~ b c c' k) -> forall c k, ~ b' c c' k.
Proof.
  intros b b' s g c' w [_ He] Hc Hn c k Hb. destruct (He _ _ _ Hb) as [Hb0|[_ Hlen]]; [exact (Hn c k Hb0)|].
  pose proof (cell_get_lt _ _ _ Hc). lia.
Qed.
Lemma keep_trans : forall b b1 s g g1 g2, keep b g g1 -> bext b b1 s g -> keep b1 g1 g2 -> keep b g g2.
Proof. intros b b1 s g g1 g2 H1 He H2 c' w Hc Hn. apply H2; [now apply H1|]. eapply bext_unpaired; eassumption. Qed.
Lemma keep_cells_app : forall b g g' extra, cells g' = cells g ++ extra -> keep b g g'.
Proof. intros b g g' extra E c' w Hc _. eapply cell_get_old; eassumption. Qed.
Lemma keep_cell_set : forall (b : cinj) g c c' k w, b c c' k -> keep b g (cell_set g c' w).
Proof. intros b g c c' k w Hb d w0 Hd Hn. rewrite cell_get_set_other; [exact Hd|]. intros ->. exact (Hn c k Hb). Qed.

(* "x : k is bound to related cells" (the clauses of clos_ok and Cl about names): kept when the injection grows and x is looked up
   to the same cells *)
Lemma bound_keep : forall {b b' : cinj} {x k} {o1 o2 o1' o2' : option N}, cinj_le b b' -> (uname0 x -> o1' = o1) -> (uname0 x -> o2' = o2) ->
  uname0 x /\ (exists c c', o1 = Some c /\ o2 = Some c' /\ b c c' k) ->
  uname0 x /\ (exists c c', o1' = Some c /\ o2' = Some c' /\ b' c c' k).
Proof. intros b b' x k o1 o2 o1' o2' Hle E1 E2 (Hx & c & c' & A1 & A2 & A3). rewrite (E1 Hx), (E2 Hx). split; [exact Hx|]. exists c, c'. auto. Qed.
Lemma bound_mono : forall {b b' : cinj} {x k} {o1 o2 : option N}, cinj_le b b' ->
  uname0 x /\ (exists c c', o1 = Some c /\ o2 = Some c' /\ b c c' k) ->
  uname0 x /\ (exists c c', o1 = Some c /\ o2 = Some c' /\ b' c c' k).
Proof. intros b b' x k o1 o2 Hle. exact (bound_keep Hle (fun _ => eq_refl) (fun _ => eq_refl)). Qed.

Definition cbget (cb : option (list (str * N))) (x : str) : option N :=
  match cb with Some m => assoc x m | None => None end.

Section Rel.
Variable path : str.
Variable prog : program.

(* the functions a piece of code defines are in the program (and small enough for the decimal codec) *)
Definition installed (fb : fbl) : Prop :=
  forall n cc code, In (n, cc, code) fb -> assoc n prog = Some code /\ small (cc + 2 * length code + 8).
Lemma installed_app : forall f1 f2, installed (f1 ++ f2) <-> installed f1 /\ installed f2.
Proof.
  intros f1 f2. unfold installed. split.
  - intros H. split; intros n cc code Hin; apply H; apply in_or_app; [now left|now right].
  - intros [H1 H2] n cc code Hin. apply in_app_or in Hin as [Hin|Hin]; [now apply H1|now apply H2].
Qed.
Lemma installed_nil : installed [].
Proof. intros n cc code []. Qed.

Definition kfn_ok (G : kctx) (ps : list str) (body : list stmt) (pk : list kind) (r : kind) : Prop :=
  pk = map (pkind body) ps /\ NoDup ps /\ forallb src_nameb ps = true /\ map fst G = free_vars ps body /\
  (r = KN \/ last_ret body = true) /\
  exists B' rets, kblock (Some (pk, r)) false (rev (combine ps pk)) G body = Some (B', rets) /\
                  (forall k, In k rets -> k = r \/ (r = KN /\ k = KD)).

Definition clos_ok (b : cinj) (pk : list kind) (r : kind) (ps : list str) (body : list stmt) (cenv : list scope)
           (loc : str) (cb : option (list (str * N))) : Prop :=
  exists G d lr k,
    kfn_ok G ps body pk r /\
    loc = fn_name path (k + length (snd (bc path (S d) lr None k body))) /\
    installed (snd (ec path d lr k (EFn ps body))) /\
    forall x kx, In (x, kx) G -> uname0 x /\ exists c c', lookup_scopes x cenv = Some c /\ cbget cb x = Some c' /\ b c c' kx.

Definition vrel (b : cinj) (k : kind) (v : rvalue) (w : value) : Prop :=
  match k with
  | KD | KN => first_order v /\ w = inj v
  | KF pk r => exists ps body cenv loc cb, v = RClos ps body cenv /\ w = VFun loc cb /\ clos_ok b pk r ps body cenv loc cb
  end.

Definition heap_ok (b : cinj) (s : rstate) (g : gstate) : Prop :=
  (forall c c' k, b c c' k -> exists v w, sget s c = Some v /\ cell_get g c' = Some w /\ vrel b k v w) /\
  (forall c1 c1' k1 c2 c2' k2, b c1 c1' k1 -> b c2 c2' k2 -> (c1 = c2 <-> c1' = c2') /\ (c1 = c2 -> k1 = k2)).

Lemma clos_ok_mono : forall b b' pk r ps body cenv loc cb, cinj_le b b' ->
  clos_ok b pk r ps body cenv loc cb -> clos_ok b' pk r ps body cenv loc cb.
Proof.
  intros b b' pk r ps body cenv loc cb Hle (G & d & lr & k & H1 & H2 & H3 & H4). exists G, d, lr, k.
  split; [exact H1|]. split; [exact H2|]. split; [exact H3|]. intros x kx Hin.
  exact (bound_mono Hle (H4 x kx Hin)).
Qed.
Lemma vrel_mono : forall b b' k v w, cinj_le b b' -> vrel b k v w -> vrel b' k v w.
Proof.
  intros b b' [|pk r|] v w Hle H; [exact H| |exact H]. destruct H as (ps & body & cenv & loc & cb & E1 & E2 & H).
  exists ps, body, cenv, loc, cb. split; [exact E1|]. split; [exact E2|]. eapply clos_ok_mono; eassumption.
Qed.

Lemma vrel_fo : forall b k v w, vrel b k v w -> first_order v -> w = inj v.
Proof.
  intros b [|pk r|] v w H Hfo; [exact (proj2 H)| |exact (proj2 H)].
  destruct H as (ps & body & cenv & loc & cb & -> & _). destruct Hfo.
Qed.

Lemma heap_valid : forall b s g c c' k, heap_ok b s g -> b c c' k -> N.to_nat c < length (store s) /\ N.to_nat c' < length (cells g).
Proof.
  intros b s g c c' k [H _] Hb. destruct (H _ _ _ Hb) as (v & w & A1 & A2 & _). split; [|exact (cell_get_lt _ _ _ A2)].
  apply nth_error_Some. unfold sget in A1. congruence.
Qed.
Lemma heap_inj : forall b s g c c1' k1 c2' k2, heap_ok b s g -> b c c1' k1 -> b c c2' k2 -> c1' = c2'.
Proof. intros b s g c c1' k1 c2' k2 [_ H] H1 H2. exact (proj1 (proj1 (H _ _ _ _ _ _ H1 H2)) eq_refl). Qed.

Lemma heap_ok_same : forall b s g s' g', heap_ok b s g -> store s' = store s -> cells g' = cells g -> heap_ok b s' g'.
Proof.
  intros b s g s' g' [H1 H2] Es Eg. split; [|exact H2]. intros c c' k Hb. destruct (H1 _ _ _ Hb) as (v & w & A1 & A2 & A3).
  exists v, w. unfold sget, cell_get in *. rewrite Es, Eg. auto.
Qed.

Lemma heap_update : forall b s g c c' k v w, heap_ok b s g -> b c c' k -> vrel b k v w ->
  heap_ok b (sset s c v) (cell_set g c' w).
Proof.
  intros b s g c c' k v w [H1 H2] Hb Hv. destruct (heap_valid b s g c c' k (conj H1 H2) Hb) as [Hc Hc'].
  split; [|exact H2]. intros d d' k' Hd. destruct (H2 _ _ _ _ _ _ Hd Hb) as [Hiff Hk].
  destruct (N.eq_dec d c) as [->|Hne].
  - assert (d' = c') by (apply Hiff; reflexivity). subst d'. rewrite (Hk eq_refl). exists v, w.
    unfold sget, sset, cell_get, cell_set. cbn [store cells]. rewrite !nth_error_set_nth_same by assumption. auto.
  - assert (Hne' : d' <> c') by (intros E; apply Hne, Hiff; exact E).
    destruct (H1 _ _ _ Hd) as (v0 & w0 & A1 & A2 & A3). exists v0, w0. rewrite cell_get_set_other by exact Hne'. split; [|auto].
    unfold sget, sset in *. cbn [store]. rewrite nth_error_set_nth_other; [exact A1|]. intros E. apply Hne. now apply N2Nat.inj.
Qed.

Lemma heap_vm_alloc : forall b s g g' extra, heap_ok b s g -> cells g' = cells g ++ extra -> heap_ok b s g'.
Proof.
  intros b s g g' extra [H1 H2] Eg. split; [|exact H2]. intros c c' k Hb. destruct (H1 _ _ _ Hb) as (v0 & w0 & A1 & A2 & A3).
  exists v0, w0. split; [exact A1|]. split; [exact (cell_get_old _ _ _ _ _ Eg A2)|exact A3].
Qed.

Lemma heap_pair : forall b s s' g k v w c', heap_ok b s g -> vrel b k v w -> cell_get g c' = Some w -> (forall c k, ~ b c c' k) ->
  store s' = store s ++ [v] ->
  heap_ok (add_pair b (N.of_nat (length (store s))) c' k) s' g.
Proof.
  intros b s s' g k v w c' H Hv Hc' Hn Es. set (c := N.of_nat (length (store s))). pose proof H as [H1 H2].
  assert (Hle : cinj_le b (add_pair b c c' k)) by (intros x y z Hb; left; exact Hb).
  assert (Hnew : forall d d' kd, b d d' kd -> d <> c).
  { intros d d' kd Hd ->. destruct (heap_valid _ _ _ _ _ _ H Hd) as [A _]. unfold c in A. rewrite Nnat.Nat2N.id in A. lia. }
  split.
  - intros d d' k' [Hd|(-> & -> & ->)].
    + destruct (H1 _ _ _ Hd) as (v0 & w0 & A1 & A2 & A3). exists v0, w0.
      split; [exact (sget_old _ _ _ _ _ Es A1)|]. split; [exact A2|]. eapply vrel_mono; eassumption.
    + exists v, w. split; [exact (sget_new _ _ _ Es)|]. split; [exact Hc'|]. eapply vrel_mono; eassumption.
  - intros c1 c1' k1 c2 c2' k2 [Ha|(-> & -> & ->)] [Hb|(-> & -> & ->)].
    + exact (H2 _ _ _ _ _ _ Ha Hb).
    + split; [split|]; intros E; exfalso; [exact (Hnew _ _ _ Ha E)|rewrite E in Ha; exact (Hn _ _ Ha)|exact (Hnew _ _ _ Ha E)].
    + split; [split|]; intros E; exfalso; [exact (Hnew _ _ _ Hb (eq_sym E))|rewrite <- E in Hb; exact (Hn _ _ Hb)|exact (Hnew _ _ _ Hb (eq_sym E))].
    + split; [tauto|reflexivity].
Qed.

Lemma heap_alloc : forall b s g k v w, heap_ok b s g -> vrel b k v w ->
  let c := N.of_nat (length (store s)) in let c' := N.of_nat (length (cells g)) in
  forall s' g', store s' = store s ++ [v] -> cells g' = cells g ++ [w] ->
  heap_ok (add_pair b c c' k) s' g' /\ bext b (add_pair b c c' k) s g.
Proof.
  intros b s g k v w H Hv c c' s' g' Es Eg.
  assert (Hn : forall d kd, ~ b d c' kd).
  { intros d kd Hd. destruct (heap_valid _ _ _ _ _ _ H Hd) as [_ A]. unfold c' in A. rewrite Nnat.Nat2N.id in A. lia. }
  split; [exact (heap_pair b s s' g' k v w c' (heap_vm_alloc _ _ _ _ _ H Eg) Hv (cell_get_new _ _ _ Eg) Hn Es)|].
  split; [intros x y z Hb; left; exact Hb|]. intros d d' k' [Hd|(-> & -> & ->)]; [now left|right]. unfold c, c'. rewrite !Nnat.Nat2N.id. lia.
Qed.
Lemma heap_mono : forall b b' s g, heap_ok b' s g -> cinj_le b b' -> forall c c' k, b c c' k ->
  exists v w, sget s c = Some v /\ cell_get g c' = Some w /\ vrel b' k v w.
Proof. intros b b' s g [H1 _] Hle c c' k Hb. exact (H1 _ _ _ (Hle _ _ _ Hb)). Qed.

Definition brel (b : cinj) (c c' : N) : Prop := exists k, b c c' k.
(* P: the names the VM binds only if the reference semantics does.  The statements are related with every name in P (allP
   below): the code of Compile.cstmt binds a user name exactly where the reference semantics declares it (the counter of a
   `from` loop after both bounds).  A smaller P relates states in which the VM is one binding ahead (Cl_bind_ghost) *)
Variable P : str -> Prop.
Definition orelP {A B} (p : Prop) (R : A -> B -> Prop) (x : option A) (y : option B) : Prop :=
  match x, y with Some a, Some b => R a b | None, None => True | Some _, None => False | None, Some _ => ~ p end.
Lemma orelP_impl : forall A B (p p' : Prop) (R R' : A -> B -> Prop) x y, (p' -> p) -> (forall a b, R a b -> R' a b) ->
  orelP p R x y -> orelP p' R' x y.
Proof. intros A B p p' R R' [a|] [b|] Hp H H0; unfold orelP in *; auto. Qed.
Definition look2 (b : cinj) (l : list scope) (fs : list frame) : Prop :=
  forall x, uname0 x -> orelP (P x) (brel b) (lookup_scopes x l) (find_in_function x fs).
Fixpoint Rfr2 (b : cinj) (l : list scope) (fs : list frame) {struct l} : Prop :=
  match l, fs with
  | _ :: l', f :: fs' =>
    look2 b l fs /\
    match l' with
    | [] => special (lab f) = false
    | _ :: _ => special (lab f) = true /\ Rfr2 b l' fs'
    end
  | _, _ => False
  end.

Lemma Rfr2_look : forall b l fs, Rfr2 b l fs -> look2 b l fs.
Proof. intros b [|sc l] [|f fs] H; cbn [Rfr2] in H; try contradiction. exact (proj1 H). Qed.
Lemma Rfr2_ne : forall b l fs, Rfr2 b l fs -> l <> [] /\ fs <> [].
Proof. intros b [|sc l] [|f fs] H; cbn [Rfr2] in H; try contradiction. split; discriminate. Qed.
Lemma Rfr2_mono : forall b b' l fs, cinj_le b b' -> Rfr2 b l fs -> Rfr2 b' l fs.
Proof.
  intros b b' l fs Hle. revert fs. induction l as [|sc l IH]; intros [|f fs] H; cbn [Rfr2] in H; try contradiction.
  destruct H as [Hl H]. cbn [Rfr2]. split.
  - intros x Hx. eapply orelP_impl; [| |exact (Hl x Hx)]; [auto|]. intros c c' [k Hk]. exists k. now apply Hle.
  - destruct l as [|sc' l]; [exact H|]. destruct H as [Hs H]. split; [exact Hs|]. now apply IH.
Qed.
Lemma Rfr2_pop : forall b sc sc' l f fs, Rfr2 b (sc :: sc' :: l) (f :: fs) -> Rfr2 b (sc' :: l) fs.
Proof. intros b sc sc' l f fs H. cbn [Rfr2] in H. exact (proj2 (proj2 H)). Qed.
Lemma Rfr2_top_special : forall b sc sc' l f fs, Rfr2 b (sc :: sc' :: l) (f :: fs) -> special (lab f) = true.
Proof. intros b sc sc' l f fs H. cbn [Rfr2] in H. exact (proj1 (proj2 H)). Qed.
Lemma Rfr2_length : forall b l fs, Rfr2 b l fs -> length l <= length fs.
Proof.
  intros b. induction l as [|sc l IH]; intros [|f fs] H; cbn [Rfr2] in H; try contradiction.
  destruct H as [_ H]. destruct l as [|sc' l]; cbn [length]; [lia|].
  destruct H as [_ H]. specialize (IH fs H). cbn [length] in IH. lia.
Qed.
Lemma Rfr2_head : forall b sc sc' l f f' fs, Rfr2 b (sc :: l) (f :: fs) -> lab f' = lab f ->
  look2 b (sc' :: l) (f' :: fs) -> Rfr2 b (sc' :: l) (f' :: fs).
Proof. intros b sc sc' l f f' fs [_ H] Hlab Hl. split; [exact Hl|rewrite Hlab; exact H]. Qed.
Lemma Rfr2_head_same : forall b sc sc' l f f' fs, Rfr2 b (sc :: l) (f :: fs) -> lab f' = lab f ->
  (forall x, uname0 x -> assoc x sc' = assoc x sc) ->
  (forall x, uname0 x -> find_in_function x (f' :: fs) = find_in_function x (f :: fs)) ->
  Rfr2 b (sc' :: l) (f' :: fs).
Proof.
  intros b sc sc' l f f' fs H Hlab Hs Hfind. apply (Rfr2_head _ _ _ _ _ _ _ H Hlab).
  intros x Hx. cbn [lookup_scopes]. rewrite (Hs x Hx), (Hfind x Hx). exact (Rfr2_look _ _ _ H x Hx).
Qed.
Lemma Rfr2_top : forall b l f f' fs, Rfr2 b l (f :: fs) -> lab f' = lab f ->
  (forall x, uname0 x -> find_in_function x (f' :: fs) = find_in_function x (f :: fs)) ->
  Rfr2 b l (f' :: fs).
Proof. intros b [|sc l] f f' fs H Hlab Hfind; [destruct H|]. now apply (Rfr2_head_same _ sc _ _ f). Qed.
Lemma Rfr2_declare : forall b sc l f fs x c c' k,
  Rfr2 b (sc :: l) (f :: fs) -> b c c' k ->
  Rfr2 b (assoc_set x c sc :: l) ({| lab := lab f; vars := assoc_set x c' (vars f) |} :: fs).
Proof.
  intros b sc l f fs x c c' k H Hb. apply (Rfr2_head _ _ _ _ _ _ _ H); [reflexivity|].
  intros y Hy. cbn [lookup_scopes find_in_function vars lab].
  destruct (list_eq_dec N.eq_dec y x) as [->|Hne].
  - rewrite !assoc_set_same. exists k. exact Hb.
  - rewrite !assoc_set_other by exact Hne. exact (Rfr2_look _ _ _ H y Hy).
Qed.
Lemma Rfr2_push : forall b l fs lb, Rfr2 b l fs -> special lb = true ->
  Rfr2 b ([] :: l) ({| lab := lb; vars := [] |} :: fs).
Proof.
  intros b l fs lb H Hs. destruct (Rfr2_ne _ _ _ H) as [Hl _].
  destruct l as [|sc l]; [congruence|]. cbn [Rfr2]. split; [|split; [exact Hs|exact H]].
  intros x Hx. cbn [lookup_scopes assoc find_in_function vars lab]. rewrite Hs.
  exact (Rfr2_look _ _ _ H x Hx).
Qed.
Lemma Rfr2_drop : forall b l fs, Rfr2 b l fs -> drop_to_function fs = skipn (length l) fs.
Proof.
  intros b. induction l as [|sc l IH]; intros [|f fs] H; cbn [Rfr2] in H; try contradiction.
  destruct H as [_ H]. cbn [drop_to_function length skipn]. destruct l as [|sc' l].
  - rewrite H. reflexivity.
  - destruct H as [Hs H]. rewrite Hs. exact (IH fs H).
Qed.
Lemma Rfr2_undeclare : forall b sc l f fs x vs,
  Rfr2 b (sc :: l) (f :: fs) -> uname0 x ->
  (forall y, uname0 y -> y <> x -> assoc y vs = assoc y (vars f)) -> assoc x vs = None ->
  assoc x (assoc_del x sc) = None -> lookup_scopes x l = None ->
  Rfr2 b (assoc_del x sc :: l) ({| lab := lab f; vars := vs |} :: fs).
Proof.
  intros b sc l f fs x vs H Hx Hvs Hxv Hxs Hxl. apply (Rfr2_head _ _ _ _ _ _ _ H); [reflexivity|].
  intros y Hy. cbn [lookup_scopes find_in_function vars lab].
  destruct (list_eq_dec N.eq_dec y x) as [->|Hne].
  - rewrite Hxv, Hxs, Hxl. destruct H as [_ H]. destruct l as [|sc' l'].
    + rewrite H. exact Logic.I.
    + destruct H as [Hs H]. rewrite Hs. pose proof (Rfr2_look _ _ _ H x Hx) as Hk. rewrite Hxl in Hk. exact Hk.
  - rewrite assoc_del_other by exact Hne. rewrite (Hvs y Hy Hne). exact (Rfr2_look _ _ _ H y Hy).
Qed.
Lemma Rfr2_found : forall b l fs x c, Rfr2 b l fs -> uname0 x -> lookup_scopes x l = Some c ->
  exists c' k, find_in_function x fs = Some c' /\ b c c' k.
Proof.
  intros b l fs x c H Hx E. pose proof (Rfr2_look _ _ _ H x Hx) as Hl. rewrite E in Hl.
  destruct (find_in_function x fs) as [c'|]; [|destruct Hl]. destruct Hl as [k Hk]. eauto.
Qed.

Section Act.
Variable cb : option (list (str * N)).     (* the captured cells of the executing function value (a_cb) *)
Variable CD : kctx.                        (* the captured names and their kinds *)
Variable base : list frame.                (* the frames of the callers *)
Variable fnm : str.                        (* the name of the executing function (call_self) *)
Variable SF : sfk.                         (* inside a function literal: the kinds of its parameters and result *)

Definition bound2 (B : kctx) (env : fenv) : Prop :=
  (forall x, x <> hid -> (lookup_scopes x (locals env) <> None <-> In x (map fst B))) /\ (forall x, In x (map fst B) -> uname0 x).
Lemma bound2_in : forall B env x, bound2 B env -> x <> hid -> lookup_scopes x (locals env) <> None -> In x (map fst B).
Proof. intros B env x [H _] Hx Hl. exact (proj1 (H x Hx) Hl). Qed.
Lemma bound2_declare : forall B env x k c sc l env', bound2 B env -> locals env = sc :: l -> locals env' = assoc_set x c sc :: l ->
  uname0 x -> bound2 ((x, k) :: B) env'.
Proof.
  intros B env x k c sc l env' [H1 H2] El El' Hx. split.
  - intros y Hy. rewrite El'. cbn [lookup_scopes map fst In]. destruct (list_eq_dec N.eq_dec y x) as [->|Hne].
    + rewrite assoc_set_same. split; [intros _; now left|discriminate].
    + rewrite assoc_set_other by exact Hne. pose proof (H1 y Hy) as Hyy. rewrite El in Hyy. cbn [lookup_scopes] in Hyy. rewrite Hyy.
      split; [intros H; now right|intros [H|H]; [congruence|exact H]].
  - intros y [<-|Hy]; [exact Hx|exact (H2 y Hy)].
Qed.
Lemma bound2_push : forall B env, bound2 B env -> bound2 B (push_scope env).
Proof. intros B env [X1 X2]. split; [intros x Hx; cbn [push_scope locals lookup_scopes assoc]; apply X1; exact Hx|exact X2]. Qed.
Lemma bound2_look : forall B env x, bound2 B env -> In x (map fst B) -> lookup_scopes x (locals env) <> None.
Proof. intros B env x [H H2] Hin. exact (proj2 (H x (proj2 (proj2 (H2 x Hin)))) Hin). Qed.
Lemma bound2_none : forall B env x, bound2 B env -> x <> hid -> assoc x B = None -> lookup_scopes x (locals env) = None.
Proof.
  intros B env x Hb Hx EB. destruct (lookup_scopes x (locals env)) eqn:E; [|reflexivity]. exfalso.
  apply (In_keys_assoc _ B x); [|exact EB]. apply (bound2_in _ _ _ Hb Hx). congruence.
Qed.
Lemma bound2_same : forall B env env', bound2 B env -> (forall x, x <> hid -> lookup_scopes x (locals env') = lookup_scopes x (locals env)) -> bound2 B env'.
Proof. intros B env env' [H1 H2] E. split; [intros x Hx; rewrite (E x Hx); exact (H1 x Hx)|exact H2]. Qed.
Lemma bound2_eq : forall B env env', bound2 B env -> locals env' = locals env -> bound2 B env'.
Proof. intros B env env' H E. apply (bound2_same B env env' H). intros x _. now rewrite E. Qed.

Definition cur_ok (b : cinj) (env : fenv) : Prop :=
  match SF with
  | Some (pk, r) => exists ps body cenv, cur env = Some (RClos ps body cenv) /\ clos_ok b pk r ps body cenv fnm cb
  | None => True end.
Lemma cur_ok_mono : forall b b' env, cinj_le b b' -> cur_ok b env -> cur_ok b' env.
Proof.
  unfold cur_ok. intros b b' env Hle H. destruct SF as [[pk r]|]; [|exact Logic.I].
  destruct H as (ps & body & cenv & E & H). exists ps, body, cenv. split; [exact E|]. eapply clos_ok_mono; eassumption.
Qed.
Lemma cf_top : forall f f' fs, lab f' = lab f -> current_function (f' :: fs) = current_function (f :: fs).
Proof. intros f f' fs E. cbn [current_function]. now rewrite E. Qed.
Lemma cf_special : forall f fs, special (lab f) = true -> current_function (f :: fs) = current_function fs.
Proof. intros f fs H. cbn [current_function]. destruct (lab f); [discriminate|reflexivity..]. Qed.

Record Cl (b : cinj) (B : kctx) (env : fenv) (s : rstate) (g : gstate) : Prop := {
  cl_heap : heap_ok b s g;
  cl_fr : Rfr2 b (locals env) (frames g);
  cl_B : forall x k, assoc x B = Some k -> uname0 x /\
         exists c c', lookup_scopes x (locals env) = Some c /\ find_in_function x (frames g) = Some c' /\ b c c' k;
  cl_cap : forall x k, assoc x CD = Some k ->
           uname0 x /\ exists c c', lookup_scopes x (captured env) = Some c /\ cbget cb x = Some c' /\ b c c' k;
  cl_out : out g = rout s;
  cl_base : skipn (length (locals env)) (frames g) = base;
  cl_ns : NS (locals env);
  cl_nd : frames_nd (frames g);
  cl_cf : current_function (frames g) = Some fnm;
  cl_cur : cur_ok b env
}.

Arguments cl_heap {b B env s g}.
Arguments cl_fr {b B env s g}.
Arguments cl_B {b B env s g}.
Arguments cl_cap {b B env s g}.
Arguments cl_out {b B env s g}.
Arguments cl_base {b B env s g}.
Arguments cl_ns {b B env s g}.
Arguments cl_nd {b B env s g}.
Arguments cl_cf {b B env s g}.
Arguments cl_cur {b B env s g}.

Lemma Cl_ne : forall b B env s g, Cl b B env s g -> locals env <> [].
Proof. intros b B env s g H. exact (proj1 (Rfr2_ne _ _ _ (cl_fr H))). Qed.
Lemma Cl_frames : forall b B env s g, Cl b B env s g -> exists f fs, frames g = f :: fs.
Proof. intros b B env s g H. destruct (frames g) as [|f fs] eqn:E; [destruct (proj2 (Rfr2_ne _ _ _ (cl_fr H)) E)|eauto]. Qed.
Lemma Cl_nd_top : forall b B env s g f fs, Cl b B env s g -> frames g = f :: fs -> keys_nd (vars f).
Proof. intros b B env s g f fs H E. pose proof (cl_nd H) as Hnd. rewrite E in Hnd. exact (Forall_inv Hnd). Qed.
Lemma Cl_val : forall b B env s g c c' k, Cl b B env s g -> b c c' k ->
  exists v w, sget s c = Some v /\ cell_get g c' = Some w /\ vrel b k v w.
Proof. intros b B env s g c c' k H Hb. exact (proj1 (cl_heap H) _ _ _ Hb). Qed.
Lemma Cl_inj : forall b B env s g c c1' k1 c2' k2, Cl b B env s g -> b c c1' k1 -> b c c2' k2 -> c1' = c2'.
Proof. intros b B env s g c c1' k1 c2' k2 H. exact (heap_inj _ _ _ _ _ _ _ _ (cl_heap H)). Qed.
Lemma Cl_unbound : forall b B env s g x, Cl b B env s g -> uname0 x -> P x -> lookup_scopes x (locals env) = None ->
  find_in_function x (frames g) = None.
Proof.
  intros b B env s g x H Hx HP Hn. pose proof (Rfr2_look _ _ _ (cl_fr H) x Hx) as Hl. rewrite Hn in Hl.
  destruct (find_in_function x (frames g)); [destruct (Hl HP)|reflexivity].
Qed.

Lemma Cl_same : forall b B env s g g', Cl b B env s g -> cells g' = cells g -> frames g' = frames g -> out g' = out g ->
  Cl b B env s g'.
Proof.
  intros b B env s g g' [H1 H2 H3 H4 H5 H6 H7 H8 H9 H10] Ec Ef Eo. constructor; rewrite ?Ef, ?Eo; try assumption.
  eapply heap_ok_same; [exact H1|reflexivity|exact Ec].
Qed.

(* after a call: the callee has extended the injection and written related cells; the frames are the caller's again *)
Lemma Cl_after : forall b b' B env s g s' g', Cl b B env s g -> cinj_le b b' -> heap_ok b' s' g' ->
  frames g' = frames g -> out g' = rout s' -> Cl b' B env s' g'.
Proof.
  intros b b' B env s g s' g' [H1 H2 H3 H4 H5 H6 H7 H8 H9 H10] Hle Hh Ef Eo. constructor; rewrite ?Ef; try assumption.
  - eapply Rfr2_mono; eassumption.
  - intros x k E. exact (bound_mono Hle (H3 x k E)).
  - intros x k E. exact (bound_mono Hle (H4 x k E)).
  - eapply cur_ok_mono; eassumption.
Qed.

Lemma Cl_update : forall b B env s g c c' k v w, Cl b B env s g -> b c c' k -> vrel b k v w ->
  Cl b B env (sset s c v) (cell_set g c' w).
Proof.
  intros b B env s g c c' k v w [H1 H2 H3 H4 H5 H6 H7 H8 H9 H10] Hb Hv. constructor; cbn [sset cell_set frames out rout]; try assumption.
  eapply heap_update; eassumption.
Qed.

Lemma Cl_print : forall b B env s g l, Cl b B env s g -> Cl b B env (sprint s l) (emit_line g l).
Proof.
  intros b B env s g l [H1 H2 H3 H4 H5 H6 H7 H8 H9 H10]. constructor; cbn [sprint emit_line frames out rout]; try assumption.
  now rewrite H5.
Qed.

Lemma Cl_vm : forall b B env s g g' extra f f' fs, Cl b B env s g -> cells g' = cells g ++ extra -> out g' = out g ->
  frames g = f :: fs -> frames g' = f' :: fs -> lab f' = lab f ->
  (forall x, uname0 x -> find_in_function x (f' :: fs) = find_in_function x (f :: fs)) -> frames_nd (frames g') ->
  Cl b B env s g'.
Proof.
  intros b B env s g g' extra f f' fs [H1 H2 H3 H4 H5 H6 H7 H8 H9 H10] Ec Eo Ef Ef' Hlab Hfind Hnd.
  rewrite Ef in *. constructor; rewrite ?Eo; try assumption; rewrite ?Ef'.
  - eapply heap_vm_alloc; eassumption.
  - apply (Rfr2_top _ _ f); assumption.
  - intros x k E. exact (bound_keep (cinj_le_refl b) (fun _ => eq_refl) (Hfind x) (H3 x k E)).
  - destruct (locals env) as [|sc l]; [destruct (Rfr2_ne _ _ _ H2); congruence|exact H6].
  - rewrite <- H9. apply cf_top. exact Hlab.
Qed.

Lemma Cl_bind_reg : forall b B env s g y w, Cl b B env s g -> ~ uname0 y ->
  exists f fs, frames g = f :: fs /\
    let cn := N.of_nat (length (cells g)) in
    let g' := {| cells := cells g ++ [w]; frames := {| lab := lab f; vars := assoc_set y cn (vars f) |} :: fs;
                 out := out g; trace := trace g |} in
    bind_local g y w = Some g' /\ Cl b B env s g'.
Proof.
  intros b B env s g y w H Hy. destruct (Cl_frames _ _ _ _ _ H) as (f & fs & Ef). exists f, fs. split; [exact Ef|]. cbv zeta.
  split; [unfold bind_local; rewrite Ef; reflexivity|].
  eapply (Cl_vm b B env s g _ [w] f); [exact H|reflexivity|reflexivity|exact Ef|reflexivity|reflexivity| |].
  - intros x Hx. cbn [find_in_function vars lab]. rewrite assoc_set_other; [reflexivity|]. intros ->. exact (Hy Hx).
  - cbn [frames]. apply (nd_top f fs); [rewrite <- Ef; exact (cl_nd H)|]. apply keys_nd_assoc_set. exact (Cl_nd_top _ _ _ _ _ _ _ H Ef).
Qed.

Lemma Cl_declare : forall b B env s g x k v w sc l f fs,
  Cl b B env s g -> uname0 x -> vrel b k v w -> locals env = sc :: l -> frames g = f :: fs ->
  lookup_scopes x (locals env) = None ->
  let c := N.of_nat (length (store s)) in let c' := N.of_nat (length (cells g)) in
  let b' := add_pair b c c' k in
  let env' := {| locals := assoc_set x c sc :: l; captured := captured env; cur := cur env |} in
  let s' := {| store := store s ++ [v]; rout := rout s |} in
  forall tr, let g' := {| cells := cells g ++ [w]; frames := {| lab := lab f; vars := assoc_set x c' (vars f) |} :: fs;
                          out := out g; trace := tr |} in
  Cl b' ((x, k) :: B) env' s' g' /\ bext b b' s g.
Proof.
  intros b B [lc cap cu] [st ro] [cs fr o tr0] x k v w sc l f fs [H1 H2 H3 H4 H5 H6 H7 H8 H9 H10] Hx Hv El Ef Hn c c' b' env' s' tr g'.
  cbn [locals captured cur store rout cells frames out] in *. subst lc fr.
  destruct (heap_alloc b _ _ k v w H1 Hv s' g' eq_refl eq_refl) as [Hh He]. fold c c' b' in Hh, He.
  assert (Hle : cinj_le b b') by exact (proj1 He).
  split; [|exact He]. constructor; cbn [env' s' g' locals captured cur store rout cells frames out]; try assumption.
  - apply (Rfr2_declare b' sc l f fs x c c' k); [eapply Rfr2_mono; eassumption|right; auto].
  - intros y ky E. cbn [assoc] in E. destruct (str_eqb x y) eqn:Exy.
    + apply str_eqb_eq in Exy. subst y. inversion E; subst ky. split; [exact Hx|]. exists c, c'.
      cbn [lookup_scopes find_in_function vars lab]. rewrite !assoc_set_same. split; [reflexivity|]. split; [reflexivity|right; auto].
    + assert (Hne : y <> x) by (intros ->; rewrite str_eqb_refl in Exy; discriminate).
      refine (bound_keep Hle _ _ (H3 y ky E)); intros _; cbn [lookup_scopes find_in_function vars lab];
        now rewrite assoc_set_other by exact Hne.
  - intros y ky E. exact (bound_mono Hle (H4 y ky E)).
  - apply NS_declare; [exact H7|right; exact Hn].
  - apply (nd_top f fs); [exact H8|]. apply keys_nd_assoc_set. inversion H8; assumption.
  - eapply cur_ok_mono; [exact Hle|exact H10].
Qed.

Lemma Cl_push : forall b B env s g lb, Cl b B env s g -> special lb = true ->
  Cl b B (push_scope env) s (push_frame g lb).
Proof.
  intros b B env s g lb H Hs. pose proof (Cl_ne _ _ _ _ _ H) as Hne. destruct H as [H1 H2 H3 H4 H5 H6 H7 H8 H9 H10].
  constructor; cbn [push_scope push_frame with_frames locals captured frames out cells]; try assumption.
  - now apply Rfr2_push.
  - intros x k E. cbn [lookup_scopes assoc find_in_function vars lab]. rewrite Hs. exact (H3 x k E).
  - now apply NS_push.
  - constructor; [constructor|exact H8].
  - rewrite <- H9. apply cf_special. exact Hs.
Qed.

Lemma Cl_pop : forall b B B0 env s g sc l f fs,
  Cl b B env s g -> locals env = sc :: l -> l <> [] -> frames g = f :: fs ->
  (forall x k, assoc x B0 = Some k -> assoc x B = Some k /\ lookup_scopes x l <> None) ->
  Cl b B0 (pop_scope env) s (with_frames g fs).
Proof.
  intros b B B0 [lc cap cu] s [cs fr o tr] sc l f fs [H1 H2 H3 H4 H5 H6 H7 H8 H9 H10] El Hl Ef HB0.
  cbn [locals captured cur cells frames out] in *. subst lc fr.
  destruct l as [|sc' l']; [congruence|].
  constructor; cbn [pop_scope with_frames locals captured cur tl cells frames out]; try assumption.
  - eapply Rfr2_pop; exact H2.
  - intros x k E. destruct (HB0 x k E) as [EB Hlk]. destruct (H3 x k EB) as (Hx & c & c' & A1 & A2 & A3). split; [exact Hx|].
    destruct (lookup_scopes x (sc' :: l')) as [d|] eqn:Ed; [|congruence].
    assert (d = c).
    { pose proof (NS_lookup_tl sc (sc' :: l') x d H7 (proj2 (proj2 Hx)) Ed) as E2. congruence. }
    subst d.
    destruct (Rfr2_found _ _ _ _ _ (Rfr2_pop _ _ _ _ _ _ H2) Hx Ed) as (d' & k' & Ed' & Hk).
    exists c, c'. rewrite Ed', <- (heap_inj _ _ _ _ _ _ _ _ H1 A3 Hk). auto.
  - exact (proj2 H7).
  - inversion H8; assumption.
  - rewrite <- H9. symmetry. apply cf_special. eapply Rfr2_top_special; exact H2.
Qed.
(* the end of a from loop: the counter leaves the innermost scope / the top frame (together with VM-only names) *)
Lemma Cl_undeclare : forall b B env s g x k sc l f fs vs,
  Cl b ((x, k) :: B) env s g -> locals env = sc :: l -> frames g = f :: fs -> uname0 x -> assoc x B = None ->
  (forall y, uname0 y -> y <> x -> assoc y vs = assoc y (vars f)) -> assoc x vs = None ->
  assoc x (assoc_del x sc) = None -> lookup_scopes x l = None -> keys_nd vs ->
  Cl b B (undeclare env x) s (with_frames g ({| lab := lab f; vars := vs |} :: fs)).
Proof.
  intros b B [lc cap cu] s [cs fr o tr] x k sc l f fs vs [H1 H2 H3 H4 H5 H6 H7 H8 H9 H10] El Ef Hx HxB Hvs Hxv Hxs Hxl Hnd.
  cbn [locals captured cur cells frames out] in *. subst lc fr. unfold undeclare. cbn [locals captured cur with_frames frames cells out].
  constructor; cbn [locals captured cur cells frames out]; try assumption.
  - eapply Rfr2_undeclare; eassumption.
  - intros y ky E. assert (Hne : y <> x) by (intros ->; congruence).
    refine (bound_keep (cinj_le_refl b) _ _ (H3 y ky _)).
    + intros _. cbn [lookup_scopes]. now rewrite assoc_del_other by exact Hne.
    + intros Hy. cbn [find_in_function vars lab with_frames frames]. now rewrite (Hvs y Hy Hne).
    + cbn [assoc]. now rewrite str_eqb_neq by congruence.
  - exact (NS_undeclare _ _ _ H7).
  - apply (nd_top f fs); assumption.
Qed.
(* the context of the activation is recovered from the cells its names have (after a `break` / `continue` has popped
   the block frames) *)
Lemma Cl_weaken : forall b B env s g, Cl b B env s g -> Cl b [] env s g.
Proof. intros b B env s g [H1 H2 H3 H4 H5 H6 H7 H8 H9 H10]. constructor; try assumption. intros x k E. discriminate E. Qed.
Lemma Cl_B_of : forall b B env s g, Cl b [] env s g ->
  (forall x k, assoc x B = Some k -> uname0 x /\ exists c c', lookup_scopes x (locals env) = Some c /\ b c c' k) ->
  Cl b B env s g.
Proof.
  intros b B env s g [H1 H2 H3 H4 H5 H6 H7 H8 H9 H10] HB. constructor; try assumption.
  intros x k E. destruct (HB x k E) as (Hx & c & c' & A1 & A2). destruct (Rfr2_found _ _ _ _ _ H2 Hx A1) as (c'' & k' & F & Hk').
  split; [exact Hx|]. exists c, c'. rewrite F, <- (heap_inj _ _ _ _ _ _ _ _ H1 A2 Hk'). auto.
Qed.
Lemma Cl_popn : forall m b B env s g, Cl b B env s g -> m < length (locals env) ->
  exists g', pop_frames m g = Some g' /\ Cl b [] (popn m env) s g' /\ frames g' = skipn m (frames g) /\
             cells g' = cells g /\ out g' = out g.
Proof.
  induction m as [|m IH]; intros b B env s g HC Hm.
  - exists g. split; [reflexivity|]. split; [|auto]. apply Cl_weaken in HC. destruct env. exact HC.
  - destruct (locals env) as [|sc l] eqn:El; [cbn [length] in Hm; lia|]. destruct l as [|sc' l']; [cbn [length] in Hm; lia|].
    destruct (Cl_frames _ _ _ _ _ HC) as (f & fs & Ef).
    pose proof (Cl_pop b B [] env s g sc (sc' :: l') f fs HC El ltac:(discriminate) Ef ltac:(intros x k E; discriminate E)) as HC1.
    destruct (IH b [] (pop_scope env) s (with_frames g fs) HC1 ltac:(cbn [pop_scope locals]; rewrite El; cbn [tl length] in *; lia))
      as (g' & E1 & HC' & F & C & O).
    exists g'. split; [cbn [pop_frames]; unfold pop_frame; rewrite Ef; exact E1|]. split.
    + replace (popn (S m) env) with (popn m (pop_scope env)); [exact HC'|]. unfold popn, pop_scope. cbn [locals captured cur]. rewrite El. reflexivity.
    + split; [rewrite F, Ef; reflexivity|auto].
Qed.
(* Cl does not see the innermost scope at names that are not user names (the hidden counter of an anonymous from loop) *)
Lemma Cl_scope : forall b B env s g sc sc' l, Cl b B env s g -> locals env = sc :: l ->
  (forall x, uname0 x -> assoc x sc' = assoc x sc) -> NS (sc' :: l) ->
  Cl b B {| locals := sc' :: l; captured := captured env; cur := cur env |} s g.
Proof.
  intros b B [lc cap cu] s g sc sc' l [H1 H2 H3 H4 H5 H6 H7 H8 H9 H10] El Hs Hns. cbn [locals captured cur] in *. subst lc.
  constructor; cbn [locals captured cur]; try assumption.
  - destruct (frames g) as [|f fs]; [destruct (proj2 (Rfr2_ne _ _ _ H2) eq_refl)|].
    apply (Rfr2_head_same b sc sc' l f f fs H2 eq_refl Hs). reflexivity.
  - intros y ky E. refine (bound_keep (cinj_le_refl b) _ (fun _ => eq_refl) (H3 y ky E)). intros Hy.
    cbn [lookup_scopes]. now rewrite (Hs y Hy).
Qed.

(* the reference semantics declares the hidden counter; the VM has bound a loop register to a cell of its own before (the
   upper bound was evaluated in between): the two cells are paired now *)
Lemma Cl_declare_hid : forall b B env s g v c' sc l,
  Cl b B env s g -> locals env = sc :: l -> first_order v -> cell_get g c' = Some (inj v) -> (forall c k, ~ b c c' k) ->
  let c := N.of_nat (length (store s)) in
  Cl (add_pair b c c' KD) B {| locals := assoc_set hid c sc :: l; captured := captured env; cur := cur env |}
     {| store := store s ++ [v]; rout := rout s |} g.
Proof.
  intros b B env s g v c' sc l H El Hfo Hc' Hn c. apply (Cl_scope _ _ env _ _ sc _ l); [|exact El| |].
  - apply (Cl_after b _ B env s g); [exact H|intros x y z Hb; left; exact Hb| |reflexivity|exact (cl_out H)].
    apply (heap_pair b s _ g KD v (inj v) c' (cl_heap H) (conj Hfo eq_refl) Hc' Hn). reflexivity.
  - intros y Hy. apply assoc_set_other. exact (proj2 (proj2 Hy)).
  - apply NS_declare; [rewrite <- El; exact (cl_ns H)|now left].
Qed.

Lemma Cl_undeclare_hid : forall b B env s g sc l f fs vs,
  Cl b B env s g -> locals env = sc :: l -> frames g = f :: fs ->
  (forall y, uname0 y -> assoc y vs = assoc y (vars f)) -> keys_nd vs ->
  Cl b B (undeclare env hid) s (with_frames g ({| lab := lab f; vars := vs |} :: fs)).
Proof.
  intros b B env s g sc l f fs vs H El Ef Hvs Hnd. unfold undeclare. rewrite El.
  apply (Cl_scope _ _ env _ _ sc _ l); [|exact El| |].
  - eapply (Cl_vm b B env s g _ [] f _ fs H); [symmetry; apply app_nil_r|reflexivity|exact Ef|reflexivity|reflexivity| |].
    + intros x Hx. cbn [find_in_function vars lab]. now rewrite (Hvs x Hx).
    + apply (nd_top f fs); [rewrite <- Ef; exact (cl_nd H)|exact Hnd].
  - intros y Hy. apply assoc_del_other. exact (proj2 (proj2 Hy)).
  - apply NS_undeclare. rewrite <- El. exact (cl_ns H).
Qed.
End Act.
End Rel.

Arguments cl_heap {path prog P cb CD base fnm SF b B env s g}.
Arguments cl_fr {path prog P cb CD base fnm SF b B env s g}.
Arguments cl_B {path prog P cb CD base fnm SF b B env s g}.
Arguments cl_cap {path prog P cb CD base fnm SF b B env s g}.
Arguments cl_out {path prog P cb CD base fnm SF b B env s g}.
Arguments cl_base {path prog P cb CD base fnm SF b B env s g}.
Arguments cl_ns {path prog P cb CD base fnm SF b B env s g}.
Arguments cl_nd {path prog P cb CD base fnm SF b B env s g}.
Arguments cl_cf {path prog P cb CD base fnm SF b B env s g}.
Arguments cl_cur {path prog P cb CD base fnm SF b B env s g}.
Arguments Cl_ne {path prog P cb CD base fnm SF b B env s g}.
Arguments Cl_frames {path prog P cb CD base fnm SF b B env s g}.
Arguments Cl_weaken {path prog P cb CD base fnm SF b B env s g}.
Arguments Cl_nd_top {path prog P cb CD base fnm SF b B env s g f fs}.
Arguments Cl_val {path prog P cb CD base fnm SF b B env s g c c' k}.
Arguments Cl_inj {path prog P cb CD base fnm SF b B env s g c c1' k1 c2' k2}.
Arguments Cl_unbound {path prog P cb CD base fnm SF b B env s g x}.

Definition allP : str -> Prop := fun _ => True.

(* A name the VM binds before the reference semantics does: code that binds a variable and evaluates an expression before
   the point where the reference semantics declares the variable.  Compile.cstmt has no such case. *)
Lemma Rfr2_weakenP : forall (P P' : str -> Prop) b l fs, (forall y, P y -> P' y) -> Rfr2 P' b l fs -> Rfr2 P b l fs.
Proof.
  intros P P' b l. induction l as [|sc l IH]; intros fs HP H; [destruct fs; exact H|]. destruct fs as [|f fs]; [exact H|].
  cbn [Rfr2] in H |- *. destruct H as [Hl H]. split.
  - intros x Hx. exact (orelP_impl _ _ _ _ _ _ _ _ (HP x) (fun _ _ H => H) (Hl x Hx)).
  - destruct l as [|sc' l']; [exact H|]. destruct H as [Hs H]. split; [exact Hs|]. now apply IH.
Qed.

(* store_fast x: the VM binds x in its top frame, to a cell of its own *)
Lemma Cl_bind_ghost : forall path prog (P P' : str -> Prop) cb CD base fnm SF b B env s g x w f fs,
  Cl path prog P' cb CD base fnm SF b B env s g -> (forall y, P y -> P' y /\ y <> x) -> frames g = f :: fs ->
  assoc x B = None -> lookup_scopes x (locals env) = None ->
  forall tr, let cn := N.of_nat (length (cells g)) in
  Cl path prog P cb CD base fnm SF b B env s
     {| cells := cells g ++ [w]; frames := {| lab := lab f; vars := assoc_set x cn (vars f) |} :: fs; out := out g; trace := tr |}.
Proof.
  intros path prog P P' cb CD base fnm SF b B env s [cs fr o tr0] x w f fs [H1 H2 H3 H4 H5 H6 H7 H8 H9 H10] HP Ef HxB Hn tr cn.
  cbn [cells frames out trace] in *. subst fr.
  constructor; cbn [cells frames out]; try assumption.
  - eapply heap_vm_alloc; [exact H1|reflexivity].
  - apply (Rfr2_weakenP P P') in H2; [|intros y Hy; exact (proj1 (HP y Hy))].
    destruct (locals env) as [|sc l] eqn:El; [exact H2|]. apply (Rfr2_head P b sc sc l f _ fs H2); [reflexivity|].
    intros y Hy. cbn [find_in_function vars lab]. destruct (list_eq_dec N.eq_dec y x) as [->|Hne].
    + rewrite assoc_set_same, Hn. cbn [orelP]. intros Hp. exact (proj2 (HP x Hp) eq_refl).
    + rewrite assoc_set_other by exact Hne. exact (Rfr2_look P _ _ _ H2 y Hy).
  - intros y k E. refine (bound_keep (cinj_le_refl b) (fun _ => eq_refl) _ (H3 y k E)). intros _.
    cbn [find_in_function vars lab]. rewrite assoc_set_other; [reflexivity|]. intros ->. congruence.
  - destruct (locals env) as [|sc l]; [destruct (Rfr2_ne _ _ _ _ H2); congruence|]. cbn [length skipn] in *. exact H6.
  - apply (nd_top f fs); [exact H8|]. apply keys_nd_assoc_set. inversion H8; assumption.
Qed.

(* ... and the reference semantics declares x now: the two cells are paired; every name is bound on both sides or on none again *)
Lemma Cl_declare_late : forall path prog (P P' : str -> Prop) cb CD base fnm SF b0 b B env s g x v c' sc l f0 f fs,
  Cl path prog P cb CD base fnm SF b B env s g -> (forall y, y <> x -> P' y -> P y) ->
  Rfr2 P' b0 (locals env) (f0 :: fs) -> cinj_le b0 b ->
  locals env = sc :: l -> frames g = f :: fs -> uname0 x -> assoc x (vars f) = Some c' ->
  first_order v -> cell_get g c' = Some (inj v) -> (forall c k, ~ b c c' k) ->
  lookup_scopes x (locals env) = None -> assoc x B = None ->
  let c := N.of_nat (length (store s)) in
  Cl path prog P' cb CD base fnm SF (add_pair b c c' KD) ((x, KD) :: B)
     {| locals := assoc_set x c sc :: l; captured := captured env; cur := cur env |}
     {| store := store s ++ [v]; rout := rout s |} g.
Proof.
  intros path prog P P' cb CD base fnm SF b0 b B [lc cap cu] [st ro] g x v c' sc l f0 f fs [H1 H2 H3 H4 H5 H6 H7 H8 H9 H10]
         HP H0 Hle0 El Ef Hx Hax Hfo Hc' Hn Hlk HxB c.
  cbn [locals captured cur store rout] in *. subst lc.
  assert (Hle : cinj_le b (add_pair b c c' KD)) by (intros x1 y1 z1 Hb; left; exact Hb).
  constructor; cbn [locals captured cur store rout]; try assumption.
  - apply (heap_pair path prog b {| store := st; rout := ro |} _ g KD v (inj v) c' H1 (conj Hfo eq_refl) Hc' Hn). reflexivity.
  - rewrite Ef in *. cbn [Rfr2] in H2, H0 |- *. destruct H2 as [Hl H2]. destruct H0 as [_ H0]. split.
    + intros y Hy. cbn [lookup_scopes find_in_function vars lab]. destruct (list_eq_dec N.eq_dec y x) as [->|Hne].
      * rewrite assoc_set_same, Hax. cbn [orelP]. exists KD. right. auto.
      * rewrite assoc_set_other by exact Hne. refine (orelP_impl _ _ _ _ _ _ _ _ (HP y Hne) _ (Hl y Hy)).
        intros c1 c2 [k Hk]. exists k. now left.
    + destruct l as [|sc' l']; [exact H2|]. destruct H2 as [Hs _]. destruct H0 as [_ H0]. split; [exact Hs|].
      apply (Rfr2_mono P' b0); [|exact H0]. intros c1 c2 k Hb. left. now apply Hle0.
  - intros y ky E. cbn [assoc] in E. destruct (str_eqb x y) eqn:Exy.
    + apply str_eqb_eq in Exy. subst y. inversion E; subst ky. split; [exact Hx|]. exists c, c'.
      rewrite Ef. cbn [lookup_scopes find_in_function]. rewrite assoc_set_same, Hax. split; [reflexivity|]. split; [reflexivity|right; auto].
    + assert (Hne : y <> x) by (intros ->; rewrite str_eqb_refl in Exy; discriminate).
      refine (bound_keep Hle _ (fun _ => eq_refl) (H3 y ky E)). intros _. cbn [lookup_scopes]. now rewrite assoc_set_other by exact Hne.
  - intros y ky E. exact (bound_mono Hle (H4 y ky E)).
  - apply NS_declare; [exact H7|right; exact Hlk].
  - eapply cur_ok_mono; [exact Hle|exact H10].
Qed.

(* the captured context is used in one clause only *)
Lemma Cl_cd : forall path prog (P : str -> Prop) cb CD CD' base fnm SF b B env s g,
  Cl path prog P cb CD base fnm SF b B env s g ->
  (forall x k, assoc x CD' = Some k ->
     uname0 x /\ exists c c', lookup_scopes x (captured env) = Some c /\ cbget cb x = Some c' /\ b c c' k) ->
  Cl path prog P cb CD' base fnm SF b B env s g.
Proof. intros path prog P cb CD CD' base fnm SF b B env s g [H1 H2 H3 H4 H5 H6 H7 H8 H9 H10] H. constructor; assumption. Qed.
