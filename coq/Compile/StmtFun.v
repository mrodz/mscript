(* C01, statement level: functions.  The compiled code of a function whose body is in the fragment of StmtFrag.v, run by
   run_fn, does what `call_clos` of the reference semantics does (fun_sim): same return value / no value / failure, every
   cell that existed before the call keeps its value, the caller's frames are restored (also on an early `return` from
   inside nested blocks), the printed lines agree.  Its hypotheses -- `self`, the functions it captured do what call_clos
   does with less fuel -- are discharged along a table in which a function captures only earlier ones (table_fun_sim,
   gcall_ok); module_fun_correct is Eval.run vs Model.execute of cprogram for modules `definitions; main`. *)
From MS Require Import Lang.Eval.
From MS Require Import Vm.Model Lang.Syntax Compile.Compile Verify.Sound Compile.ExprBase Compile.ExprSim.
From MS Require Import Compile.StmtMach Compile.StmtRel Compile.StmtFrag Compile.StmtSim.
From Coq Require Import Lia.
Open Scope nat_scope.

(* the prologue of a function: arg k; store p_k *)
Fixpoint pcodeP (k : nat) (ps : list str) : list instr :=
  match ps with [] => [] | x :: l => mkI OP_ARG [sN k] :: mkI OP_STORE [x] :: pcodeP (S k) l end.
Lemma pcodeP_length : forall ps k, length (pcodeP k ps) = 2 * length ps.
Proof. induction ps as [|x l IH]; intros k; cbn [pcodeP length]; [reflexivity|]. rewrite IH. lia. Qed.

Lemma dec_arg : forall k, small k -> decode (mkI OP_ARG [sN k]) = DOk (DArg k).
Proof.
  intros k H.
  change (decode (mkI OP_ARG [sN k])) with
    (match parse_nat (sN k) with Some n => DOk (DArg n) | None => DErr (E_bad_arg OP_ARG) end).
  now rewrite parse_nat_sN.
Qed.
Lemma dec_ret : decode (mkI OP_RET []) = DOk DRet.
Proof. reflexivity. Qed.

(* the fields of the statement relation, its parameters left to unification *)
Local Notation rg_out H := (Rg_out _ _ _ _ _ _ _ _ _ _ _ _ _ H).
Local Notation rg_drop H := (Rg_drop _ _ _ _ _ _ _ _ _ _ _ _ _ H).
Local Notation rg_ne H := (Rg_ne _ _ _ _ _ _ _ _ _ _ _ _ _ H).

Lemma fenv_eta : forall e, e = {| locals := locals e; captured := captured e; cur := cur e |}.
Proof. intros []. reflexivity. Qed.

Lemma bound_in_nil : forall FT cap cu, bound_in FT [] [] {| locals := [[]]; captured := cap; cur := cu |}.
Proof. intros FT cap cu. split; [intros x _; cbn; split; [congruence|intros [[]|[]]]|intros x []]. Qed.

(* a state with ONE scope above the captured environment and ONE frame above `base`, neither binding a user name:
   no two cells are paired, so a pinned cell only has to hold its value *)
Lemma Rg_one : forall base FT lfuns fcells cb selfv fnm fpins cdsc pins sc vs cap s g,
  frames g = {| lab := LFun fnm; vars := vs |} :: base -> frames_nd (frames g) -> out g = rout s ->
  (forall x, uname (fnames FT) x -> assoc x sc = None /\ assoc x vs = None) ->
  (forall x, assoc x sc <> None -> In x lfuns) ->
  (forall cy w, vpin pins cy w \/ vpin fpins cy w -> cell_get g cy = Some w) ->
  (forall c v, spin pins c v \/ spin fpins c v -> sget s c = Some v) ->
  (forall f c c' cenv cbf, assoc f fcells = Some (c, c', cenv, cbf) ->
     lookup_scopes f (sc :: cap) = Some c /\ lookup_fs cb (frames g) f = Some c') ->
  (forall x c, assoc x cdsc = Some c -> lookup_scopes x cap = Some c) ->
  Rg base FT lfuns fcells cb selfv fnm fpins cdsc [] pins {| locals := [sc]; captured := cap; cur := selfv |} s g.
Proof.
  intros base FT lfuns fcells cb selfv fnm fpins cdsc pins sc vs cap s g Ef Hnd Ho Hun Hlf Hv Hs Hfl Hcd.
  assert (Hnp : forall c c', ~ StmtRel.pairs (fnames FT) [sc] (frames g) c c').
  { intros c c' Hp. rewrite Ef in Hp. destruct Hp as [(x & Hx & E & _)|[]]. cbn [lookup_scopes] in E.
    rewrite (proj1 (Hun x Hx)) in E. discriminate. }
  assert (Hpin : forall P, (forall cy w, vpin P cy w -> cell_get g cy = Some w) -> (forall c v, spin P c v -> sget s c = Some v) ->
            pins_ok (fnames FT) P [sc] (frames g) (store s) (cells g)).
  { intros P H1 H2. split; [intros cy w Hq; split; [exact (H1 _ _ Hq)|]|intros c v Hq; split; [exact (H2 _ _ Hq)|]];
      intros c0; apply Hnp. }
  constructor; cbn [locals captured cur length skipn].
  - rewrite Ef. cbn [StmtRel.Rfr]. split; [|reflexivity]. intros x Hx.
    cbn [lookup_scopes find_in_function vars lab special]. destruct (Hun x Hx) as [-> ->]. exact Logic.I.
  - intros c1 c1' c2 c2' H1. destruct (Hnp _ _ H1).
  - exact Ho.
  - rewrite Ef. reflexivity.
  - intros x Hx. right. left. apply Hlf. now rewrite lookup_one_scope in Hx.
  - split; [intros y _ _; reflexivity|exact Logic.I].
  - apply Hpin; intros; [apply Hv|apply Hs]; now left.
  - exact Hnd.
  - apply Hpin; intros; [apply Hv|apply Hs]; now right.
  - intros f c c' cenv cbf E k Hk. assert (k = 0) by (cbn [length] in Hk; lia). subst k. exact (Hfl f c c' cenv cbf E).
  - reflexivity.
  - rewrite Ef. reflexivity.
  - exact Hcd.
  - intros x c c' [].
Qed.

(* at the entry of a function every cell that exists is pinned, on both sides *)
Definition call_pins (s : rstate) (g : gstate) : pinset :=
  {| vpin := fun c w => cell_get g c = Some w; spin := fun c v => sget s c = Some v |}.

Definition fpins_of (FT : ftab) (fcells : list (str * (N * N * list scope * option (list (str * N))))) (floc : str -> str) : pinset :=
  {| vpin := fun c' w => exists f c cenv cbf, assoc f fcells = Some (c, c', cenv, cbf) /\ w = VFun (floc f) cbf;
     spin := fun c v => exists f c' cenv cbf ps body, assoc f fcells = Some (c, c', cenv, cbf) /\
                                                     assoc f FT = Some (ps, body) /\ v = RClos ps body cenv |}.
Lemma fpins_of_v : forall FT fcells floc f c c' cenv cbf, assoc f fcells = Some (c, c', cenv, cbf) ->
  vpin (fpins_of FT fcells floc) c' (VFun (floc f) cbf).
Proof. intros FT fcells floc f c c' cenv cbf E. exists f, c, cenv, cbf. auto. Qed.
Lemma fpins_of_s : forall FT fcells floc f c c' cenv cbf ps body, assoc f fcells = Some (c, c', cenv, cbf) ->
  assoc f FT = Some (ps, body) -> spin (fpins_of FT fcells floc) c (RClos ps body cenv).
Proof. intros FT fcells floc f c c' cenv cbf ps body E E2. exists f, c', cenv, cbf, ps, body. auto. Qed.

(* the static pins of an activation: the function cells (fpins) and the captured data cells the activation and the
   functions it calls need, at their values at entry (nothing writes them while the activation runs) *)
Definition dpins (fpins : pinset) (dn : list (N * N)) (s : rstate) (g : gstate) : pinset :=
  {| vpin := fun c' w => vpin fpins c' w \/
                         exists c v, In (c, c') dn /\ first_order v /\ sget s c = Some v /\ cell_get g c' = Some w /\ w = inj v;
     spin := fun c v => spin fpins c v \/
                        exists c', In (c, c') dn /\ first_order v /\ sget s c = Some v /\ cell_get g c' = Some (inj v) |}.

Lemma fvals_dpins : forall fpins dn s g, fvals fpins s g -> fvals (dpins fpins dn s g) s g.
Proof.
  intros fpins dn s g [Fv Fs]. split.
  - intros cy w [Hq|(c0 & v & _ & _ & _ & Hc & _)]; [exact (Fv _ _ Hq)|exact Hc].
  - intros c0 v [Hq|(c' & _ & _ & Hs & _)]; [exact (Fs _ _ Hq)|exact Hs].
Qed.
Lemma dpins_pair : forall fpins dn s g c c', drel dn s g -> In (c, c') dn ->
  exists v, first_order v /\ spin (dpins fpins dn s g) c v /\ vpin (dpins fpins dn s g) c' (inj v).
Proof.
  intros fpins dn s g c c' Hdr Hin. destruct (Hdr c c' Hin) as (v & Hfo & Hs & Hc). exists v.
  split; [exact Hfo|]. split; [right; exists c'; auto|right; exists c, v; auto].
Qed.

(* more pins: a weaker promise of the caller *)
Lemma callee_ok_pins : forall (P P' : pinset) prog fuel ps body cenv loc cb0 dn0,
  (forall cy w, vpin P cy w -> vpin P' cy w) -> (forall c v, spin P c v -> spin P' c v) ->
  callee_ok P prog fuel ps body cenv loc cb0 dn0 -> callee_ok P' prog fuel ps body cenv loc cb0 dn0.
Proof.
  intros P P' prog fuel ps body cenv loc cb0 dn0 Hv Hs H vs s g1 Hfo Hlen Ho Hnd Hfv Hdr.
  apply H; try assumption. destruct Hfv as [F1 F2]. split; intros; auto.
Qed.
Lemma call_ok_pins : forall (P P' : pinset) FT fcells floc fdn prog fuel,
  (forall cy w, vpin P cy w -> vpin P' cy w) -> (forall c v, spin P c v -> spin P' c v) ->
  call_ok FT fcells floc P fdn prog fuel -> call_ok FT fcells floc P' fdn prog fuel.
Proof.
  intros P P' FT fcells floc fdn prog fuel Hv Hs H f ps body c c' cenv cbf Eft Efc.
  exact (callee_ok_pins P P' _ _ _ _ _ _ _ _ Hv Hs (H f ps body c c' cenv cbf Eft Efc)).
Qed.

(* a body that completes without `return` is followed by `void; ret`, or, when its last statement is a `return`,
   by the end of the code, where the interpreter pops the function frame: no value either way *)
Lemma run_fn_noval : forall prog name code argv cb g a' g',
  assoc name prog = Some code -> xrun prog name code (act0 name argv cb) (push_frame g (LFun name)) a' g' ->
  (code_at code (a_ip a') [mkI OP_VOID []; mkI OP_RET []] /\ drop_to_function (frames g') = frames g) \/
  (nth_error code (a_ip a') = None /\ tl (frames g') = frames g /\ frames g' <> []) ->
  exists fuel' gf, run_fn fuel' prog name argv cb g = RDone None gf /\
                   frames gf = frames g /\ out gf = out g' /\ cells gf = cells g'.
Proof.
  intros prog name code argv cb g a' g' Hcode R [[Hc Hdrop]|(Hi & Htl & Hne)].
  - apply code_at_cons in Hc as [Hi1 Hc]. apply code_at_cons in Hc as [Hi2 _].
    pose proof (xstep_upd prog name code a' (g := g') Hi1 dec_void (exec_void _ _)) as R1.
    destruct (run_fn_ret prog name code argv cb g _ _ _ DRet None _ _ Hcode (xrun_trans _ _ _ _ _ _ _ _ _ R R1) Hi2 eq_refl eq_refl)
      as [fuel' Hrun].
    exists fuel'. eexists. split; [exact Hrun|]. split; [exact Hdrop|split; reflexivity].
  - destruct (frames g') as [|f fs] eqn:Ef; [congruence|]. cbn [tl] in Htl.
    destruct (run_fn_falloff prog name code argv cb g a' g' (with_frames g' fs) Hcode R Hi) as [fuel' Hrun].
    { unfold pop_frame. now rewrite Ef. }
    exists fuel'. eexists. split; [exact Hrun|]. split; [exact Htl|split; reflexivity].
Qed.

Section Callee.
Variable prog : program.
(* the functions the callee sees (through its captured environment / its callback cells) *)
Variable FT : ftab.
Variable fcells : list (str * (N * N * list scope * option (list (str * N)))).
Variable floc : str -> str.
Hypothesis Hfun0 : forall f, In f (fnames FT) -> uname0 f.
Hypothesis Hfck : forall f, In f (fnames FT) <-> assoc f fcells <> None.
Variable cbf : option (list (str * N)).     (* the callee's captured cells *)
Variable selfv : option rvalue.
Variable name : str.
(* the data variables the callee captures (name -> source cell) *)
Variable cdsc : scope.

Section Entry.
Variable fpins : pinset.

Local Notation RgC base := (Rg base FT [] fcells cbf selfv name fpins cdsc []).
Local Notation RstC base := (Rst base FT [] fcells cbf selfv name fpins cdsc []).
Local Notation boundC := (bound_in FT []).

Lemma Rst_entry : forall argv s g1 cenv,
  out g1 = rout s -> frames_nd (frames g1) -> fvals fpins s g1 ->
  (forall f c c' ce cb', assoc f fcells = Some (c, c', ce, cb') ->
     lookup_scopes f cenv = Some c /\ exists m, cbf = Some m /\ assoc f m = Some c') ->
  (forall x c, assoc x cdsc = Some c -> lookup_scopes x cenv = Some c) ->
  RstC (frames g1) (call_pins s g1) {| locals := [[]]; captured := cenv; cur := selfv |} s (act0 name argv cbf)
       (push_frame g1 (LFun name)).
Proof.
  intros argv s g1 cenv Ho Hnd [Fv Fs] Hent Hcap. split; [|split; [reflexivity|apply le_n]].
  apply Rg_one with (vs := []).
  - reflexivity.
  - constructor; [constructor|exact Hnd].
  - exact Ho.
  - intros x _. split; reflexivity.
  - intros x Hx. destruct (Hx eq_refl).
  - intros cy w [Hq|Hq]; [exact Hq|exact (Fv _ _ Hq)].
  - intros c v [Hq|Hq]; [exact Hq|exact (Fs _ _ Hq)].
  - intros f c c' ce cb' E. destruct (Hent f c c' ce cb' E) as (H1 & m & -> & H2). split; [exact H1|exact H2].
  - exact Hcap.
Qed.

(* every cell of the caller is pinned (call_pins), so it keeps its value *)
Lemma keep_of_Rg_val : forall base s g1 env' s' g' gf,
  RgC base (call_pins s g1) env' s' g' ->
  frames gf = frames g1 -> out gf = out g' -> cells gf = cells g' -> val_keep s s' g1 gf.
Proof.
  intros base s g1 env' s' g' gf HG F1 F2 F3. destruct (Rg_pins _ _ _ _ _ _ _ _ _ _ _ _ _ HG) as [H1 H2].
  split; [exact F1|]. split; [rewrite F2; exact (rg_out HG)|].
  split; [intros c0 v Hv; exact (proj1 (H2 c0 v Hv))|].
  intros c0 w Hw. unfold cell_get. rewrite F3. exact (proj1 (H1 c0 w Hw)).
Qed.

Section Params.
Variable base : list frame.                     (* the caller's frames *)
Variable code : list instr.

Lemma param_step : forall p v k B pins a g env s,
  nth_error code (a_ip a) = Some (mkI OP_ARG [sN k]) -> nth_error code (S (a_ip a)) = Some (mkI OP_STORE [p]) ->
  small k -> nth_error (a_args a) k = Some (inj v) -> first_order v ->
  RstC base pins env s a g -> boundC B env -> ~ In p B -> uname (fnames FT) p ->
  let a' := upd a (S (S (a_ip a))) [] in
  exists g', xrun prog name code a g a' g' /\
    RstC base pins (fst (declare env s p v)) (snd (declare env s p v)) a' g' /\ boundC (p :: B) (fst (declare env s p v)).
Proof.
  intros p v k B pins a g env s Hi1 Hi2 Hk Harg Hfo (HG & Hops & Hss) Hb HpB Hpu.
  set (a1 := upd a (S (a_ip a)) [inj v]). set (g1 := trc name a g (mkI OP_ARG [sN k])).
  assert (R1 : xrun prog name code a g a1 g1).
  { apply (xstep_upd prog name code a Hi1 (dec_arg k Hk)). unfold exec_d. now rewrite Harg, Hops. }
  assert (Hpn : lookup_scopes p (locals env) = None).
  { destruct (lookup_scopes p (locals env)) eqn:E; [|reflexivity]. exfalso.
    destruct (proj1 (proj1 Hb p (uname_not_hid _ Hpu)) ltac:(congruence)) as [Hin|[]]. exact (HpB Hin). }
  assert (Eas : assign env s p v = declare env s p v) by (unfold assign; now rewrite Hpn).
  destruct (declare env s p v) as [env1 s1].
  destruct (store_rel base FT [] fcells cbf Hfck selfv name fpins cdsc [] env s (trc name a1 g1 (mkI OP_STORE [p])) p v env1 s1
              ltac:(apply Rg_trc; apply Rg_trc; exact HG) Hpu Hfo Eas)
    as (g2 & Hst & HG2 & Hd & Hbx & _).
  exists g2. cbn [fst snd]. split; [|split].
  - eapply xrun_trans; [exact R1|]. exact (xstep_upd prog name code a1 Hi2 (dec_store p) (exec_store p a1 _ (inj v) g2 eq_refl Hst)).
  - split; [exact HG2|split; [reflexivity|]]. rewrite (same_tl_length _ _ (rg_ne HG) Hd). exact Hss.
  - eapply (bound_in_assign FT []); eassumption.
Qed.

Lemma params_run : forall ps vs k B acc cap cu pins a g s allvs,
  code_at code (a_ip a) (pcodeP k ps) -> a_args a = map inj allvs ->
  (forall j v, nth_error vs j = Some v -> nth_error allvs (k + j) = Some v) ->
  RstC base pins {| locals := [acc]; captured := cap; cur := cu |} s a g ->
  boundC B {| locals := [acc]; captured := cap; cur := cu |} ->
  NoDup ps -> (forall x, In x ps -> ~ In x B) -> forallb src_nameb ps = true ->
  (forall x, In x ps -> ~ In x (fnames FT)) ->
  Forall first_order vs -> length vs = length ps -> small (k + length ps) ->
  match bind_params ps vs s acc with
  | Some (sc, s') => let a' := upd a (a_ip a + 2 * length ps) [] in exists g',
      xrun prog name code a g a' g' /\ RstC base pins {| locals := [sc]; captured := cap; cur := cu |} s' a' g' /\
      boundC (rev ps ++ B) {| locals := [sc]; captured := cap; cur := cu |}
  | None => False
  end.
Proof.
  induction ps as [|p ps IH]; intros vs k B acc cap cu pins a g s allvs Hc Hargs Hnth HR Hb Hnd Hfresh Hsrc Hnf Hfo Hlen Hsm.
  - destruct vs; [|discriminate]. cbn [bind_params length rev app]. rewrite Nat.add_0_r.
    rewrite <- (act_ext a a _ _ (act_same_refl a) eq_refl (proj1 (proj2 HR)) eq_refl).
    exists g. split; [apply xrun_refl|]. split; [exact HR|exact Hb].
  - destruct vs as [|v vs]; [discriminate|]. cbn [length] in Hlen, Hsm.
    cbn [forallb] in Hsrc. apply Bool.andb_true_iff in Hsrc as [Hsp Hsrc].
    inversion Hnd as [|? ? Hpn Hnd']; subst. inversion Hfo as [|? ? Hfv Hfo']; subst.
    cbn [pcodeP] in Hc. apply code_at_cons in Hc as [Hi1 Hc]. apply code_at_cons in Hc as [Hi2 Hc].
    assert (Hpu : uname (fnames FT) p).
    { apply (uname_of_b FT p Hsp). destruct (mem_str p (fnames FT)) eqn:Em; [|reflexivity].
      destruct (Hnf p (or_introl eq_refl) (mem_str_In _ _ Em)). }
    assert (Harg : nth_error (a_args a) k = Some (inj v)).
    { pose proof (Hnth 0 v eq_refl) as H0. rewrite Nat.add_0_r in H0. now rewrite Hargs, nth_error_map, H0. }
    destruct (param_step p v k B pins a g _ s Hi1 Hi2 ltac:(eapply small_le; [|exact Hsm]; lia) Harg Hfv HR Hb
                (Hfresh p (or_introl eq_refl)) Hpu) as (g2 & R2 & HR2 & Hb2).
    cbn [declare alloc locals captured cur fst snd] in HR2, Hb2. cbn [bind_params]. unfold alloc.
    replace (a_ip a + 2 * length (p :: ps)) with (S (S (a_ip a)) + 2 * length ps) by (cbn [length]; lia).
    specialize (IH vs (S k) (p :: B) _ cap cu pins (upd a (S (S (a_ip a))) []) g2 _ allvs Hc Hargs
                  ltac:(intros j v0 Hj; replace (S k + j) with (k + S j) by lia; exact (Hnth (S j) v0 Hj)) HR2 Hb2 Hnd'
                  ltac:(intros x Hx [<-|Hin]; [exact (Hpn Hx)|exact (Hfresh x (or_intror Hx) Hin)])
                  Hsrc ltac:(intros x Hx; exact (Hnf x (or_intror Hx))) Hfo' ltac:(lia)
                  ltac:(eapply small_le; [|exact Hsm]; lia)).
    destruct (bind_params ps vs _ _) as [[sc s']|]; [|exact IH].
    destruct IH as (g' & R' & HR' & Hb'). exists g'. split; [exact (xrun_trans _ _ _ _ _ _ _ _ _ R2 R')|].
    split; [exact HR'|]. cbn [rev]. rewrite <- app_assoc. exact Hb'.
Qed.
End Params.
End Entry.

Variable fpins : pinset.
Hypothesis Hgpv : forall f c c' cenv cbf, assoc f fcells = Some (c, c', cenv, cbf) -> vpin fpins c' (VFun (floc f) cbf).
Hypothesis Hgps : forall f c c' cenv cbf ps body, assoc f fcells = Some (c, c', cenv, cbf) -> assoc f FT = Some (ps, body) ->
  spin fpins c (RClos ps body cenv).
(* the data cell pairs the callee needs related at entry: its own captured data, and what the functions it calls need *)
Variable dn : list (N * N).
Variable fdn : str -> list (N * N).
Hypothesis Hcdn : forall x c, assoc x cdsc = Some c ->
  uname (fnames FT) x /\ exists c' m, cbf = Some m /\ assoc x m = Some c' /\ In (c, c') dn.
Hypothesis Hfdn : forall f p, In f (fnames FT) -> In p (fdn f) -> In p dn.

Theorem fun_sim : forall ps body cenv tail,
  selfv = Some (RClos ps body cenv) ->
  let fcode := pcodeP 0 ps ++ strip (bitems 1 0 None body) ++ tail in
  assoc name prog = Some fcode ->
  (tail = [mkI OP_VOID []; mkI OP_RET []] \/ (tail = [] /\ ends_ret body = true)) ->
  NoDup ps -> forallb src_nameb ps = true -> (forall x, In x ps -> ~ In x (fnames FT)) ->
  ok_block FT (Some ps) (map fst cdsc) false (rev ps) body = true ->
  small (1 + 2 * length fcode + 8) ->
  (forall f c c' ce cb', assoc f fcells = Some (c, c', ce, cb') ->
     lookup_scopes f cenv = Some c /\ exists m, cbf = Some m /\ assoc f m = Some c') ->
  (forall x c, assoc x cdsc = Some c -> lookup_scopes x cenv = Some c) ->
  forall fuel,
  (forall fuel', fuel' < fuel -> call_ok FT fcells floc fpins fdn prog fuel') ->
  (forall fuel', fuel' < fuel -> callee_ok fpins prog fuel' ps body cenv name cbf dn) ->
  callee_ok fpins prog fuel ps body cenv name cbf dn.
Proof.
  intros ps body cenv tail Eself fcode Hcode Htail Hnd Hsrc Hpnf Hok Hsm Hent Hcap fuel Hcall Hslf vs s g1 Hfo Hlen Ho Hnd1 Hfv Hdr.
  unfold call_clos_. rewrite <- Eself.
  set (pinsC := call_pins s g1). set (fpC := dpins fpins dn s g1).
  assert (Hsub : (forall cy w, vpin fpins cy w -> vpin fpC cy w) /\ (forall c v, spin fpins c v -> spin fpC c v))
    by (split; intros; left; assumption).
  assert (HpinC : forall p, In p dn -> dpair_ok fpC [] p) by (intros [c c'] Hin; right; exact (dpins_pair fpins dn s g1 c c' Hdr Hin)).
  assert (HcdC : forall x c, assoc x cdsc = Some c -> uname (fnames FT) x /\
            exists c' v m, cbf = Some m /\ assoc x m = Some c' /\ first_order v /\ spin fpC c v /\ vpin fpC c' (inj v)).
  { intros x c E. destruct (Hcdn x c E) as (Hx & c' & m & Em & Ea & Hin). split; [exact Hx|].
    destruct (dpins_pair fpins dn s g1 c c' Hdr Hin) as (v & Hp). exists c', v, m. auto. }
  set (a0 := act0 name (map inj vs) cbf). set (gP := push_frame g1 (LFun name)).
  pose proof (Rst_entry fpC (map inj vs) s g1 cenv Ho Hnd1 (fvals_dpins _ dn _ _ Hfv) Hent Hcap) as HR0.
  assert (Hlenc : length fcode = 2 * length ps + length (strip (bitems 1 0 None body)) + length tail).
  { unfold fcode. rewrite !app_length, pcodeP_length. lia. }
  pose proof (params_run fpC (frames g1) fcode ps vs 0 [] [] cenv selfv pinsC a0 gP s vs (code_at_embed [] (pcodeP 0 ps) _)
                eq_refl (fun j v H => H) HR0 (bound_in_nil FT cenv selfv) Hnd (fun x _ H => H) Hsrc Hpnf Hfo Hlen
                ltac:(eapply small_le; [|exact Hsm]; lia)) as Hprm.
  destruct (bind_params ps vs s []) as [[sc s1]|]; [|contradiction].
  cbv zeta in Hprm. rewrite app_nil_r in Hprm. destruct Hprm as (gq & R1 & HR1 & Hb1).
  set (a1 := upd a0 (a_ip a0 + 2 * length ps) []) in *. set (env1 := {| locals := [sc]; captured := cenv; cur := selfv |}) in *.
  pose proof (cblock_correct (frames g1) FT [] fcells floc cbf ltac:(intros f []) Hfun0 Hfck (Some ps) selfv name
                ltac:(intros ps0 E; injection E as <-; exists body, cenv; exact Eself) fpC
                (fun f c c' ce cb E => or_introl (Hgpv f c c' ce cb E))
                (fun f c c' ce cb ps0 body0 E E2 => or_introl (Hgps f c c' ce cb ps0 body0 E E2))
                cdsc HcdC [] ltac:(intros x cc []) fdn dn
                (fun f p Hf Hp => HpinC p (Hfdn f p Hf Hp)) HpinC
                [] body (rev ps) Hok 1 {| fid := 0; lreg := 0; fbuf := [] |} pinsC prog name (pcodeP 0 ps) tail a1 gq env1 s1 fuel) as H.
  cbv zeta in H. rewrite (cblockT_ok [] 1 body FT (Some ps) (map fst cdsc) false (rev ps) None _ Hok) in H. cbn [fst lreg] in H.
  fold fcode in H. rewrite pcodeP_length in H.
  specialize (H ltac:(destruct Htail as [->|[-> He]]; [left; discriminate|right; exact He]) Hsm (Nat.le_0_l _) eq_refl eq_refl HR1 Hb1
                (fun fuel' Hlt => call_ok_pins fpins fpC _ _ _ _ _ _ (proj1 Hsub) (proj2 Hsub) (Hcall fuel' Hlt))).
  specialize (H ltac:(intros fuel' Hlt ps0 body0 cenv0 E; rewrite Eself in E; injection E as <- <- <-;
                      exact (callee_ok_pins fpins fpC _ _ _ _ _ _ _ _ (proj1 Hsub) (proj2 Hsub) (Hslf fuel' Hlt)))).
  destruct (exec_block fuel _ body s1) as [sig env2 s2|fl s2|]; [| |exact Logic.I].
  2:{ eapply fail_post_map; [|exact H]. intros (e & g' & Hf & Hr & Hof).
      destruct (run_fn_fail prog name fcode (map inj vs) cbf g1 e g' Hcode (xrun_fail _ _ _ _ _ _ _ _ _ R1 Hf)) as [fuel' Hrun].
      exists fuel', e, g'. auto. }
  destruct sig as [| | |[v|]]; try contradiction.
  - destruct H as (a2 & g2 & R2 & Hip2 & (HG2 & _) & _ & Hd2 & _).
    destruct (run_fn_noval prog name fcode (map inj vs) cbf g1 a2 g2 Hcode (xrun_trans _ _ _ _ _ _ _ _ _ R1 R2)) as (fuel' & gf & Hrun & F).
    { pose proof (code_at_end (pcodeP 0 ps) (strip (bitems 1 0 None body)) tail) as Hct.
      rewrite pcodeP_length in Hct. fold fcode in Hct. rewrite <- Hip2 in Hct.
      destruct Htail as [->|[-> _]]; [left; split; [exact Hct|exact (rg_drop HG2)]|right].
      split; [apply nth_error_None; rewrite Hip2, Hlenc; cbn [length]; lia|].
      pose proof (Rg_base _ _ _ _ _ _ _ _ _ _ _ _ _ HG2) as Hbase. rewrite (same_tl_length env1 env2 ltac:(discriminate) Hd2) in Hbase.
      pose proof (proj2 (Rfr_ne _ _ _ _ (Rg_fr _ _ _ _ _ _ _ _ _ _ _ _ _ HG2))) as Hne.
      destruct (frames g2); [congruence|]. split; [exact Hbase|discriminate]. }
    exists fuel', gf. split; [exact Hrun|]. destruct F as (F1 & F2 & F3). exact (keep_of_Rg_val fpC _ _ _ _ _ _ _ HG2 F1 F2 F3).
  - destruct H as (env3 & a2 & g2 & R2 & Hi2 & Hops2 & Hfov & HG2 & _). split; [exact Hfov|].
    destruct (run_fn_ret prog name fcode (map inj vs) cbf g1 a2 g2 _ DRet (Some (inj v)) _ _ Hcode (xrun_trans _ _ _ _ _ _ _ _ _ R1 R2) Hi2 eq_refl
                ltac:(cbn [exec_d]; rewrite Hops2; reflexivity)) as [fuel' Hrun].
    exists fuel'. eexists. split; [exact Hrun|].
    apply (keep_of_Rg_val fpC _ _ _ _ _ _ _ HG2); [exact (rg_drop HG2)|reflexivity..].
Qed.
End Callee.

Section FnCode.
Variable path : str.

Definition ftail (cb : list citem) : list citem := if ends_in_ret cb then [] else [I OP_VOID []; I OP_RET []].

Lemma cexpr_EFn_eq : forall d ps body st, cexpr path d (EFn ps body) st =
  (let '(cb, st) := cblockT path (S d) None body st in
   let name := fn_name path (fid st) in
   ([I OP_MAKE_FUNCTION (name :: free_vars ps body)],
    {| fid := S (fid st); lreg := lreg st;
       fbuf := fbuf st ++ [(name, strip (map CI (pcodeP 0 ps) ++ cb ++ ftail cb))] |})).
Proof.
  intros d ps body st.
  change (cexpr path d (EFn ps body) st) with
    (let '(cb, st) :=
       (fix cbody (l : list stmt) (st : cst) {struct l} : list citem * cst :=
          match l with
          | [] => ([], st)
          | s :: l => let '(cs, st) := cstmt path (S d) None s st in
                      let '(cl, st) := cbody l st in (cs ++ cl, st)
          end) body st in
     let cb := if ends_in_ret cb then cb else cb ++ [I OP_VOID []; I OP_RET []] in
     let name := fn_name path (fid st) in
     ([I OP_MAKE_FUNCTION (name :: free_vars ps body)],
      {| fid := S (fid st); lreg := lreg st;
         fbuf := fbuf st ++ [(name, strip ((fix cparams (k : nat) (l : list str) : list citem :=
                                              match l with [] => [] | x :: l => I OP_ARG [sN k] :: I OP_STORE [x] :: cparams (S k) l end) 0 ps ++ cb))] |})).
  assert (E1 : forall l st0,
            (fix cbody (l : list stmt) (st : cst) {struct l} : list citem * cst :=
               match l with
               | [] => ([], st)
               | s :: l => let '(cs, st) := cstmt path (S d) None s st in
                           let '(cl, st) := cbody l st in (cs ++ cl, st)
               end) l st0 = cblockT path (S d) None l st0).
  { induction l as [|s l IH]; intros st0; [reflexivity|]. cbn [cblockT]. destruct (cstmt path (S d) None s st0) as [cs st1].
    rewrite IH. reflexivity. }
  assert (E2 : forall l k,
            (fix cparams (k : nat) (l : list str) : list citem :=
               match l with [] => [] | x :: l => I OP_ARG [sN k] :: I OP_STORE [x] :: cparams (S k) l end) k l
            = map CI (pcodeP k l)).
  { induction l as [|x l IH]; intros k; [reflexivity|]. cbn [pcodeP map]. rewrite IH. reflexivity. }
  rewrite E1, E2. destruct (cblockT path (S d) None body st) as [cb st1]. cbv zeta. unfold ftail.
  destruct (ends_in_ret cb); [now rewrite app_nil_r|reflexivity].
Qed.
End FnCode.

Definition ret_item (it : citem) : bool := match it with CI i => (op i =? OP_RET)%N | _ => false end.

Lemma resolve_snoc_CI : forall F S l idx i, resolve F S idx (l ++ [CI i]) = resolve F S idx l ++ [CI i].
Proof.
  intros F S. induction l as [|it l IH]; intros idx i; [reflexivity|].
  destruct it; cbn [app resolve]; now rewrite IH.
Qed.

Lemma sitems_snoc : forall FT SP CD il B c lr sl st, ok_stmt FT SP CD il B st = true ->
  exists pre last, sitems c lr sl st = pre ++ [last] /\ (ret_item last = true -> is_ret st = true).
Proof.
  intros FT SP CD il B c lr sl st H. destruct st; try discriminate.
  - eexists. eexists. split; [cbn [sitems]; reflexivity|discriminate].
  - exists (map CI (xcode (S c) e) ++ [I OP_BIN_OP_ASSIGN [binop_sym o ++ [61%N]; x]]), (I OP_VOID []).
    split; [cbn [sitems]; now rewrite <- app_assoc|discriminate].
  - exists (map CI (xcode c e) ++ [I OP_PRINTN [s_star]]), (I OP_VOID []).
    split; [cbn [sitems]; now rewrite <- app_assoc|discriminate].
  - eexists. eexists. split; [cbn [sitems]; reflexivity|discriminate].
  - eexists. eexists. split; [cbn [sitems]; reflexivity|discriminate].
  - rewrite sitems_SIf. cbv zeta. eexists. exists (I OP_DONE []). split; [|discriminate].
    rewrite !app_assoc. reflexivity.
  - rewrite sitems_SIfElse. cbv zeta. eexists. exists (I OP_DONE []). split; [|discriminate].
    rewrite app_comm_cons. rewrite !app_assoc. reflexivity.
  - rewrite sitems_SIfElif. cbv zeta. eexists. exists (I OP_DONE []). split; [|discriminate].
    rewrite app_comm_cons. rewrite !app_assoc. reflexivity.
  - rewrite sitems_SWhile. cbv zeta.
    match goal with |- context [resolve ?F0 ?S0 ?i0 (?l0 ++ [I ?o0 ?a0])] =>
      change (resolve F0 S0 i0 (l0 ++ [I o0 a0])) with (resolve F0 S0 i0 (l0 ++ [CI (mkI o0 a0)])) end.
    rewrite resolve_snoc_CI. eexists. eexists. split; [rewrite !app_assoc; reflexivity|discriminate].
  - exists [], (CBrk (match sl with Some n => n | None => 0 end)). split; [reflexivity|discriminate].
  - exists [], (CCont (match sl with Some n => n | None => 0 end)). split; [reflexivity|discriminate].
  - destruct e as [e|]; [|discriminate]. eexists. eexists. split; [cbn [sitems]; reflexivity|reflexivity].
Qed.

Lemma ends_ret_snoc : forall l st, ends_ret (l ++ [st]) = is_ret st.
Proof.
  induction l as [|x l IH]; intros st; [reflexivity|]. cbn [app]. destruct l as [|y l]; [reflexivity|].
  change (ends_ret (x :: (y :: l) ++ [st])) with (ends_ret ((y :: l) ++ [st])). apply IH.
Qed.
Lemma bitems_app : forall c lr sl l1 l2, bitems c lr sl (l1 ++ l2) = bitems c lr sl l1 ++ bitems c lr sl l2.
Proof. induction l1 as [|x l IH]; intros l2; [reflexivity|]. cbn [app bitems]. now rewrite IH, app_assoc. Qed.
Lemma ok_block_snoc : forall FT SP CD il B l st, ok_block FT SP CD il B (l ++ [st]) = true -> exists B', ok_stmt FT SP CD il B' st = true.
Proof.
  intros FT SP CD il. intros B l. revert B. induction l as [|x l IH]; intros B st H; cbn [app ok_block] in H.
  - apply Bool.andb_true_iff in H as [H _]. eauto.
  - apply Bool.andb_true_iff in H as [_ H]. eauto.
Qed.

Lemma ends_in_ret_body : forall FT SP CD B c lr body, ok_block FT SP CD false B body = true ->
  ends_in_ret (bitems c lr None body) = true -> ends_ret body = true.
Proof.
  intros FT SP CD B c lr body Hok H.
  destruct (rev body) as [|st rl] eqn:E.
  - apply (f_equal (@rev stmt)) in E. rewrite rev_involutive in E. subst body. discriminate.
  - apply (f_equal (@rev stmt)) in E. rewrite rev_involutive in E. cbn [rev] in E. subst body.
    rewrite ends_ret_snoc. destruct (ok_block_snoc _ _ _ _ _ _ _ Hok) as [B' Hst].
    destruct (sitems_snoc FT SP CD false B' c lr None st Hst) as (pre & last & Es & Hl). apply Hl.
    rewrite bitems_app in H. cbn [bitems] in H. rewrite app_nil_r, Es, app_assoc in H.
    unfold ends_in_ret in H. rewrite rev_app_distr in H. cbn [rev app] in H. destruct last; [exact H|discriminate|discriminate].
Qed.

Definition fdef := (str * (list str * list stmt))%type.
Definition def_stmt (d : fdef) : stmt := SAssign (fst d) (EFn (fst (snd d)) (snd (snd d))).

Definition fcode_of (ps : list str) (body : list stmt) : list instr :=
  pcodeP 0 ps ++ strip (bitems 1 0 None body) ++ strip (ftail (bitems 1 0 None body)).

(* the module scope after the definitions FT (cells k, k+1, ...) *)
Fixpoint dscope (k : nat) (FT : ftab) : scope :=
  match FT with [] => [] | (f, _) :: t => (f, N.of_nat k) :: dscope (S k) t end.

Definition caps_of (d : fdef) : list str := free_vars (fst (snd d)) (snd (snd d)).
Definition vis (caps : list str) (P : ftab) : ftab := filter (fun d => mem_str (fst d) caps) P.
Fixpoint capmap (sc : scope) (ns : list str) : list (str * N) :=
  match ns with
  | [] => []
  | n :: ns => match assoc n sc with Some c => assoc_set n c (capmap sc ns) | None => capmap sc ns end
  end.
Definition fcb (pre : ftab) (d : fdef) : option (list (str * N)) :=
  match caps_of d with [] => None | ns => Some (capmap (dscope 0 pre) ns) end.

Definition dcaps (pre : ftab) (caps : list str) : list str := filter (fun n => negb (mem_str n (fnames pre))) caps.
(* with no data variables in sight (B = [] in fn_ok) every captured name is a function of the table *)
Lemma caps_funs : forall pre caps, forallb (fun n => mem_str n (fnames pre) || mem_str n []) caps = true ->
  forallb (fun n => mem_str n (fnames pre)) caps = true.
Proof.
  intros pre caps H. rewrite forallb_forall in *. intros n Hn. specialize (H n Hn). cbn [mem_str] in H. now rewrite Bool.orb_false_r in H.
Qed.
Lemma dcaps_nil : forall pre caps, forallb (fun n => mem_str n (fnames pre)) caps = true -> dcaps pre caps = [].
Proof.
  intros pre. induction caps as [|n t IH]; intros H; [reflexivity|]. cbn [forallb] in H. apply Bool.andb_true_iff in H as [H1 H2].
  cbn [dcaps filter]. rewrite H1. exact (IH H2).
Qed.
Lemma In_dcaps : forall pre caps x, In x (dcaps pre caps) <-> In x caps /\ mem_str x (fnames pre) = false.
Proof. intros pre caps x. unfold dcaps. rewrite filter_In. rewrite Bool.negb_true_iff. tauto. Qed.

(* a function of the table: parameters distinct source names; it mentions (= captures) only earlier functions of the
   table and data variables B of the module (read by reference), calls the functions / itself, and is otherwise in
   the fragment *)
Definition fn_ok (pre : ftab) (B : list str) (d : fdef) : Prop :=
  let '(f, (ps, body)) := d in
  let caps := free_vars ps body in
  src_nameb f = true /\ NoDup ps /\ forallb src_nameb ps = true /\
  forallb (fun n => mem_str n (fnames pre) || mem_str n B) caps = true /\
  (forall x, In x ps -> ~ In x (fnames (vis caps pre))) /\
  ok_block (vis caps pre) (Some ps) (dcaps pre caps) false (rev ps) body = true /\
  small (1 + 2 * length (fcode_of ps body) + 8).
Fixpoint fns_ok (pre FT : ftab) : Prop :=
  match FT with [] => True | d :: t => fn_ok pre [] d /\ fns_ok (pre ++ [d]) t end.

Lemma fns_ok_nth : forall FT pre i d, fns_ok pre FT -> nth_error FT i = Some d -> fn_ok (pre ++ firstn i FT) [] d.
Proof.
  induction FT as [|d0 t IH]; intros pre i d H Hi; [destruct i; discriminate|]. destruct H as [H0 Ht]. destruct i as [|i].
  - cbn in Hi. inversion Hi; subst d0. cbn [firstn]. now rewrite app_nil_r.
  - cbn [nth_error firstn] in *. replace (pre ++ d0 :: firstn i t) with ((pre ++ [d0]) ++ firstn i t) by now rewrite <- app_assoc.
    apply IH; assumption.
Qed.

Section Module.
Variable path : str.

Fixpoint dfbuf (k : nat) (FT : ftab) : list (str * list instr) :=
  match FT with [] => [] | (f, (ps, body)) :: t => (fn_name path k, fcode_of ps body) :: dfbuf (S k) t end.
Fixpoint dcode (k : nat) (FT : ftab) : list instr :=
  match FT with [] => [] | d :: t => mkI OP_MAKE_FUNCTION (fn_name path k :: caps_of d) :: mkI OP_STORE [fst d] :: dcode (S k) t end.

Lemma dcode_length : forall FT k, length (dcode k FT) = 2 * length FT.
Proof. induction FT as [|d t IH]; intros k; cbn [dcode length]; [reflexivity|]. rewrite IH. lia. Qed.

Lemma cstmt_def : forall pre B d sl st, fn_ok pre B d -> lreg st = 0 ->
  cstmt path 0 sl (def_stmt d) st =
  ([I OP_MAKE_FUNCTION (fn_name path (fid st) :: caps_of d); I OP_STORE [fst d]],
   {| fid := S (fid st); lreg := 0; fbuf := fbuf st ++ [(fn_name path (fid st), fcode_of (fst (snd d)) (snd (snd d)))] |}).
Proof.
  intros pre B [f [ps body]] sl st (_ & _ & _ & _ & _ & Hok & _) Hlr.
  unfold def_stmt, caps_of, fcode_of. cbn [fst snd]. rewrite cstmt_SAssign, cexpr_EFn_eq.
  rewrite (cblockT_ok path 1 body _ _ _ false (rev ps) None st Hok), Hlr. cbv zeta. cbv beta iota.
  now rewrite !strip_app, strip_map_CI.
Qed.

Lemma cblock0_defs : forall FT pre main st, fns_ok pre FT -> lreg st = 0 ->
  cblock0 path (map def_stmt FT ++ main) st =
  (let '(cm, st') := cblock0 path main {| fid := fid st + length FT; lreg := 0; fbuf := fbuf st ++ dfbuf (fid st) FT |} in
   (map CI (dcode (fid st) FT) ++ cm, st')).
Proof.
  induction FT as [|d t IH]; intros pre main st HF Hlr.
  - cbn [map app dfbuf dcode length]. rewrite Nat.add_0_r, app_nil_r. destruct st as [fi lr fb]. cbn [lreg fid fbuf] in *. subst lr.
    destruct (cblock0 path main {| fid := fi; lreg := 0; fbuf := fb |}); reflexivity.
  - destruct HF as [Hd HF']. cbn [map app cblock0]. rewrite (cstmt_def pre [] d None st Hd Hlr).
    rewrite (IH (pre ++ [d])) by (try exact HF'; reflexivity). cbn [fid lreg fbuf].
    replace (fid st + length (d :: t)) with (S (fid st) + length t) by (cbn [length]; lia).
    destruct d as [f [ps body]]. cbn [dfbuf dcode map fst snd app]. rewrite <- app_assoc.
    destruct (cblock0 path main _); reflexivity.
Qed.
End Module.

Lemma fnames_app : forall (A B : ftab), fnames (A ++ B) = fnames A ++ fnames B.
Proof. intros. unfold fnames. apply map_app. Qed.
Lemma assoc_prefix : forall A (P R : list (str * A)) f x, assoc f P = Some x -> assoc f (P ++ R) = Some x.
Proof.
  intros A. induction P as [|[k v] t IH]; intros R f x H; [discriminate|]. cbn [app assoc] in *.
  destruct (str_eqb k f); [exact H|]. now apply IH.
Qed.
Lemma assoc_filter : forall A (q : str -> bool) (l : list (str * A)) f,
  assoc f (filter (fun d => q (fst d)) l) = if q f then assoc f l else None.
Proof.
  intros A q. induction l as [|[k v] t IH]; intros f; cbn [filter assoc fst]; [now destruct (q f)|].
  destruct (q k) eqn:Ek; cbn [assoc]; destruct (str_eqb k f) eqn:E.
  - apply str_eqb_eq in E. subst k. now rewrite Ek.
  - apply IH.
  - apply str_eqb_eq in E. subst k. rewrite IH, Ek. reflexivity.
  - apply IH.
Qed.
Lemma nth_snoc : forall A (l : list A) x i y, nth_error (l ++ [x]) i = Some y ->
  (firstn i (l ++ [x]) = firstn i l /\ nth_error l i = Some y) \/ (firstn i (l ++ [x]) = l /\ i = length l /\ y = x).
Proof.
  intros A l x i y H. rewrite firstn_app. destruct (Nat.lt_ge_cases i (length l)) as [Hlt|Hge].
  - rewrite nth_error_app1 in H by exact Hlt. replace (i - length l) with 0 by lia. cbn [firstn]. rewrite app_nil_r. auto.
  - rewrite nth_error_app2 in H by exact Hge. destruct (i - length l) as [|j] eqn:Ej; [|destruct j; discriminate]. injection H as <-.
    assert (i = length l) by lia. subst i. rewrite firstn_all. cbn [firstn]. rewrite app_nil_r. auto.
Qed.

Lemma assoc_vis : forall A caps (l : list (str * A)) f x,
  assoc f (filter (fun d => mem_str (fst d) caps) l) = Some x -> In f caps /\ assoc f l = Some x.
Proof.
  intros A caps l f x. rewrite (assoc_filter _ (fun k => mem_str k caps)).
  destruct (mem_str f caps) eqn:E; [|discriminate]. split; [now apply mem_str_In|assumption].
Qed.
Lemma keys_vis : forall A caps (l : list (str * A)) f,
  In f (map fst (filter (fun d => mem_str (fst d) caps) l)) <-> mem_str f caps = true /\ In f (map fst l).
Proof.
  intros A caps l f. rewrite <- !assoc_keys, (assoc_filter _ (fun k => mem_str k caps)).
  destruct (mem_str f caps); intuition congruence.
Qed.

Fixpoint dcells (path : str) (pre : ftab) (FT : ftab) : list value :=
  match FT with [] => [] | d :: t => VFun (fn_name path (length pre)) (fcb pre d) :: dcells path (pre ++ [d]) t end.

Lemma dscope_app : forall P k d, dscope k (P ++ [d]) = dscope k P ++ [(fst d, N.of_nat (k + length P))].
Proof.
  induction P as [|[f r] t IH]; intros k [f0 r0]; cbn [app dscope length fst].
  - now rewrite Nat.add_0_r.
  - rewrite IH. cbn [fst]. replace (S k + length t) with (k + S (length t)) by lia. reflexivity.
Qed.
Lemma dcells_app : forall path P pre d, dcells path pre (P ++ [d]) = dcells path pre P ++ [VFun (fn_name path (length pre + length P)) (fcb (pre ++ P) d)].
Proof.
  intros path. induction P as [|x t IH]; intros pre d; cbn [app dcells length].
  - now rewrite Nat.add_0_r, app_nil_r.
  - rewrite IH. rewrite app_length. cbn [length]. rewrite <- app_assoc. cbn [app].
    replace (length pre + 1 + length t) with (length pre + S (length t)) by lia. reflexivity.
Qed.
Lemma dcells_length : forall path P pre, length (dcells path pre P) = length P.
Proof. intros path. induction P as [|x t IH]; intros pre; cbn [dcells length]; [reflexivity|now rewrite IH]. Qed.
Lemma dscope_keys : forall FT k, map fst (dscope k FT) = fnames FT.
Proof. induction FT as [|[f r] t IH]; intros k; cbn [dscope map fst fnames]; [reflexivity|]. f_equal. apply IH. Qed.
Lemma assoc_dscope_in : forall FT k x, assoc x (dscope k FT) <> None <-> In x (fnames FT).
Proof. intros FT k x. rewrite assoc_keys, dscope_keys. reflexivity. Qed.
Lemma assoc_dscope_none : forall f P k, ~ In f (fnames P) -> assoc f (dscope k P) = None.
Proof. intros f P k H. apply assoc_none_notin. now rewrite dscope_keys. Qed.
Lemma assoc_dscope_nth : forall P k i d, NoDup (fnames P) -> nth_error P i = Some d ->
  assoc (fst d) (dscope k P) = Some (N.of_nat (k + i)).
Proof.
  induction P as [|[f0 r] t IH]; intros k i d Hnd Hi; [destruct i; discriminate|].
  cbn [fnames map fst] in Hnd. inversion Hnd as [|? ? Hn Hnd']; subst. destruct i as [|i].
  - cbn in Hi. injection Hi as <-. cbn [dscope assoc fst]. rewrite str_eqb_refl, Nat.add_0_r. reflexivity.
  - cbn [nth_error] in Hi. cbn [dscope assoc].
    assert (Hne : f0 <> fst d).
    { intros ->. apply Hn. unfold fnames. apply in_map. eapply nth_error_In. exact Hi. }
    rewrite str_eqb_neq by exact Hne. rewrite (IH (S k) i d Hnd' Hi). f_equal. lia.
Qed.

(* what make_function captures when the top frame binds every name: the cells of the names, as `capmap` lists them *)
Definition cbmap (sc : scope) (ns : list str) : option (list (str * N)) :=
  match ns with [] => None | n :: l => Some (capmap sc (n :: l)) end.

Lemma capture_defs : forall a g fr fs ns,
  frames g = fr :: fs -> (forall n, In n ns -> assoc n (vars fr) <> None) ->
  capture a g ns = Some (capmap (vars fr) ns).
Proof.
  intros a g fr fs ns Hfr. induction ns as [|n ns IH]; intros H; [reflexivity|]. cbn [capture capmap].
  unfold lookup_var. rewrite Hfr. cbn [find_in_function].
  destruct (assoc n (vars fr)) as [c|] eqn:E; [|destruct (H n (or_introl eq_refl) E)].
  rewrite IH by (intros m Hm; apply H; now right). reflexivity.
Qed.
Lemma assoc_capmap : forall sc ns n c, In n ns -> assoc n sc = Some c -> assoc n (capmap sc ns) = Some c.
Proof.
  intros sc. induction ns as [|n0 ns IH]; intros n c Hin Hn; [destruct Hin|]. cbn [capmap].
  destruct (list_eq_dec N.eq_dec n n0) as [->|Hne].
  - rewrite Hn. apply assoc_set_same.
  - destruct Hin as [->|Hin]; [congruence|]. destruct (assoc n0 sc); [rewrite assoc_set_other by exact Hne|]; now apply IH.
Qed.
Lemma assoc_cbmap : forall sc ns n c, In n ns -> assoc n sc = Some c -> exists m, cbmap sc ns = Some m /\ assoc n m = Some c.
Proof.
  intros sc ns n c Hin Hn. destruct ns as [|n0 ns0] eqn:E; [destruct Hin|]. rewrite <- E in *.
  exists (capmap sc ns). split; [rewrite E; reflexivity|now apply assoc_capmap].
Qed.

Lemma dec_make_function : forall loc ns, decode (mkI OP_MAKE_FUNCTION (loc :: ns)) = DOk (DMakeFunction loc ns).
Proof. reflexivity. Qed.
Lemma exec_make_function : forall loc ns a g fr fs,
  frames g = fr :: fs -> (forall n, In n ns -> assoc n (vars fr) <> None) ->
  exec_d (DMakeFunction loc ns) a g = SNext (set_ops a (a_ops a ++ [VFun loc (cbmap (vars fr) ns)])) g.
Proof.
  intros loc ns a g fr fs Hfr H. cbn [exec_d]. destruct ns as [|n l]; [reflexivity|].
  now rewrite (capture_defs a g fr fs (n :: l) Hfr H).
Qed.

Lemma def_run : forall prog name code a g fr f loc caps,
  nth_error code (a_ip a) = Some (mkI OP_MAKE_FUNCTION (loc :: caps)) ->
  nth_error code (S (a_ip a)) = Some (mkI OP_STORE [f]) ->
  a_ops a = [] -> frames g = [fr] -> assoc f (vars fr) = None -> (forall n, In n caps -> assoc n (vars fr) <> None) ->
  exists tr, xrun prog name code a g (upd a (S (S (a_ip a))) [])
    {| cells := cells g ++ [VFun loc (cbmap (vars fr) caps)];
       frames := [{| lab := lab fr; vars := assoc_set f (N.of_nat (length (cells g))) (vars fr) |}];
       out := out g; trace := tr |}.
Proof.
  intros prog name code a g fr f loc caps Hi1 Hi2 Hops Hfr Hf Hcaps.
  set (fw := VFun loc (cbmap (vars fr) caps)). set (a1 := upd a (S (a_ip a)) [fw]).
  set (g1 := trc name a g (mkI OP_MAKE_FUNCTION (loc :: caps))).
  eexists. eapply (xrun_trans _ _ _ _ _ a1 g1).
  - apply (xstep_upd prog name code a Hi1 (dec_make_function loc caps)).
    fold g1. rewrite (exec_make_function loc caps a g1 fr [] Hfr Hcaps), Hops. reflexivity.
  - apply (xstep_upd prog name code a1 (ops' := []) Hi2 (dec_store f)). apply (exec_store f a1 _ fw); [reflexivity|].
    unfold store_var, bind_local. cbn [trc add_trace frames g1]. now rewrite Hfr, find_one_frame, Hf.
Qed.

Lemma exec_def_stmt : forall fuel env s d sc, locals env = [sc] -> assoc (fst d) sc = None ->
  Eval.exec (S (S fuel)) env (def_stmt d) s =
  SOk SigNormal {| locals := [assoc_set (fst d) (N.of_nat (length (store s))) sc]; captured := captured env; cur := cur env |}
      {| store := store s ++ [RClos (fst (snd d)) (snd (snd d)) (locals env ++ captured env)]; rout := rout s |}.
Proof.
  intros fuel env s d sc El Hf. unfold def_stmt. rewrite exec_SAssign.
  change (eval (S fuel) env (EFn _ _) s) with (EVal (RClos (fst (snd d)) (snd (snd d)) (locals env ++ captured env)) s).
  unfold assign, declare, alloc. rewrite El. cbn [lookup_scopes]. now rewrite Hf.
Qed.

Section Defs.
Variable path : str.
Variable prog : program.
Variable name : str.
Variable code : list instr.

(* the state after the definitions P have been executed *)
Record dinv (P : ftab) (env : fenv) (s : rstate) (a : act) (g : gstate) : Prop := {
  di_loc : locals env = [dscope 0 P];
  di_cap : captured env = [];
  di_cur : cur env = None;
  di_len : length (store s) = length P;
  di_clo : forall i f ps body, nth_error P i = Some (f, (ps, body)) ->
           nth_error (store s) i = Some (RClos ps body [dscope 0 (firstn i P)]);
  di_rout : rout s = [];
  di_fr : frames g = [{| lab := LFun name; vars := dscope 0 P |}];
  di_cells : cells g = dcells path [] P;
  di_out : out g = [];
  di_ops : a_ops a = [];
  di_ip : a_ip a = 2 * length P;
  di_cb : a_cb a = None;
  di_ss : a_ss a = 0
}.

Lemma def_step : forall P d env s a g,
  ~ In (fst d) (fnames P) -> forallb (fun n => mem_str n (fnames P)) (caps_of d) = true ->
  code_at code (2 * length P) [mkI OP_MAKE_FUNCTION (fn_name path (length P) :: caps_of d); mkI OP_STORE [fst d]] ->
  dinv P env s a g ->
  exists env' s' a' g', xrun prog name code a g a' g' /\ dinv (P ++ [d]) env' s' a' g' /\
    forall fuel, Eval.exec (S (S fuel)) env (def_stmt d) s = SOk SigNormal env' s'.
Proof.
  intros P [f [ps body]] env s a g Hfn Hcaps Hc [Hloc Hcap Hcur Hlen Hclo Hro Hfr Hce Hou Hops Hip Hcb Hss]. cbn [fst] in Hfn, Hc.
  pose proof (assoc_dscope_none f P 0 Hfn) as Hf.
  rewrite <- Hip in Hc. apply code_at_cons in Hc as [Hi1 Hc]. apply code_at_cons in Hc as [Hi2 _].
  destruct (def_run prog name code a g _ f _ _ Hi1 Hi2 Hops Hfr Hf) as [tr R].
  { intros n Hn. apply assoc_dscope_in, mem_str_In. rewrite forallb_forall in Hcaps. exact (Hcaps n Hn). }
  eexists. eexists. eexists. eexists. split; [exact R|]. split; [|intros fuel; exact (exec_def_stmt fuel env s (f, (ps, body)) _ Hloc Hf)].
  constructor; cbn [locals captured cur store rout frames cells out upd set_ip set_ops a_ops a_ip a_cb a_ss lab vars fst snd];
    try assumption.
  - rewrite (assoc_set_absent _ _ _ _ Hf), dscope_app, Hlen. reflexivity.
  - rewrite !app_length. cbn [length]. lia.
  - intros i f0 ps0 body0 Hi. destruct (nth_snoc _ _ _ _ _ Hi) as [[-> H]|(-> & -> & E)].
    + rewrite nth_error_app1 by (rewrite Hlen; apply nth_error_Some; congruence). exact (Hclo i f0 ps0 body0 H).
    + injection E as <- <- <-. rewrite nth_error_app2, Hlen, Nat.sub_diag, Hloc, Hcap by lia. reflexivity.
  - rewrite (assoc_set_absent _ _ _ _ Hf), dscope_app, Hce, dcells_length. reflexivity.
  - rewrite dcells_app, Hce. reflexivity.
  - reflexivity.
  - rewrite Hip, app_length. cbn [length]. lia.
Qed.

Lemma defs_run : forall Q P env s a g main fuel,
  NoDup (fnames (P ++ Q)) -> fns_ok P Q -> code_at code (2 * length P) (dcode path (length P) Q) ->
  dinv P env s a g ->
  exists env' s' a' g', xrun prog name code a g a' g' /\ dinv (P ++ Q) env' s' a' g' /\
    (exec_block fuel env (map def_stmt Q ++ main) s = SFuel \/
     exists fuel0, exec_block fuel env (map def_stmt Q ++ main) s = exec_block fuel0 env' main s').
Proof.
  induction Q as [|d Q IH]; intros P env s a g main fuel Hnd HF Hc Hinv.
  - exists env, s, a, g. rewrite app_nil_r. split; [apply xrun_refl|]. split; [exact Hinv|]. right. exists fuel. reflexivity.
  - destruct HF as [Hd HF']. cbn [dcode] in Hc. apply (code_at_app _ _ [_; _]) in Hc as [Hc1 Hc2].
    destruct (def_step P d env s a g) as (env1 & s1 & a1 & g1 & R1 & Hinv1 & Hex).
    { pose proof Hnd as H. rewrite fnames_app in H. apply NoDup_remove_2 in H. intros Hin. apply H, in_or_app. now left. }
    { destruct d as [f [ps body]]. apply caps_funs. exact (proj1 (proj2 (proj2 (proj2 Hd)))). }
    { exact Hc1. }
    { exact Hinv. }
    destruct (IH (P ++ [d]) env1 s1 a1 g1 main (pred fuel)) as (env' & s' & a' & g' & R' & Hinv' & Hexb).
    { now rewrite <- app_assoc. }
    { exact HF'. }
    { rewrite app_length. cbn [length] in *. replace (2 * (length P + 1)) with (2 * length P + 2) by lia.
      replace (length P + 1) with (S (length P)) by lia. exact Hc2. }
    { exact Hinv1. }
    exists env', s', a', g'. split; [exact (xrun_trans _ _ _ _ _ _ _ _ _ R1 R')|]. split; [now rewrite <- app_assoc in Hinv'|].
    cbn [map app]. destruct fuel as [|[|[|fu]]]; [left; reflexivity..|]. rewrite exec_block_cons, Hex. exact Hexb.
Qed.
End Defs.

Fixpoint findex (f : str) (FT : ftab) : nat :=
  match FT with [] => 0 | d :: t => if str_eqb (fst d) f then 0 else S (findex f t) end.
Fixpoint dfc (pre : ftab) (FT : ftab) : list (str * (N * N * list scope * option (list (str * N)))) :=
  match FT with
  | [] => []
  | d :: t => (fst d, (N.of_nat (length pre), N.of_nat (length pre), [dscope 0 pre], fcb pre d)) :: dfc (pre ++ [d]) t
  end.

Lemma dfc_assoc : forall FT pre f x, assoc f (dfc pre FT) = Some x ->
  exists ps body, nth_error FT (findex f FT) = Some (f, (ps, body)) /\ assoc f FT = Some (ps, body) /\
    x = (N.of_nat (length pre + findex f FT), N.of_nat (length pre + findex f FT),
         [dscope 0 (pre ++ firstn (findex f FT) FT)], fcb (pre ++ firstn (findex f FT) FT) (f, (ps, body))).
Proof.
  induction FT as [|[f0 [ps0 body0]] t IH]; intros pre f x H; [discriminate|].
  cbn [dfc assoc fst findex] in *. destruct (str_eqb f0 f) eqn:E.
  - apply str_eqb_eq in E. subst f0. injection H as <-. exists ps0, body0. cbn [nth_error firstn].
    rewrite Nat.add_0_r, app_nil_r. repeat split.
  - destruct (IH _ _ _ H) as (ps & body & H1 & H2 & H3). exists ps, body. cbn [nth_error firstn]. split; [exact H1|]. split; [exact H2|].
    rewrite H3. rewrite app_length, <- app_assoc. cbn [length app]. replace (length pre + 1 + findex f t) with (length pre + S (findex f t)) by lia.
    reflexivity.
Qed.
Lemma dfc_keys : forall FT pre, map fst (dfc pre FT) = fnames FT.
Proof. induction FT as [|d t IH]; intros pre; cbn [dfc map fst fnames]; [reflexivity|]. f_equal. apply IH. Qed.
Lemma dfc_none : forall FT pre f, In f (fnames FT) <-> assoc f (dfc pre FT) <> None.
Proof. intros FT pre f. rewrite assoc_keys, dfc_keys. reflexivity. Qed.
Lemma dfc_app : forall P R pre, dfc pre (P ++ R) = dfc pre P ++ dfc (pre ++ P) R.
Proof.
  induction P as [|d t IH]; intros R pre; cbn [app dfc]; [now rewrite app_nil_r|]. rewrite IH, <- app_assoc. reflexivity.
Qed.
Lemma findex_prefix : forall (P R : ftab) f, In f (fnames P) -> findex f (P ++ R) = findex f P.
Proof.
  induction P as [|d t IH]; intros R f H; [destruct H|]. cbn [app findex fnames map In] in *.
  destruct (str_eqb (fst d) f) eqn:E; [reflexivity|]. f_equal. apply IH. destruct H as [H|H]; [rewrite H, str_eqb_refl in E; discriminate|exact H].
Qed.
Lemma dcells_nth : forall path FT pre i d, nth_error FT i = Some d ->
  nth_error (dcells path pre FT) i = Some (VFun (fn_name path (length pre + i)) (fcb (pre ++ firstn i FT) d)).
Proof.
  intros path. induction FT as [|d0 t IH]; intros pre i d Hi; [destruct i; discriminate|]. destruct i as [|i]; cbn [dcells nth_error firstn] in *.
  - injection Hi as <-. now rewrite Nat.add_0_r, app_nil_r.
  - rewrite (IH _ _ _ Hi). rewrite app_length, <- app_assoc. cbn [length app]. do 3 f_equal. lia.
Qed.

Lemma fn_name_inj : forall path a b, small a -> small b -> fn_name path a = fn_name path b -> a = b.
Proof.
  intros path a b Ha Hb E. unfold fn_name in E. apply app_inv_head in E. apply app_inv_head in E. now apply sN_inj.
Qed.
Lemma fn_name_module : forall path k, fn_name path k <> s_module_fn path.
Proof.
  intros path k E. unfold fn_name, s_module_fn in E. apply app_inv_head in E. discriminate.
Qed.
Lemma assoc_dfbuf : forall path FT k i f ps body rest, small (k + length FT) ->
  nth_error FT i = Some (f, (ps, body)) -> assoc (fn_name path (k + i)) (dfbuf path k FT ++ rest) = Some (fcode_of ps body).
Proof.
  intros path. induction FT as [|[f0 [ps0 body0]] t IH]; intros k i f ps body rest Hs Hi; [destruct i; discriminate|].
  cbn [length] in Hs. destruct i as [|i]; cbn [nth_error] in Hi; cbn [dfbuf app assoc].
  - injection Hi as _ <- <-. now rewrite Nat.add_0_r, str_eqb_refl.
  - assert (Hl : i < length t) by (apply nth_error_Some; congruence).
    rewrite str_eqb_neq.
    + replace (k + S i) with (S k + i) by lia. apply (IH (S k) i f ps body rest); [|exact Hi].
      eapply small_le; [|exact Hs]. lia.
    + intros E. apply fn_name_inj in E; [lia| |]; eapply small_le; try exact Hs; lia.
Qed.
Lemma assoc_dfbuf_module : forall path FT k mc, assoc (s_module_fn path) (dfbuf path k FT ++ [(s_module_fn path, mc)]) = Some mc.
Proof.
  intros path. induction FT as [|[f0 [ps0 body0]] t IH]; intros k mc; cbn [dfbuf app assoc].
  - now rewrite str_eqb_refl.
  - rewrite str_eqb_neq by (intros E; exact (fn_name_module _ _ E)). apply IH.
Qed.

Definition mfloc (path : str) (FT : ftab) (f : str) : str := fn_name path (findex f FT).
Definition mpins (path : str) (FT : ftab) : pinset := fpins_of FT (dfc [] FT) (mfloc path FT).

Lemma Rst_defs : forall path name FT env s a g,
  NoDup (fnames FT) -> dinv path name FT env s a g ->
  Rst [] FT (fnames FT) (dfc [] FT) None None name (mpins path FT) [] [] no_pins env s a g /\ bound_in FT (fnames FT) [] env.
Proof.
  intros path name FT env s a g Hnd [Hloc Hcap Hcur Hlen Hclo Hro Hfr Hce Hou Hops Hip Hcb Hss].
  pose proof (assoc_dscope_in FT 0) as Hsc.
  split; [split; [|split; [exact Hops|rewrite Hloc; cbn; lia]]|].
  - rewrite (fenv_eta env), Hloc, Hcap, Hcur. apply Rg_one with (vs := dscope 0 FT).
    + exact Hfr.
    + rewrite Hfr. constructor; [|constructor]. cbn [vars]. unfold keys_nd. now rewrite dscope_keys.
    + now rewrite Hou, Hro.
    + intros x Hx. split; exact (assoc_dscope_none x FT 0 (uname_nfun x Hx)).
    + intros x Hx. now apply Hsc.
    + intros cy w [[]|(f & c0 & ce & cbf & E & ->)]. destruct (dfc_assoc _ _ _ _ E) as (ps & body & H1 & _ & H3).
      injection H3 as _ -> _ ->. unfold cell_get. rewrite Hce, Nat2N.id. exact (dcells_nth path FT [] _ _ H1).
    + intros c v [[]|(f & c' & ce & cbf & ps & body & E & E2 & ->)]. destruct (dfc_assoc _ _ _ _ E) as (ps' & body' & H1 & H2 & H3).
      rewrite H2 in E2. injection E2 as <- <-. injection H3 as -> _ -> _. unfold sget. rewrite Nat2N.id. exact (Hclo _ _ _ _ H1).
    + intros f c c' ce cbf E. destruct (dfc_assoc _ _ _ _ E) as (ps & body & H1 & _ & H3). injection H3 as -> -> _ _.
      pose proof (assoc_dscope_nth FT 0 _ _ Hnd H1) as Ha. cbn [fst] in Ha.
      unfold lookup_fs. rewrite Hfr. cbn [lookup_scopes find_in_function vars]. rewrite Ha. split; reflexivity.
    + intros x c E. discriminate.
  - split; [|intros x []]. intros x _. rewrite Hloc, lookup_one_scope, Hsc. cbn [In]. tauto.
Qed.

Lemma strip_ftail : forall cb, strip (ftail cb) = [mkI OP_VOID []; mkI OP_RET []] \/ (strip (ftail cb) = [] /\ ends_in_ret cb = true).
Proof. intros cb. unfold ftail. destruct (ends_in_ret cb); [right; split; reflexivity|left; reflexivity]. Qed.

Lemma findex_nodup : forall FT i d, NoDup (fnames FT) -> nth_error FT i = Some d -> findex (fst d) FT = i.
Proof.
  induction FT as [|d0 t IH]; intros i d Hnd Hi; [destruct i; discriminate|].
  cbn [fnames map] in Hnd. inversion Hnd as [|? ? Hn Hnd']; subst. destruct i as [|i]; cbn [nth_error findex] in *.
  - injection Hi as <-. now rewrite str_eqb_refl.
  - rewrite str_eqb_neq; [f_equal; now apply IH|]. intros E. apply Hn. rewrite E. unfold fnames. apply in_map. eapply nth_error_In. exact Hi.
Qed.
Lemma NoDup_app_l : forall (A : Type) (l r : list A), NoDup (l ++ r) -> NoDup l.
Proof.
  intros A. induction l as [|x l IH]; intros r H; [constructor|]. cbn [app] in H. inversion H as [|? ? Hn Hr]; subst.
  constructor; [intros Hin; apply Hn; apply in_or_app; now left|exact (IH _ Hr)].
Qed.
Lemma fns_ok_names : forall FT pre f, fns_ok pre FT -> In f (fnames FT) -> uname0 f.
Proof.
  induction FT as [|[f0 [ps body]] t IH]; intros pre f H Hin; [destruct Hin|]. destruct H as [H0 Ht].
  cbn [fnames map fst In] in Hin. destruct Hin as [<-|Hin]; [exact (src_nameb_ok _ (proj1 H0))|exact (IH _ _ Ht Hin)].
Qed.

(* a function d of a table, in the fragment w.r.t. the part P that stands before it, every function of P doing what
   call_clos does: so does d (by induction on the fuel: it may call itself) *)
Lemma table_fun_sim : forall prog (FT P : ftab) fcells PC floc fdn B d loc cbf cenv cdsc dn,
  (forall f x, assoc f P = Some x -> assoc f FT = Some x) ->
  (forall f x, assoc f PC = Some x -> assoc f fcells = Some x) ->
  map fst PC = fnames P -> (forall f, In f (fnames P) -> uname0 f) ->
  fn_ok P B d -> map fst cdsc = dcaps P (caps_of d) ->
  assoc loc prog = Some (fcode_of (fst (snd d)) (snd (snd d))) ->
  (forall f c c' ce cb', assoc f PC = Some (c, c', ce, cb') -> In f (caps_of d) ->
     lookup_scopes f cenv = Some c /\ exists m, cbf = Some m /\ assoc f m = Some c') ->
  (forall x c, assoc x cdsc = Some c -> uname (fnames P) x /\ lookup_scopes x cenv = Some c /\
     exists c' m, cbf = Some m /\ assoc x m = Some c' /\ In (c, c') dn) ->
  (forall f p, In f (fnames P) -> In p (fdn f) -> In p dn) ->
  (forall fuel, call_ok P PC floc (fpins_of FT fcells floc) fdn prog fuel) ->
  forall fuel, callee_ok (fpins_of FT fcells floc) prog fuel (fst (snd d)) (snd (snd d)) cenv loc cbf dn.
Proof.
  intros prog FT P fcells PC floc fdn B [f [ps body]] loc cbf cenv cdsc dn HsubT HsubC Hkeys Hnames Hok Hcd Hcode Hent Hcdw Hfdn Hcall.
  unfold caps_of in Hcd, Hent. cbn [fst snd] in *.
  destruct Hok as (_ & Hndp & Hsrc & _ & Hpn & Hokb & Hsm). rewrite <- Hcd in Hokb.
  set (caps := free_vars ps body) in *.
  set (FTi := vis caps P) in *. set (fci := filter (fun e => mem_str (fst e) caps) PC).
  assert (Hvis : forall f' x, assoc f' FTi = Some x -> assoc f' P = Some x) by (intros f' x H; exact (proj2 (assoc_vis _ _ _ _ _ H))).
  assert (Hin : forall f', In f' (fnames FTi) -> In f' (fnames P)) by (intros f' H; exact (proj2 (proj1 (keys_vis _ _ _ _) H))).
  assert (Ht : strip (ftail (bitems 1 0 None body)) = [mkI OP_VOID []; mkI OP_RET []] \/
               (strip (ftail (bitems 1 0 None body)) = [] /\ ends_ret body = true)).
  { destruct (strip_ftail (bitems 1 0 None body)) as [H|[H H']]; [now left|right]. split; [exact H|].
    exact (ends_in_ret_body _ _ _ (rev ps) 1 0 body Hokb H'). }
  assert (Hfck : forall f', In f' (fnames FTi) <-> assoc f' fci <> None).
  { intros f'. unfold fnames, FTi, vis, fci. rewrite assoc_keys, !keys_vis, Hkeys. reflexivity. }
  assert (Hgpv : forall f' c c' ce cb', assoc f' fci = Some (c, c', ce, cb') -> vpin (fpins_of FT fcells floc) c' (VFun (floc f') cb')).
  { intros f' c c' ce cb' E. exact (fpins_of_v FT fcells floc f' c c' ce cb' (HsubC _ _ (proj2 (assoc_vis _ _ _ _ _ E)))). }
  assert (Hgps : forall f' c c' ce cb' ps' body', assoc f' fci = Some (c, c', ce, cb') -> assoc f' FTi = Some (ps', body') ->
            spin (fpins_of FT fcells floc) c (RClos ps' body' ce)).
  { intros f' c c' ce cb' ps' body' E E2.
    exact (fpins_of_s FT fcells floc f' c c' ce cb' ps' body' (HsubC _ _ (proj2 (assoc_vis _ _ _ _ _ E))) (HsubT _ _ (Hvis _ _ E2))). }
  assert (Hcdn : forall x c, assoc x cdsc = Some c ->
            uname (fnames FTi) x /\ exists c' m, cbf = Some m /\ assoc x m = Some c' /\ In (c, c') dn).
  { intros x c E. destruct (Hcdw x c E) as (Hx & _ & H). split; [exact (uname_sub _ _ _ Hin Hx)|exact H]. }
  intros fuel. induction fuel as [fuel IHf] using lt_wf_ind.
  pose proof (fun_sim prog FTi fci floc (fun f' H => Hnames f' (Hin f' H)) Hfck cbf (Some (RClos ps body cenv)) loc cdsc
                (fpins_of FT fcells floc) Hgpv Hgps dn fdn Hcdn (fun f' p H => Hfdn f' p (Hin f' H))
                ps body cenv (strip (ftail (bitems 1 0 None body))) eq_refl) as HS.
  cbv zeta in HS. apply (HS Hcode Ht Hndp Hsrc Hpn Hokb Hsm).
  - intros f' c c' ce cb' E. destruct (assoc_vis _ _ _ _ _ E) as [Hc E']. exact (Hent f' c c' ce cb' E' Hc).
  - intros x c E. exact (proj1 (proj2 (Hcdw x c E))).
  - intros fuel' _ f' ps' body' c c' ce cb' Eft Efc. exact (Hcall fuel' f' ps' body' c c' ce cb' (Hvis _ _ Eft) (proj2 (assoc_vis _ _ _ _ _ Efc))).
  - intros fuel' Hlt. exact (IHf fuel' Hlt).
Qed.

(* every function of the table does what call_clos does: induction on the position in the table (a function calls
   earlier ones) *)
Section Closure.
Variable path : str.
Variable FT : ftab.
Variable prog : program.
Hypothesis Hnd : NoDup (fnames FT).
Hypothesis HF : fns_ok [] FT.
Hypothesis Hprog : forall i f ps body, nth_error FT i = Some (f, (ps, body)) -> assoc (fn_name path i) prog = Some (fcode_of ps body).

Lemma gcall_ok : forall n i f ps body, i < n -> nth_error FT i = Some (f, (ps, body)) -> forall fuel,
  callee_ok (mpins path FT) prog fuel ps body [dscope 0 (firstn i FT)] (fn_name path i) (fcb (firstn i FT) (f, (ps, body))) [].
Proof.
  induction n as [|n IHn]; intros i f ps body Hi Hnth; [lia|].
  destruct (Nat.eq_dec i n) as [->|Hne]; [|apply (IHn i f ps body); [lia|exact Hnth]].
  set (P := firstn n FT). set (d := (f, (ps, body)) : fdef).
  pose proof (fns_ok_nth FT [] n d HF Hnth) as Hok. cbn [app] in Hok. fold P in Hok.
  assert (EFT : FT = P ++ skipn n FT) by (symmetry; apply firstn_skipn).
  assert (HlenP : length P = n) by (apply firstn_length_le, Nat.lt_le_incl, nth_error_Some; congruence).
  assert (HndP : NoDup (fnames P)).
  { pose proof Hnd as H. rewrite EFT, fnames_app in H. exact (NoDup_app_l _ _ _ H). }
  assert (Hpos : forall f' x, assoc f' (dfc [] P) = Some x ->
            exists j ps' body', j < n /\ nth_error FT j = Some (f', (ps', body')) /\ nth_error P j = Some (f', (ps', body')) /\
              assoc f' P = Some (ps', body') /\ mfloc path FT f' = fn_name path j /\
              x = (N.of_nat j, N.of_nat j, [dscope 0 (firstn j FT)], fcb (firstn j FT) (f', (ps', body')))).
  { intros f' x Efc. destruct (dfc_assoc P [] f' x Efc) as (ps' & body' & H1 & H2 & H3).
    assert (Hj : findex f' P < n) by (rewrite <- HlenP; apply nth_error_Some; congruence). exists (findex f' P), ps', body'.
    split; [exact Hj|]. split; [rewrite EFT, nth_error_app1 by lia; exact H1|]. split; [exact H1|]. split; [exact H2|]. split.
    - unfold mfloc. rewrite EFT, findex_prefix; [reflexivity|exact (assoc_in_fnames _ _ _ H2)].
    - rewrite H3. unfold P in Hj |- *. cbn [app length Nat.add]. rewrite firstn_firstn, Nat.min_l by lia. reflexivity. }
  apply (table_fun_sim prog FT P (dfc [] FT) (dfc [] P) (mfloc path FT) (fun _ => []) [] d (fn_name path n) (fcb P d) [dscope 0 P] [] []).
  - intros f' x H. rewrite EFT. now apply assoc_prefix.
  - intros f' x H. rewrite EFT, dfc_app. now apply assoc_prefix.
  - apply dfc_keys.
  - intros f' H. apply (fns_ok_names FT [] f' HF). rewrite EFT, fnames_app. apply in_or_app. now left.
  - exact Hok.
  - symmetry. exact (dcaps_nil P _ (caps_funs P _ (proj1 (proj2 (proj2 (proj2 Hok)))))).
  - exact (Hprog _ _ _ _ Hnth).
  - intros f' c c' ce cb' E Hin. destruct (Hpos _ _ E) as (j & ps' & body' & _ & _ & HPj & _ & _ & Ex). injection Ex as -> -> _ _.
    pose proof (assoc_dscope_nth P 0 j _ HndP HPj) as Ha. cbn [fst Nat.add] in Ha.
    split; [cbn [lookup_scopes]; now rewrite Ha|]. exact (assoc_cbmap _ _ _ _ Hin Ha).
  - intros x c E. discriminate.
  - intros f' p _ [].
  - intros fuel f' ps' body' c0 c0' cenv' cbf' Eft Efc.
    destruct (Hpos _ _ Efc) as (j & ps2 & body2 & Hj & Hnj & _ & E2 & -> & Ex).
    rewrite E2 in Eft. injection Eft as <- <-. injection Ex as -> -> -> ->. exact (IHn j f' ps2 body2 Hj Hnj fuel).
Qed.

Lemma call_ok_defs : forall fuel, call_ok FT (dfc [] FT) (mfloc path FT) (mpins path FT) (fun _ => []) prog fuel.
Proof.
  intros fuel f ps body c0 c0' cenv cbf Eft Efc.
  destruct (dfc_assoc _ _ _ _ Efc) as (ps' & body' & H1 & H2 & H3). rewrite H2 in Eft. injection Eft as <- <-.
  injection H3 as -> -> -> ->. exact (gcall_ok (S (findex f FT)) (findex f FT) f ps' body' (Nat.lt_succ_diag_r _) H1 fuel).
Qed.
End Closure.

Section ModuleFun.
Variable path : str.

Definition fmodule (FT : ftab) (main : list stmt) : source := map def_stmt FT ++ main.
Definition fmodule_code (FT : ftab) (main : list stmt) : list instr :=
  dcode path 0 FT ++ strip (bitems 0 0 None main) ++ [ret_mod].

Lemma cprogram_fmodule : forall FT main, fns_ok [] FT -> ok_block FT None [] false [] main = true ->
  cprogram path (fmodule FT main) = dfbuf path 0 FT ++ [(s_module_fn path, fmodule_code FT main)].
Proof.
  intros FT main HF Hok. unfold cprogram, fmodule. rewrite (cblock0_defs path FT [] main {| fid := 0; lreg := 0; fbuf := [] |} HF eq_refl). cbn [fid fbuf lreg app Nat.add].
  rewrite cblock0_eq, (cblockT_ok path 0 main FT None [] false [] None _ Hok). cbn [lreg fbuf].
  rewrite strip_app, strip_map_CI. unfold fmodule_code. now rewrite <- app_assoc.
Qed.

(* C01 for modules that define functions first (each may call itself through `self` and the earlier functions, which it
   captures) and then call them (in expression position) from the module's own code, at any nesting depth *)
Theorem module_fun_correct : forall FT main,
  fns_ok [] FT -> NoDup (fnames FT) -> ok_block FT None [] false [] main = true ->
  small (2 * length (fmodule_code FT main) + 8) ->
  let p := fmodule FT main in
  forall fuel, snd (run fuel p) <> ROFuel -> no_claim (snd (run fuel p)) \/
  exists fuel', fst (fst (execute fuel' (cprogram path p) (s_module_fn path))) = fst (run fuel p) /\
                vm_outcome_ok (snd (run fuel p)) (snd (fst (execute fuel' (cprogram path p) (s_module_fn path)))).
Proof.
  intros FT main HF Hnd Hok Hsm p fuel Hnf.
  set (name := s_module_fn path).
  set (P := cprogram path p).
  set (mc := fmodule_code FT main).
  assert (EP : P = dfbuf path 0 FT ++ [(name, mc)]) by (apply cprogram_fmodule; assumption).
  assert (Ecode : assoc name P = Some mc) by (rewrite EP; apply assoc_dfbuf_module).
  assert (HlenFT : small (length FT)).
  { eapply small_le; [|exact Hsm]. unfold fmodule_code. rewrite app_length, dcode_length. lia. }
  assert (Hprog : forall i f ps body, nth_error FT i = Some (f, (ps, body)) -> assoc (fn_name path i) P = Some (fcode_of ps body)).
  { intros i f ps body Hi. rewrite EP. exact (assoc_dfbuf path FT 0 i f ps body _ HlenFT Hi). }
  set (env0 := {| locals := [[]]; captured := []; cur := None |}).
  set (s0 := {| store := []; rout := [] |}).
  set (a0 := act0 name [] None).
  set (g00 := push_frame g0 (LFun name)).
  assert (Hd0 : dinv path name [] env0 s0 a0 g00).
  { constructor; try reflexivity. intros i f ps body Hi. destruct i; discriminate. }
  destruct (defs_run path P name mc FT [] env0 s0 a0 g00 main fuel Hnd HF (code_at_embed [] (dcode path 0 FT) _) Hd0)
    as (env1 & s1 & a1 & g1 & R1 & Hd1 & Hex).
  cbn [app] in Hd1. change (map def_stmt FT ++ main) with p in Hex.
  destruct Hex as [Hex|[fuel0 Hex]]; [unfold run in Hnf; fold env0 s0 in Hnf; rewrite Hex in Hnf; cbn in Hnf; congruence|].
  destruct (Rst_defs path name FT env1 s1 a1 g1 Hnd Hd1) as [HR HB].
  pose proof (cblock_end [] FT (fnames FT) (dfc [] FT) (mfloc path FT) None (fun f H => H) (fun f => fns_ok_names FT [] f HF) (dfc_none FT [])
                None None name ltac:(intros ps0 E; discriminate) (mpins path FT) (fpins_of_v FT _ _) (fpins_of_s FT _ _)
                [] ltac:(intros x c0 E; discriminate) [] ltac:(intros x cc []) (fun _ => []) []
                ltac:(intros f0 p0 _ []) ltac:(intros p0 [])
                path main [] Hok 0 {| fid := 0; lreg := 0; fbuf := [] |} no_pins P name (dcode path 0 FT)
                a0 g00 a1 g1 env1 s1 fuel0) as H.
  cbv zeta in H. rewrite (cblockT_ok path 0 main FT None [] false [] None _ Hok) in H. cbn [fst lreg] in H.
  fold (fmodule_code FT main) in H. fold mc in H.
  apply (module_finish P name mc); [exact Ecode| |exact Hnf]. fold env0 s0. rewrite Hex.
  exact (H eq_refl Hsm (Nat.le_0_l _) ltac:(rewrite (di_ip _ _ _ _ _ _ _ Hd1), dcode_length; reflexivity)
           (di_cb _ _ _ _ _ _ _ Hd1) HR HB
           ltac:(intros fuel' _; apply call_ok_defs; assumption)
           ltac:(intros fuel' _ ps0 body0 cenv0 E; discriminate) R1).
Qed.
End ModuleFun.
