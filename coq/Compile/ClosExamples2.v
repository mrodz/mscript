(* C15 / C12 -- non-vacuity of the closure fragment on the programs of those checks: the prelude of vlib/c15.py (a module
   variable, functions that print and return, `rec` with self(..)) with printed expression trees whose operands are calls
   (arithmetic, comparisons, && || ! with short-circuit over calls, nested calls as arguments), and the shapes of
   vlib/c12.py gen_program (functions returning optionals, `or` with a call / another `or` as fallback, `get` in expression
   and statement position, == nil, if / else, a while loop over pos(w) != nil): inside the decidable fragment, and the
   compiled code run by the VM model prints what the reference semantics prescribes and ends the same way. *)
From MS Require Import Lang.Eval.
From MS Require Import Vm.Model Lang.Syntax Compile.Compile Verify.Sound Compile.ExprBase Compile.ExprSim.
From MS Require Import Compile.StmtMach Compile.StmtRel Compile.StmtFrag Compile.StmtSim Compile.StmtFun Compile.StmtMod Compile.StmtExamples.
From MS Require Import Compile.ClosFrag Compile.ClosTop Compile.StmtFragB Compile.ClosExamples.
Open Scope nat_scope.

Lemma runs_fail : forall p N o f e, run N p = (o, ROFail f) ->
  match run_fn N (cprogram nvp p) (s_module_fn nvp) [] None g0 with
  | RFail e' g => e' = e /\ out g = o
  | _ => False
  end ->
  run N p = (o, ROFail f) /\ fst (vm_out p N) = fst (run N p) /\ exists fs, snd (vm_out p N) = RuntimeErr e fs.
Proof.
  intros p N o f e H1 H2. unfold vm_out, execute.
  destruct (run_fn N (cprogram nvp p) (s_module_fn nvp) [] None g0) as [rv g|e' g|]; try contradiction.
  destruct H2 as [-> <-]. rewrite H1. split; [reflexivity|]. split; [reflexivity|]. eexists. reflexivity.
Qed.

Definition n_x : str := [120]%N.   (* x *)
Definition n_d : str := [100]%N.   (* d *)
Definition n_bump : str := [98; 117; 109; 112]%N.   (* bump *)
Definition n_k : str := [107]%N.   (* k *)
Definition n_log : str := [108; 111; 103]%N.   (* log *)
Definition n_b : str := [98]%N.   (* b *)
Definition n_logb : str := [108; 111; 103; 98]%N.   (* logb *)
Definition n_zero : str := [122; 101; 114; 111]%N.   (* zero *)
Definition n_two : str := [116; 119; 111]%N.   (* two *)
Definition n_a : str := [97]%N.   (* a *)
Definition n_pick : str := [112; 105; 99; 107]%N.   (* pick *)
Definition n_c : str := [99]%N.   (* c *)
Definition n_n : str := [110]%N.   (* n *)
Definition n_rec : str := [114; 101; 99]%N.   (* rec *)
Definition n_unreachable : str := [117; 110; 114; 101; 97; 99; 104; 97; 98; 108; 101]%N.   (* unreachable *)
Definition n_pos : str := [112; 111; 115]%N.   (* pos *)
Definition n_name : str := [110; 97; 109; 101]%N.   (* name *)
Definition n_o : str := [111]%N.   (* o *)
Definition n_dflt : str := [100; 102; 108; 116]%N.   (* dflt *)
Definition n_glob : str := [103; 108; 111; 98]%N.   (* glob *)
Definition n_orglob : str := [111; 114; 103; 108; 111; 98]%N.   (* orglob *)
Definition n_fallback_evaluated : str := [102; 97; 108; 108; 98; 97; 99; 107; 32; 101; 118; 97; 108; 117; 97; 116; 101; 100]%N.   (* fallback evaluated *)
Definition n_noisy : str := [110; 111; 105; 115; 121]%N.   (* noisy *)
Definition n_o0 : str := [111; 48]%N.   (* o0 *)
Definition n_o1 : str := [111; 49]%N.   (* o1 *)
Definition n_is_nil : str := [105; 115; 32; 110; 105; 108]%N.   (* is nil *)
Definition n_sp1 : str := [115; 112; 49]%N.   (* sp1 *)
Definition n_sp2 : str := [115; 112; 50]%N.   (* sp2 *)
Definition n_anon : str := [97; 110; 111; 110]%N.   (* anon *)
Definition n_w : str := [119]%N.   (* w *)
Definition n_sp3 : str := [115; 112; 51]%N.   (* sp3 *)
Definition n_still_here : str := [115; 116; 105; 108; 108; 32; 104; 101; 114; 101]%N.   (* still here *)
Definition n_sp4 : str := [115; 112; 52]%N.   (* sp4 *)
Definition n_i : str := [105]%N.   (* i *)
Definition n_f : str := [102]%N.   (* f *)
Definition n_g : str := [103]%N.   (* g *)
Definition n_t : str := [116]%N.   (* t *)
Definition n_add : str := [97; 100; 100]%N.   (* add *)
Definition n_acc : str := [97; 99; 99]%N.   (* acc *)
Definition n_j : str := [106]%N.   (* j *)
Definition n_id : str := [105; 100]%N.   (* id *)
Definition n_run : str := [114; 117; 110]%N.   (* run *)
Definition n_z : str := [122]%N.   (* z *)
Definition n_g1 : str := [103; 49]%N.   (* g1 *)
Definition n_lim : str := [108; 105; 109]%N.   (* lim *)
Definition n_q : str := [113]%N.   (* q *)
Definition n_none : str := [110; 111; 110; 101]%N.   (* none *)
Definition n_g2 : str := [103; 50]%N.   (* g2 *)

Definition nv_c15 : source :=
  [ SAssign n_x (EInt 10);
    SAssign n_bump (EFn [n_d] [SModify n_x (EBin BAdd (EVar n_x) (EVar n_d));
      SPrint (EVar n_d);
      SReturn (Some (EVar n_d))]);
    SAssign n_log (EFn [n_k] [SPrint (EVar n_k);
      SReturn (Some (EBin BMod (EVar n_k) (EInt 7)))]);
    SAssign n_logb (EFn [n_k; n_b] [SPrint (EVar n_k);
      SReturn (Some (EVar n_b))]);
    SAssign n_zero (EFn [] [SPrint (EStr n_zero);
      SReturn (Some (EInt 0))]);
    SAssign n_two (EFn [n_a; n_b] [SPrint (EStr n_two);
      SReturn (Some (EBin BSub (EVar n_a) (EVar n_b)))]);
    SAssign n_pick (EFn [n_a; n_b; n_c; n_d] [SPrint (EStr n_pick);
      SReturn (Some (EBin BAdd (EBin BAdd (EVar n_a) (EBin BMul (EVar n_b) (EInt 10))) (EBin BAdd (EBin BMul (EVar n_c) (EInt 100)) (EBin BMul (EVar n_d) (EInt 1000)))))]);
    SAssign n_rec (EFn [n_n] [SIf (EBin BLe (EVar n_n) (EInt 0)) [SReturn (Some (call n_log [(EInt 900)]))];
      SReturn (Some (EBin BAdd (call n_log [(EBin BAdd (EVar n_n) (EInt 800))]) (ESelf [(EBin BSub (EVar n_n) (EInt 1))])))]);
    SPrint (EBin BAdd (call n_log [(EInt 1)]) (EBin BMul (call n_two [(call n_log [(EInt 2)]); (call n_bump [(EInt 3)])]) (EVar n_x)));
    SPrint (EAnd (call n_logb [(EInt 4); (EBool false)]) (call n_logb [(EInt 5); (EBool true)]));
    SPrint (EAnd (call n_logb [(EInt 6); (EBool true)]) (call n_logb [(EInt 7); (EBool false)]));
    SPrint (EOr (call n_logb [(EInt 8); (EBool true)]) (call n_logb [(EInt 9); (EBool false)]));
    SPrint (ENot (EOr (call n_logb [(EInt 10); (EBool false)]) (call n_logb [(EInt 11); (EBool true)])));
    SPrint (call n_rec [(EInt 2)]);
    SPrint (call n_pick [(EVar n_x); (call n_bump [(EInt 12)]); (EVar n_x); (call n_bump [(EInt 13)])]);
    SPrint (EBin BDiv (EVar n_x) (call n_bump [(EInt 14)]));
    SPrint (EBin BSub (EInt 0) (call n_log [(EInt 15)]));
    SPrint (EBin BLt (EBin BAdd (EVar n_x) (call n_bump [(EInt 16)])) (EVar n_x));
    SPrint (call n_zero []) ].

Definition nv_c15_div : source :=
  [ SAssign n_x (EInt 10);
    SAssign n_bump (EFn [n_d] [SModify n_x (EBin BAdd (EVar n_x) (EVar n_d));
      SPrint (EVar n_d);
      SReturn (Some (EVar n_d))]);
    SAssign n_log (EFn [n_k] [SPrint (EVar n_k);
      SReturn (Some (EBin BMod (EVar n_k) (EInt 7)))]);
    SAssign n_logb (EFn [n_k; n_b] [SPrint (EVar n_k);
      SReturn (Some (EVar n_b))]);
    SAssign n_zero (EFn [] [SPrint (EStr n_zero);
      SReturn (Some (EInt 0))]);
    SAssign n_two (EFn [n_a; n_b] [SPrint (EStr n_two);
      SReturn (Some (EBin BSub (EVar n_a) (EVar n_b)))]);
    SAssign n_pick (EFn [n_a; n_b; n_c; n_d] [SPrint (EStr n_pick);
      SReturn (Some (EBin BAdd (EBin BAdd (EVar n_a) (EBin BMul (EVar n_b) (EInt 10))) (EBin BAdd (EBin BMul (EVar n_c) (EInt 100)) (EBin BMul (EVar n_d) (EInt 1000)))))]);
    SAssign n_rec (EFn [n_n] [SIf (EBin BLe (EVar n_n) (EInt 0)) [SReturn (Some (call n_log [(EInt 900)]))];
      SReturn (Some (EBin BAdd (call n_log [(EBin BAdd (EVar n_n) (EInt 800))]) (ESelf [(EBin BSub (EVar n_n) (EInt 1))])))]);
    SPrint (EBin BMod (call n_log [(EInt 1)]) (call n_zero []));
    SPrint (EStr n_unreachable) ].

Definition nv_c12 : source :=
  [ SAssign n_pos (EFn [n_k] [SIf (EBin BGt (EVar n_k) (EInt 0)) [SReturn (Some (EVar n_k))];
      SReturn (Some ENil)]);
    SAssign n_name (EFn [n_k] [SIf (EBin BGt (EVar n_k) (EInt 1)) [SReturn (Some (EStr n_n))];
      SReturn (Some ENil)]);
    SAssign n_dflt (EFn [n_o; n_d] [SReturn (Some (ENilOr (EVar n_o) (EVar n_d)))]);
    SAssign n_glob (EInt 50);
    SAssign n_orglob (EFn [n_o] [SReturn (Some (ENilOr (EVar n_o) (EVar n_glob)))]);
    SAssign n_noisy (EFn [n_k] [SPrint (EStr n_fallback_evaluated);
      SReturn (Some (EVar n_k))]);
    SAssign n_o0 ENil;
    SAssign n_o1 (call n_pos [(EInt 3)]);
    SPrint (ENilOr (call n_pos [(EInt 0)]) (call n_noisy [(EInt 20)]));
    SPrint (ENilOr (EVar n_o1) (call n_noisy [(EInt 21)]));
    SPrint (EBin BAdd (ENilOr (EVar n_o0) (ENilOr (EVar n_o1) (EInt 77))) (EInt 1));
    SPrint (EBin BEq (EVar n_o0) ENil);
    SPrint (EBin BNeq ENil (EVar n_o1));
    SIfElse (EBin BEq (EVar n_o0) ENil) [SPrint (EStr n_is_nil)] [SPrint (EBin BMul (EGet (EVar n_o0) n_sp1) (EInt 2))];
    SIfElse (EBin BEq (EVar n_o1) ENil) [SPrint (EStr n_is_nil)] [SPrint (EBin BMul (EGet (EVar n_o1) n_sp2) (EInt 2))];
    SPrint (call n_dflt [(EVar n_o0); (EInt 30)]);
    SPrint (call n_orglob [(EVar n_o1)]);
    SPrint (ENilOr (call n_name [(EInt 0)]) (EStr n_anon));
    SAssign n_w (EInt 2);
    SWhile (EBin BNeq (call n_pos [(EVar n_w)]) ENil) [SPrint (ENilOr (call n_pos [(EVar n_w)]) (EInt 0)); SAssign n_w (EBin BSub (EVar n_w) (EInt 1))];
    SExpr (EGet (EVar n_o1) n_sp3);
    SPrint (EStr n_still_here);
    SAssign n_o1 (call n_pos [(EInt 0)]);
    SPrint (EGet (EVar n_o1) n_sp4);
    SPrint (EStr n_unreachable) ].

Definition nv_mix : source :=
  [ SAssign n_x (EInt 1);
    SAssign n_f (EFn [n_n] [SAssign n_i (EInt 0);
      SWhile (EBool true) [SOpAssign n_i BAdd (EInt 1); SIfElif (EBin BGt (EVar n_i) (EVar n_n)) [SBreak] (SIfElse (EBin BEq (EBin BMod (EVar n_i) (EInt 2)) (EInt 0)) [SContinue] [SModify n_x (EBin BAdd (EVar n_x) (EVar n_i))]); SAssert (EBin BGt (EVar n_x) (EInt 0)) n_sp1];
      SOpAssign n_x BMul (EInt 2);
      SReturn (Some (EVar n_i))]);
    SPrint (call n_f [(EInt 5)]);
    SPrint (EVar n_x);
    SAssign n_g (EFn [] [SOpAssign n_x BSub (EInt 3);
      SReturn None]);
    SExpr (call n_g []);
    SPrint (EVar n_x);
    SAssert (EBin BLt (EVar n_x) (EInt 0)) n_sp2;
    SPrint (EStr n_unreachable) ].

Definition nv_loops : source :=
  [ SAssign n_t (EInt 0);
    SAssign n_add (EFn [n_d] [SModify n_t (EBin BAdd (EVar n_t) (EVar n_d))]);
    SAssign n_id (EFn [n_z] [SReturn (Some (EVar n_z))]);
    SAssign n_run (EFn [n_n] [SAssign n_acc (EInt 0);
      SFrom (EInt 0) (EVar n_n) false None None false [SAssign n_acc (EBin BAdd (EVar n_acc) (EInt 1))];
      SFrom (EInt 1) (EVar n_n) true (Some (EInt 2)) (Some n_j) false [SOpAssign n_acc BAdd (EVar n_j); SExpr (call n_add [(EVar n_j)])];
      SAssign n_k (EInt 0);
      SFrom (EInt 0) (EInt 3) false None (Some n_k) true [SIf (EBin BEq (EVar n_k) (EInt 1)) [SContinue]; SAssign n_acc (EBin BAdd (EVar n_acc) (EVar n_k))];
      SFrom (call n_id [(EInt 0)]) (EInt 10) false (Some (EBin BAdd (EVar n_k) (EInt 0))) None false [SIf (EBin BGt (EVar n_acc) (EInt 100)) [SBreak]; SAssign n_acc (EBin BMul (EVar n_acc) (EInt 2))];
      SReturn (Some (EBin BAdd (EVar n_acc) (EVar n_k)))]);
    SPrint (call n_run [(EInt 4)]);
    SPrint (EVar n_t) ].

Definition nv_bounds : source :=
  [ SAssign n_t (EInt 0);
    SAssign n_g1 (EInt 3);
    SAssign n_lim (EFn [n_n] [SModify n_t (EBin BAdd (EVar n_t) (EInt 1));
      SReturn (Some (EVar n_n))]);
    SAssign n_run (EFn [n_n] [SAssign n_acc (EInt 0);
      SFrom (EInt 0) (call n_lim [(EVar n_n)]) false None (Some n_j) false [SOpAssign n_acc BAdd (EVar n_j)];
      SFrom (EInt 1) (call n_lim [(EInt 2)]) true (Some (EBin BAdd (EBin BMul (EVar n_g1) (EInt 0)) (EInt 2))) (Some n_q) false [SAssign n_acc (EBin BAdd (EVar n_acc) (EVar n_q))];
      SReturn (Some (ENeg (call n_lim [(EVar n_acc)])))]);
    SPrint (call n_run [(EInt 3)]);
    SPrint (EVar n_t) ].

Definition nv_kn : source :=
  [ SAssign n_t (EInt 0);
    SAssign n_f (EFn [n_n] [SIf (EBin BGt (EVar n_n) (EInt 0)) [SModify n_t (EVar n_n); SReturn (Some (EVar n_n))];
      SPrint (EStr n_none)]);
    SExpr (call n_f [(EInt 1)]);
    SExpr (call n_f [(EInt 0)]);
    SPrint (EVar n_t) ].

Definition nv_shadow : source :=
  [ SAssign n_g2 (EInt 7);
    SAssign n_id (EFn [n_z] [SReturn (Some (EVar n_z))]);
    SAssign n_f (EFn [n_n] [SFrom (EInt 1) (call n_id [(EVar n_n)]) false None (Some n_g2) false [SPrint (EVar n_g2)];
      SReturn (Some (EVar n_g2))]);
    SPrint (call n_f [(EInt 3)]) ].

(* operands left to right, once; && / || skip the call on the right when the left operand decides; x is read when its
   operand is evaluated (before a later sibling modifies it); self(..) in `rec`: 31 lines *)
Example C15_nv_order_program :
  in_fragment2 nvp nv_c15 = true /\ in_fragment nvp nv_c15 = true /\
  vm_out nv_c15 5000 = (fst (run 5000 nv_c15), Done) /\ snd (run 5000 nv_c15) = RODone /\
  fst (run 5000 nv_c15) = [[49]; [50]; [51]; [116; 119; 111]; [45; 49; 50]; [52]; [102; 97; 108; 115; 101]; [54]; [55]; [102; 97; 108; 115; 101]; [56]; [116; 114; 117; 101]; [49; 48]; [49; 49]; [102; 97; 108; 115; 101]; [56; 48; 50]; [56; 48; 49]; [57; 48; 48]; [49; 49]; [49; 50]; [49; 51]; [112; 105; 99; 107]; [49; 53; 54; 51; 51]; [49; 52]; [50]; [49; 53]; [45; 49]; [49; 54]; [102; 97; 108; 115; 101]; [122; 101; 114; 111]; [48]]%N.
Proof.
  name_fuel.
  apply frag2_both; [vm_compute; reflexivity|].
  eapply (runs_agree (fun o => o = _)); [vm_compute; reflexivity|vm_compute; split; reflexivity|reflexivity].
Qed.

(* the failure case: log(1) % zero() prints 1 and zero, then both sides stop with the division error *)
Example C15_nv_division_by_zero :
  in_fragment2 nvp nv_c15_div = true /\
  run 5000 nv_c15_div = ([[49]; [122; 101; 114; 111]]%N, ROFail FDivZero) /\
  fst (vm_out nv_c15_div 5000) = fst (run 5000 nv_c15_div) /\
  (exists fs, snd (vm_out nv_c15_div 5000) = RuntimeErr E_div_zero fs).
Proof.
  name_fuel.
  split; [vm_compute; reflexivity|]. apply runs_fail; [vm_compute; reflexivity|vm_compute; split; reflexivity].
Qed.

(* optionals: the fallback of `or` is evaluated only for nil (a call, another `or`), == nil on either side, if / else,
   get in expression and statement position; the last `get` meets nil: both sides stop with the span of that `get` *)
Example C12_nv_optional_program :
  in_fragment2 nvp nv_c12 = true /\ in_fragment nvp nv_c12 = true /\
  run 5000 nv_c12 = ([[102; 97; 108; 108; 98; 97; 99; 107; 32; 101; 118; 97; 108; 117; 97; 116; 101; 100]; [50; 48]; [51]; [52]; [116; 114; 117; 101]; [116; 114; 117; 101]; [105; 115; 32; 110; 105; 108]; [54]; [51; 48]; [51]; [97; 110; 111; 110]; [50]; [49]; [115; 116; 105; 108; 108; 32; 104; 101; 114; 101]]%N, ROFail (FUnwrapNil n_sp4)) /\
  fst (vm_out nv_c12 5000) = fst (run 5000 nv_c12) /\
  (exists fs, snd (vm_out nv_c12 5000) = RuntimeErr (E_unwrap_nil n_sp4) fs).
Proof.
  name_fuel.
  apply frag2_both; [vm_compute; reflexivity|].
  apply runs_fail; [vm_compute; reflexivity|vm_compute; split; reflexivity].
Qed.

(* the features of the two fragments MIXED: a closure that writes through a captured variable inside a `while true` loop
   left by `break`, with `continue`, an else-if chain, `assert`, op-assignments on a local and on the captured variable
   (through its cell), a function ending with a bare `return` called in statement position; the last assert fails: both
   sides stop with its span after the same 3 lines *)
Example C01_nv_mixed_program :
  in_fragment2 nvp nv_mix = true /\ in_fragment nvp nv_mix = true /\
  run 5000 nv_mix = ([[54]; [50; 48]; [49; 55]]%N, ROFail (FAssert n_sp2)) /\
  fst (vm_out nv_mix 5000) = fst (run 5000 nv_mix) /\
  (exists fs, snd (vm_out nv_mix 5000) = RuntimeErr (E_assert n_sp2) fs).
Proof.
  name_fuel.
  apply frag2_both; [vm_compute; reflexivity|].
  apply runs_fail; [vm_compute; reflexivity|vm_compute; split; reflexivity].
Qed.

(* from loops of every form inside a function that also calls a closure writing through a captured variable: an
   anonymous counter, a named fresh counter with `through` and a step, a colliding counter (an existing local, kept after
   the loop) with `continue`, an anonymous stepped loop whose lower bound is a call and whose step reads a local, left by
   `break` *)
Example C01_nv_loops_program :
  in_fragment2 nvp nv_loops = true /\ in_fragment nvp nv_loops = true /\
  vm_out nv_loops 5000 = (fst (run 5000 nv_loops), Done) /\ snd (run 5000 nv_loops) = RODone /\
  fst (run 5000 nv_loops) = [[49; 54; 51]; [52]]%N.
Proof.
  name_fuel.
  apply frag2_both; [vm_compute; reflexivity|].
  eapply (runs_agree (fun o => o = _)); [vm_compute; reflexivity|vm_compute; split; reflexivity|reflexivity].
Qed.

(* calls in the UPPER bound of loops with a NAMED counter (the VM binds the counter before it evaluates the bound; the callee
   writes through a captured variable), a step that reads a captured variable of the function, unary minus over a call *)
Example C01_nv_bounds_program :
  in_fragment2 nvp nv_bounds = true /\ in_fragment nvp nv_bounds = true /\ in_fragment1 nvp nv_bounds = false /\
  vm_out nv_bounds 5000 = (fst (run 5000 nv_bounds), Done) /\ snd (run 5000 nv_bounds) = RODone /\
  fst (run 5000 nv_bounds) = [[45; 52]; [51]]%N.
Proof.
  name_fuel.
  apply frag2_both; [vm_compute; reflexivity|]. split; [vm_compute; reflexivity|].
  eapply (runs_agree (fun o => o = _)); [vm_compute; reflexivity|vm_compute; split; reflexivity|reflexivity].
Qed.

(* a function that returns data on one path and no value on the other, called in statement position *)
Example C01_nv_maybe_value_program :
  in_fragment2 nvp nv_kn = true /\ in_fragment1 nvp nv_kn = false /\
  vm_out nv_kn 5000 = (fst (run 5000 nv_kn), Done) /\ snd (run 5000 nv_kn) = RODone /\
  fst (run 5000 nv_kn) = [[110; 111; 110; 101]; [49]]%N.
Proof.
  name_fuel.
  split; [vm_compute; reflexivity|]. split; [vm_compute; reflexivity|].
  eapply (runs_agree (fun o => o = _)); [vm_compute; reflexivity|vm_compute; split; reflexivity|reflexivity].
Qed.

(* a named counter with the name of a captured variable of the function, and a call in the upper bound (which does not mention
   that name): the counter shadows the captured variable inside the loop only *)
Example C01_nv_shadowing_counter_program :
  in_fragment2 nvp nv_shadow = true /\
  vm_out nv_shadow 5000 = (fst (run 5000 nv_shadow), Done) /\ snd (run 5000 nv_shadow) = RODone /\
  fst (run 5000 nv_shadow) = [[49]; [50]; [55]]%N.
Proof.
  name_fuel.
  split; [vm_compute; reflexivity|].
  eapply (runs_agree (fun o => o = _)); [vm_compute; reflexivity|vm_compute; split; reflexivity|reflexivity].
Qed.
