(* C01, statement level: modules whose function definitions stand at any top-level position, between
   statements of the fragment (`n = 1; k = 0; h = fn(x) {...}; ...; f0 = fn(n) {...}; print f0(3)`).
   The simulation runs along the top-level items with a table of the functions defined so far (fentry): a definition
   extends the table and keeps the statement relation, now for the larger table (def_rel); a statement is simulated
   by StmtSim.stmt_sim, its calls by tcall_ok (every function of a well-formed table does what call_clos does). *)
From MS Require Import Lang.Eval.
From MS Require Import Vm.Model Lang.Syntax Compile.Compile Verify.Sound Compile.ExprBase Compile.ExprSim.
From MS Require Import Compile.StmtMach Compile.StmtRel Compile.StmtFrag Compile.StmtSim Compile.StmtFun.
From Coq Require Import Lia.
Open Scope nat_scope.

(* the fields of the statement relation, its parameters left to unification *)
Local Notation rg_out H := (Rg_out _ _ _ _ _ _ _ _ _ _ _ _ _ H).
Local Notation rg_drop H := (Rg_drop _ _ _ _ _ _ _ _ _ _ _ _ _ H).

Lemma pairs_sub_funs : forall funs funs' l fs c c', (forall y, In y funs -> In y funs') ->
  pairs funs' l fs c c' -> pairs funs l fs c c'.
Proof.
  intros funs funs' l. induction l as [|sc l IH]; intros [|f fs] c c' H Hp; cbn [pairs] in *; try contradiction.
  destruct Hp as [(x & Hx & E1 & E2)|Hp]; [left; exists x; split; [exact (uname_sub _ _ _ H Hx)|auto]|right; exact (IH _ _ _ H Hp)].
Qed.

Lemma Rfr_sub_funs : forall funs funs' st cs l fs, (forall y, In y funs -> In y funs') ->
  Rfr funs st cs l fs -> Rfr funs' st cs l fs.
Proof.
  intros funs funs' st cs l. induction l as [|sc l IH]; intros [|f fs] H Hr; cbn [Rfr] in *; try contradiction.
  destruct Hr as [Hl Hr]. split.
  - intros x Hx. exact (Hl x (uname_sub _ _ _ H Hx)).
  - destruct l as [|sc' l]; [exact Hr|]. destruct Hr as [Hs Hr]. split; [exact Hs|exact (IH _ H Hr)].
Qed.

Lemma pins_sub_funs : forall funs funs' P l fs st cs, (forall y, In y funs -> In y funs') ->
  pins_ok funs P l fs st cs -> pins_ok funs' P l fs st cs.
Proof.
  intros funs funs' P l fs st cs H [H1 H2]. split.
  - intros cy w Hq. destruct (H1 cy w Hq) as [A B]. split; [exact A|]. intros c0 Hp. exact (B c0 (pairs_sub_funs _ _ _ _ _ _ H Hp)).
  - intros c0 v Hq. destruct (H2 c0 v Hq) as [A B]. split; [exact A|]. intros c0' Hp. exact (B c0' (pairs_sub_funs _ _ _ _ _ _ H Hp)).
Qed.

Lemma uname_snoc : forall funs f x, uname funs x -> x <> f -> uname (funs ++ [f]) x.
Proof. intros funs f x [H0 Hn] Hne. split; [exact H0|]. intros Hin. apply in_app_or in Hin as [Hin|[Hin|[]]]; [exact (Hn Hin)|congruence]. Qed.
Lemma assoc_app_none : forall A (l r : list (str * A)) x, assoc x l = None -> assoc x (l ++ r) = assoc x r.
Proof.
  intros A. induction l as [|[k v] l IH]; intros r x H; [reflexivity|]. cbn [app assoc] in *.
  destruct (str_eqb k x); [discriminate|]. now apply IH.
Qed.
Lemma assoc_snoc : forall A (l : list (str * A)) k v x y, assoc x (l ++ [(k, v)]) = Some y ->
  assoc x l = Some y \/ (assoc x l = None /\ x = k /\ y = v).
Proof.
  intros A l k v x y H. destruct (assoc x l) as [z|] eqn:E.
  - rewrite (assoc_prefix _ _ _ _ _ E) in H. now left.
  - rewrite (assoc_app_none _ _ _ _ E) in H. cbn [assoc] in H. destruct (str_eqb k x) eqn:Ek; [|discriminate].
    apply str_eqb_eq in Ek. injection H as <-. right. auto.
Qed.

Section DefRel.
Variable name : str.
Variables (FT : ftab) (fcells : list (str * (N * N * list scope * option (list (str * N))))) (floc floc' : str -> str).
Hypothesis Hfck : forall f, In f (fnames FT) <-> assoc f fcells <> None.
Variables (f : str) (ps : list str) (body : list stmt) (cenv : list scope) (cbf : option (list (str * N))).
Hypothesis Hf0 : uname0 f.
Hypothesis Hfn : ~ In f (fnames FT).
Hypothesis Hloc : forall x, x <> f -> floc' x = floc x.
(* the module-level data bindings captured so far / by the new function *)
Variables (dtab dt' : list (str * (N * N))).

Local Notation funs := (fnames FT).
Local Notation FT' := (FT ++ [(f, (ps, body))]).
Local Notation funs' := (fnames FT').

Lemma funs_sub : forall y, In y funs -> In y funs'.
Proof. intros y H. rewrite fnames_app. apply in_or_app. now left. Qed.

Lemma def_new : forall fpins env s g B sc fr,
  Rg [] FT funs fcells None None name fpins [] dtab no_pins env s g -> bound_in FT funs B env -> ~ In f B ->
  locals env = [sc] -> frames g = [fr] -> assoc f sc = None /\ assoc f (vars fr) = None.
Proof.
  intros fpins env s g B sc fr HG HB HfB El Ef.
  assert (Hsn : lookup_scopes f (locals env) = None).
  { destruct (lookup_scopes f (locals env)) eqn:E; [|reflexivity]. exfalso.
    destruct (proj1 (proj1 HB f (proj2 (proj2 Hf0))) ltac:(congruence)) as [H|H]; [exact (HfB H)|exact (Hfn H)]. }
  pose proof (Rfr_look _ _ _ _ (Rg_fr _ _ _ _ _ _ _ _ _ _ _ _ _ HG) f (conj Hf0 Hfn)) as H.
  rewrite Hsn, Ef, find_one_frame in H. rewrite El, lookup_one_scope in Hsn.
  split; [exact Hsn|destruct (assoc f (vars fr)); [contradiction|reflexivity]].
Qed.

Lemma def_rel : forall env s g B sc fr tr,
  Rg [] FT funs fcells None None name (fpins_of FT fcells floc) [] dtab no_pins env s g ->
  bound_in FT funs B env -> ~ In f B ->
  locals env = [sc] -> frames g = [fr] ->
  (forall x c0 c0', In (x, (c0, c0')) dt' -> assoc x sc = Some c0 /\ assoc x (vars fr) = Some c0') ->
  let c := N.of_nat (length (store s)) in
  let c' := N.of_nat (length (cells g)) in
  let env' := {| locals := [assoc_set f c sc]; captured := captured env; cur := cur env |} in
  let s' := {| store := store s ++ [RClos ps body cenv]; rout := rout s |} in
  let g' := {| cells := cells g ++ [VFun (floc' f) cbf]; frames := [{| lab := lab fr; vars := assoc_set f c' (vars fr) |}];
               out := out g; trace := tr |} in
  let fcells' := fcells ++ [(f, (c, c', cenv, cbf))] in
  Rg [] FT' funs' fcells' None None name (fpins_of FT' fcells' floc') [] (dtab ++ dt') no_pins env' s' g' /\
  bound_in FT' funs' B env' /\ find_in_function f (frames g) = None /\ lookup_scopes f (locals env) = None.
Proof.
  intros env s g B sc fr tr HG HB HfB El Ef Hdt'. destruct (def_new _ env s g B sc fr HG HB HfB El Ef) as [Has Hav].
  destruct env as [l cap cu], s as [st ro], g as [cs fs o tr0].
  destruct HG as [Hfr Hb Ho Hbase Hun Hns Hpins Hnd Hfp Hfl Hcur Hcf Hcapd Hdl].
  cbn [locals captured cur store rout cells frames out trace] in *. subst l fs. cbv zeta.
  set (c := N.of_nat (length st)). set (c' := N.of_nat (length cs)).
  set (sc' := assoc_set f c sc). set (fr' := {| lab := lab fr; vars := assoc_set f c' (vars fr) |}).
  (* every other name is looked up as before; a user name of the larger table, and a function of the smaller, are other names *)
  assert (Hlk : forall x, x <> f -> assoc x sc' = assoc x sc) by (intros x Hx; apply assoc_set_other; exact Hx).
  assert (Hfind : forall x, x <> f -> find_in_function x [fr'] = find_in_function x [fr]).
  { intros x Hx. rewrite !find_one_frame. now apply assoc_set_other. }
  assert (Hnp : forall x, uname funs' x -> x <> f).
  { intros x [_ Hn] ->. apply Hn. rewrite fnames_app. apply in_or_app. right. now left. }
  assert (Hold : forall f0 x, assoc f0 fcells = Some x -> f0 <> f) by (intros f0 x E ->; apply Hfn, Hfck; congruence).
  (* so no new cells are paired; paired cells exist, the new cells are the next ones *)
  assert (Hpairs' : forall c0 c0', pairs funs' [sc'] [fr'] c0 c0' -> pairs funs' [sc] [fr] c0 c0').
  { intros c0 c0' Hp. apply (pairs_scope sc sc') in Hp; [|intros x Hx; exact (Hlk x (Hnp x Hx))].
    apply (pairs_top _ fr fr') in Hp; [exact Hp|intros x Hx; exact (Hfind x (Hnp x Hx))]. }
  assert (Hpairs : forall c0 c0', pairs funs' [sc'] [fr'] c0 c0' -> pairs funs [sc] [fr] c0 c0')
    by (intros c0 c0' Hp; exact (pairs_sub_funs _ _ _ _ _ _ funs_sub (Hpairs' _ _ Hp))).
  assert (Hnew : forall c0 c0', pairs funs' [sc'] [fr'] c0 c0' -> c0 <> c /\ c0' <> c').
  { intros c0 c0' Hp. destruct (cellrel_valid _ _ _ _ (pairs_cellrel _ _ _ _ _ _ Hfr (Hpairs _ _ Hp))) as [V1 V2].
    split; intros ->; unfold c, c' in *; rewrite Nnat.Nat2N.id in *; lia. }
  assert (Hfp' : pins_ok funs' (fpins_of FT fcells floc) [sc'] [fr'] (st ++ [RClos ps body cenv]) (cs ++ [VFun (floc' f) cbf])).
  { apply pins_mono_. exact (pins_sub_ _ _ _ _ _ _ _ (pins_sub_funs _ _ _ _ _ _ _ funs_sub Hfp) Hpairs'). }
  split; [|split; [|split; [now rewrite find_one_frame|now rewrite lookup_one_scope]]].
  - constructor; cbn [locals captured cur store rout cells frames out]; try assumption.
    + apply Rfr_mono. apply (Rfr_scope _ _ sc); [|intros x Hx; exact (Hlk x (Hnp x Hx))].
      apply (Rfr_top _ _ _ fr); [|reflexivity|intros x Hx; exact (Hfind x (Hnp x Hx))].
      exact (Rfr_sub_funs _ _ _ _ _ _ funs_sub Hfr).
    + intros c1 c1' c2 c2' H1 H2. exact (Hb _ _ _ _ (Hpairs _ _ H1) (Hpairs _ _ H2)).
    + intros x Hx. destruct (list_eq_dec N.eq_dec x f) as [->|Hne].
      * right. left. rewrite fnames_app. apply in_or_app. right. now left.
      * cbn [lookup_scopes] in Hx, Hun. rewrite (Hlk x Hne) in Hx.
        destruct (Hun x Hx) as [H|[H|H]]; [left; rewrite fnames_app; now apply uname_snoc|right; left; exact (funs_sub _ H)|right; right; exact H].
    + split; [intros; reflexivity|exact Logic.I].
    + split; intros ? ? [].
    + constructor; [|constructor]. apply keys_nd_assoc_set. inversion Hnd; assumption.
    + destruct Hfp' as [O1 O2]. split.
      * intros cy w (f0 & c0 & ce & cb0 & E & ->). destruct (assoc_snoc _ _ _ _ _ _ E) as [E0|(_ & -> & Ex)].
        -- rewrite (Hloc f0 (Hold _ _ E0)). apply O1. exists f0, c0, ce, cb0. auto.
        -- injection Ex as _ -> _ ->. split; [unfold c'; rewrite Nnat.Nat2N.id, nth_error_app2, Nat.sub_diag by lia; reflexivity|].
           intros c1 Hp. exact (proj2 (Hnew _ _ Hp) eq_refl).
      * intros c0 v (f0 & c0' & ce & cb0 & ps0 & body0 & E & E2 & ->). apply assoc_snoc in E2.
        destruct (assoc_snoc _ _ _ _ _ _ E) as [E0|(_ & -> & Ex)].
        -- destruct E2 as [E2|(E2 & _)]; [|destruct (proj2 (assoc_keys _ FT f0) (proj2 (Hfck f0) ltac:(congruence)) E2)].
           apply O2. exists f0, c0', ce, cb0, ps0, body0. auto.
        -- destruct E2 as [E2|(_ & _ & E2)]; [destruct (Hfn (assoc_in_fnames _ _ _ E2))|]. injection E2 as -> ->. injection Ex as -> _ -> _.
           split; [unfold c; rewrite Nnat.Nat2N.id, nth_error_app2, Nat.sub_diag by lia; reflexivity|].
           intros c1 Hp. exact (proj1 (Hnew _ _ Hp) eq_refl).
    + intros f0 c0 c0' ce cb0 E. destruct (assoc_snoc _ _ _ _ _ _ E) as [E0|(_ & -> & Ex)].
      * pose proof (Hold _ _ E0) as Hne. exact (flook_top _ _ sc _ _ fr _ _ _ _ _ (Hfl _ _ _ _ _ E0) (Hlk _ Hne) (Hfind _ Hne)).
      * injection Ex as -> -> _ _. intros k Hk. assert (k = 0) by (cbn [length] in Hk; lia). subst k. unfold lookup_fs.
        cbn [skipn lookup_scopes find_in_function fr' vars app]. unfold sc'. rewrite !assoc_set_same. split; reflexivity.
    + intros x c0 c0' Hin. apply in_app_or in Hin as [Hin|Hin].
      * assert (Hne : x <> f).
        { intros ->. destruct (Hdl f c0 c0' Hin 0 ltac:(cbn; lia)) as [H1 _]. cbn [skipn app lookup_scopes] in H1. rewrite Has in H1. discriminate. }
        exact (flook_top _ _ sc _ _ fr _ _ _ _ _ (Hdl _ _ _ Hin) (Hlk _ Hne) (Hfind _ Hne)).
      * destruct (Hdt' x c0 c0' Hin) as [H1 H2]. assert (Hne : x <> f) by (intros ->; congruence).
        intros k Hk. assert (k = 0) by (cbn [length] in Hk; lia). subst k. unfold lookup_fs.
        cbn [skipn app lookup_scopes find_in_function]. rewrite (Hlk x Hne). cbn [fr' vars]. rewrite assoc_set_other by exact Hne.
        rewrite H1, H2. split; reflexivity.
  - destruct HB as [H1 H2]. split.
    + intros x Hx. destruct (list_eq_dec N.eq_dec x f) as [->|Hne].
      * cbn [lookup_scopes locals]. unfold sc'. rewrite assoc_set_same. split; [intros _|discriminate]. right. rewrite fnames_app. apply in_or_app. right. now left.
      * cbn [lookup_scopes locals] in H1 |- *. rewrite (Hlk x Hne), (H1 x Hx), fnames_app. split.
        -- intros [H|H]; [now left|right; apply in_or_app; now left].
        -- intros [H|H]; [now left|]. apply in_app_or in H as [H|[H|[]]]; [now right|cbn in H; congruence].
    + intros x Hx. destruct (H2 x Hx) as [A B0]. split; [|exact B0]. rewrite fnames_app. intros Hin.
      apply in_app_or in Hin as [Hin|[Hin|[]]]; [exact (A Hin)|]. cbn in Hin. subst x. exact (HfB Hx).
Qed.
End DefRel.

(* fe_c / fe_c': the cells holding the closure / the VFun value; fe_env / fe_cb: the captured environment / cells;
   fe_loc: the VM name of the code *)
Record fentry := mkE { fe_f : str; fe_ps : list str; fe_body : list stmt; fe_c : N; fe_c' : N;
                       fe_env : list scope; fe_cb : option (list (str * N)); fe_loc : str;
                       fe_cd : scope;                      (* the data variables it captures: name -> source cell *)
                       fe_dt : list (str * (N * N));       (* ... with both cells (the module-level bindings) *)
                       fe_dn : list (N * N) }.             (* the data cell pairs that must be related when it is called *)
Definition fe_def (e : fentry) : fdef := (fe_f e, (fe_ps e, fe_body e)).
Definition tFT (T : list fentry) : ftab := map fe_def T.
Definition tcells (T : list fentry) : list (str * (N * N * list scope * option (list (str * N)))) :=
  map (fun e => (fe_f e, (fe_c e, fe_c' e, fe_env e, fe_cb e))) T.
Definition tlocs (T : list fentry) : list (str * str) := map (fun e => (fe_f e, fe_loc e)) T.
Definition tloc (T : list fentry) (f : str) : str := match assoc f (tlocs T) with Some l => l | None => [] end.
Definition tpins (T : list fentry) : pinset := fpins_of (tFT T) (tcells T) (tloc T).
Definition tdns (T : list fentry) : list (str * list (N * N)) := map (fun e => (fe_f e, fe_dn e)) T.
Definition tdn (T : list fentry) (f : str) : list (N * N) := match assoc f (tdns T) with Some l => l | None => [] end.
Definition tdtab (T : list fentry) : list (str * (N * N)) := flat_map fe_dt T.
Lemma tdtab_app : forall A B, tdtab (A ++ B) = tdtab A ++ tdtab B.
Proof. intros. unfold tdtab. apply flat_map_app. Qed.
Lemma tdns_app : forall A B, tdns (A ++ B) = tdns A ++ tdns B.
Proof. intros. unfold tdns. apply map_app. Qed.
Lemma tdtab_firstn_in : forall T i j x, i <= j -> In x (tdtab (firstn i T)) -> In x (tdtab (firstn j T)).
Proof.
  intros T i j x Hij H. rewrite <- (firstn_skipn i (firstn j T)), tdtab_app. apply in_or_app. left.
  rewrite firstn_firstn, Nat.min_l by exact Hij. exact H.
Qed.
Lemma tdtab_firstn_all : forall T i x, In x (tdtab (firstn i T)) -> In x (tdtab T).
Proof. intros T i x H. rewrite <- (firstn_skipn i T), tdtab_app. apply in_or_app. now left. Qed.
Lemma firstn_snoc_nth : forall A (T : list A) j e, nth_error T j = Some e -> firstn j T ++ [e] = firstn (S j) T.
Proof.
  intros A. induction T as [|x T IH]; intros j e H; [destruct j; discriminate|]. destruct j as [|j].
  - cbn in H. inversion H. reflexivity.
  - cbn [nth_error] in H. cbn [firstn app]. f_equal. exact (IH j e H).
Qed.
Lemma assoc_map_key : forall A (h : str -> A) l x c, assoc x (map (fun n => (n, h n)) l) = Some c -> In x l /\ c = h x.
Proof.
  intros A h. induction l as [|n l IH]; intros x c H; [discriminate|]. cbn [map assoc] in H.
  destruct (str_eqb n x) eqn:E.
  - apply str_eqb_eq in E. subst n. inversion H. split; [now left|reflexivity].
  - destruct (IH x c H) as [H1 H2]. split; [now right|exact H2].
Qed.

Lemma tFT_app : forall A B, tFT (A ++ B) = tFT A ++ tFT B.
Proof. intros. unfold tFT. apply map_app. Qed.
Lemma tcells_app : forall A B, tcells (A ++ B) = tcells A ++ tcells B.
Proof. intros. unfold tcells. apply map_app. Qed.
Lemma tlocs_app : forall A B, tlocs (A ++ B) = tlocs A ++ tlocs B.
Proof. intros. unfold tlocs. apply map_app. Qed.

(* the tables of T are keyed alike: each finds a name at the first entry of T that has it *)
Lemma assoc_map : forall X A (k : X -> str) (h : X -> A) T f,
  assoc f (map (fun e => (k e, h e)) T) = option_map h (find (fun e => str_eqb (k e) f) T).
Proof.
  intros X A k h. induction T as [|e T IH]; intros f; cbn [map assoc find]; [reflexivity|].
  destruct (str_eqb (k e) f); [reflexivity|apply IH].
Qed.
Lemma tcells_find : forall T f x, assoc f (tcells T) = Some x ->
  exists e, In e T /\ fe_f e = f /\ x = (fe_c e, fe_c' e, fe_env e, fe_cb e) /\
            assoc f (tFT T) = Some (fe_ps e, fe_body e) /\ assoc f (tlocs T) = Some (fe_loc e) /\
            assoc f (tdns T) = Some (fe_dn e).
Proof.
  intros T f x H. unfold tcells, tFT, fe_def, tlocs, tdns. unfold tcells in H. rewrite assoc_map in H. rewrite !assoc_map.
  destruct (find _ T) as [e|] eqn:Ef; [|discriminate]. injection H as <-. destruct (find_some _ _ Ef) as [Hin Hk].
  apply str_eqb_eq in Hk. exists e. auto 6.
Qed.
Lemma tcells_keys : forall T f, In f (fnames (tFT T)) <-> assoc f (tcells T) <> None.
Proof. intros T f. rewrite assoc_keys. unfold fnames, tFT, tcells. rewrite !map_map. reflexivity. Qed.

(* what the table must satisfy: every function is in the fragment w.r.t. the earlier ones, its code is in the program,
   and the functions it captures are where its captured environment / captured cells say *)
Definition entry_ok (prog : program) (pre : list fentry) (e : fentry) : Prop :=
  fn_ok (tFT pre) (map fst (fe_cd e)) (fe_def e) /\
  assoc (fe_loc e) prog = Some (fcode_of (fe_ps e) (fe_body e)) /\
  (forall f' c c' ce cb', assoc f' (tcells pre) = Some (c, c', ce, cb') -> In f' (caps_of (fe_def e)) ->
    lookup_scopes f' (fe_env e) = Some c /\ exists m, fe_cb e = Some m /\ assoc f' m = Some c') /\
  (* the captured data variables: exactly the captured names that are not functions; where they are *)
  map fst (fe_cd e) = dcaps (tFT pre) (caps_of (fe_def e)) /\
  (forall x c, assoc x (fe_cd e) = Some c ->
    uname (fnames (tFT pre)) x /\ lookup_scopes x (fe_env e) = Some c /\
    exists c' m, fe_cb e = Some m /\ assoc x m = Some c' /\ In (x, (c, c')) (fe_dt e)) /\
  fe_dn e = map snd (tdtab (pre ++ [e])).
Definition twf (prog : program) (T : list fentry) : Prop :=
  forall i e, nth_error T i = Some e -> entry_ok prog (firstn i T) e.

Lemma twf_snoc : forall prog T e, twf prog T -> entry_ok prog T e -> twf prog (T ++ [e]).
Proof.
  intros prog T e HT He i e0 Hi. destruct (nth_snoc _ _ _ _ _ Hi) as [[-> H]|(-> & _ & ->)]; [exact (HT i e0 H)|exact He].
Qed.

Lemma twf_names : forall prog T f, twf prog T -> In f (fnames (tFT T)) -> uname0 f.
Proof.
  intros prog T f HT Hin. unfold fnames, tFT in Hin. rewrite map_map in Hin. apply in_map_iff in Hin as (e & E & Hin).
  apply In_nth_error in Hin as [i Hi]. destruct (HT i e Hi) as [Hok _]. unfold fn_ok, fe_def in Hok. cbn [fe_def fst] in E. subst f.
  exact (src_nameb_ok _ (proj1 Hok)).
Qed.

(* every function of a well-formed table does what call_clos does: induction on the position in the table (a function
   calls earlier ones) *)
Section TCall.
Variable prog : program.
Variable T : list fentry.
Hypothesis HT : twf prog T.

Lemma tcall_ok : forall n i e, i < n -> nth_error T i = Some e -> forall fuel,
  callee_ok (tpins T) prog fuel (fe_ps e) (fe_body e) (fe_env e) (fe_loc e) (fe_cb e) (fe_dn e).
Proof.
  induction n as [|n IHn]; intros i e Hi Hnth; [lia|].
  destruct (Nat.eq_dec i n) as [->|Hne]; [|apply (IHn i e); [lia|exact Hnth]].
  set (P := firstn n T).
  destruct (HT n e Hnth) as (Hok & Hcode & Hent & Hcdk & Hcdw & Hdne). fold P in Hok, Hent, Hcdk, Hcdw, Hdne.
  assert (ET : T = P ++ skipn n T) by (symmetry; apply firstn_skipn).
  assert (HlenP : length P = n) by (apply firstn_length_le, Nat.lt_le_incl, nth_error_Some; congruence).
  assert (Hpos : forall f' x, assoc f' (tcells P) = Some x -> exists j e', j < n /\ nth_error T j = Some e' /\
            assoc f' (tFT P) = Some (fe_ps e', fe_body e') /\ x = (fe_c e', fe_c' e', fe_env e', fe_cb e') /\
            tloc T f' = fe_loc e' /\ tdn T f' = fe_dn e').
  { intros f' x H. destruct (tcells_find P f' x H) as (e' & Hin & _ & H2 & H3 & H4 & H5).
    destruct (In_nth_error _ _ Hin) as [j Hj].
    assert (Hjn : j < n) by (rewrite <- HlenP; apply nth_error_Some; congruence).
    exists j, e'. split; [exact Hjn|]. split; [rewrite ET, nth_error_app1 by lia; exact Hj|]. split; [exact H3|]. split; [exact H2|]. split.
    - unfold tloc. rewrite ET, tlocs_app, (assoc_prefix _ _ _ _ _ H4). reflexivity.
    - unfold tdn. rewrite ET, tdns_app, (assoc_prefix _ _ _ _ _ H5). reflexivity. }
  apply (table_fun_sim prog (tFT T) (tFT P) (tcells T) (tcells P) (tloc T) (tdn T) (map fst (fe_cd e)) (fe_def e)
           (fe_loc e) (fe_cb e) (fe_env e) (fe_cd e) (fe_dn e)).
  - intros f' x H. rewrite ET, tFT_app. now apply assoc_prefix.
  - intros f' x H. rewrite ET, tcells_app. now apply assoc_prefix.
  - unfold tcells, tFT, fnames. now rewrite !map_map.
  - intros f' H. apply (twf_names prog T f' HT). rewrite ET, tFT_app, fnames_app. apply in_or_app. now left.
  - exact Hok.
  - exact Hcdk.
  - exact Hcode.
  - exact Hent.
  - intros x c E. destruct (Hcdw x c E) as (Hx & Hl & c' & m & Em & Ea & Hin). split; [exact Hx|]. split; [exact Hl|].
    exists c', m. split; [exact Em|]. split; [exact Ea|].
    rewrite Hdne, tdtab_app. apply in_map_iff. exists (x, (c, c')). split; [reflexivity|].
    apply in_or_app. right. cbn [tdtab flat_map]. rewrite app_nil_r. exact Hin.
  - intros f' p Hin Hp. apply tcells_keys in Hin. destruct (assoc f' (tcells P)) as [x|] eqn:Ex; [|congruence].
    destruct (Hpos _ _ Ex) as (j & e' & Hj & Hnj & _ & _ & _ & Edn). rewrite Edn in Hp.
    destruct (HT j e' Hnj) as (_ & _ & _ & _ & _ & Hdj). rewrite Hdj, (firstn_snoc_nth _ T j e' Hnj) in Hp.
    rewrite Hdne, tdtab_app, map_app. apply in_or_app. left.
    apply in_map_iff in Hp as (y & Ey & Hy). apply in_map_iff. exists y. split; [exact Ey|].
    exact (tdtab_firstn_in T (S j) n y ltac:(lia) Hy).
  - intros fuel f' ps' body' c0 c0' cenv' cbf' Eft Efc. destruct (Hpos _ _ Efc) as (j & e' & Hj & Hnj & E3 & Ex & -> & ->).
    rewrite E3 in Eft. injection Eft as <- <-. injection Ex as -> -> -> ->. exact (IHn j e' Hj Hnj fuel).
Qed.

Lemma tcall_ok_all : forall fuel, call_ok (tFT T) (tcells T) (tloc T) (tpins T) (tdn T) prog fuel.
Proof.
  intros fuel f ps body c0 c0' cenv cbf Eft Efc.
  destruct (tcells_find T f _ Efc) as (e & Hin & H1 & H2 & H3 & H4 & H5). rewrite H3 in Eft. injection Eft as <- <-.
  injection H2 as -> -> -> ->. unfold tloc, tdn. rewrite H4, H5. destruct (In_nth_error _ _ Hin) as [i Hi].
  exact (tcall_ok (S i) i e (Nat.lt_succ_diag_r _) Hi fuel).
Qed.

Lemma tdn_dtab : forall f p, In p (tdn T f) -> exists x, In (x, p) (tdtab T).
Proof.
  intros f p Hp. unfold tdn in Hp. destruct (assoc f (tdns T)) as [l|] eqn:E; [|destruct Hp].
  assert (He : exists i e, nth_error T i = Some e /\ l = fe_dn e).
  { unfold tdns in E. rewrite assoc_map in E. destruct (find _ T) as [e|] eqn:Ef; [|discriminate]. injection E as <-.
    destruct (In_nth_error _ _ (proj1 (find_some _ _ Ef))) as [i Hi]. exists i, e. split; [exact Hi|reflexivity]. }
  destruct He as (i & e & Hi & ->). destruct (HT i e Hi) as (_ & _ & _ & _ & _ & Hd).
  rewrite Hd, (firstn_snoc_nth _ T i e Hi) in Hp. apply in_map_iff in Hp as ([x q] & Eq & Hin). cbn [snd] in Eq. subst q.
  exists x. exact (tdtab_firstn_all T (S i) _ Hin).
Qed.
End TCall.

Inductive mitem := MDef (d : fdef) | MStmt (st : stmt).
Fixpoint classify (p : list stmt) : list mitem :=
  match p with
  | [] => []
  | SAssign f (EFn ps body) :: t => MDef (f, (ps, body)) :: classify t
  | st :: t => MStmt st :: classify t
  end.
Definition item_stmt (it : mitem) : stmt := match it with MDef d => def_stmt d | MStmt st => st end.
Lemma classify_stmts : forall p, map item_stmt (classify p) = p.
Proof.
  induction p as [|st t IH]; [reflexivity|]. destruct st; try (cbn [classify map item_stmt]; now rewrite IH).
  destruct e; cbn [classify map item_stmt]; unfold def_stmt; cbn [fst snd]; now rewrite IH.
Qed.

(* definitions of functions that are in the fragment w.r.t. the functions defined before them (fresh names), between
   statements of the fragment that may call the functions defined so far *)
Fixpoint mod_ok (FT : ftab) (B : list str) (its : list mitem) : Prop :=
  match its with
  | [] => True
  | MDef d :: t => fn_ok FT B d /\ ~ In (fst d) (fnames FT) /\ ~ In (fst d) B /\ mod_ok (FT ++ [d]) B t
  | MStmt st :: t => ok_stmt FT None [] false B st = true /\ mod_ok FT (after B st) t
  end.
Fixpoint mdefs (its : list mitem) : ftab :=
  match its with [] => [] | MDef d :: t => d :: mdefs t | MStmt _ :: t => mdefs t end.

Section ModCode.
Variable path : str.
Fixpoint mcode (k : nat) (its : list mitem) : list instr :=
  match its with
  | [] => []
  | MDef d :: t => mkI OP_MAKE_FUNCTION (fn_name path k :: caps_of d) :: mkI OP_STORE [fst d] :: mcode (S k) t
  | MStmt st :: t => strip (sitems 0 0 None st) ++ mcode k t
  end.

Lemma cblock0_items : forall its FT B st, mod_ok FT B its -> lreg st = 0 ->
  cblock0 path (map item_stmt its) st =
  (map CI (mcode (fid st) its),
   {| fid := fid st + length (mdefs its); lreg := 0; fbuf := fbuf st ++ dfbuf path (fid st) (mdefs its) |}).
Proof.
  induction its as [|[d|s0] t IH]; intros FT B st Hok Hlr.
  - cbn [map cblock0 mcode mdefs dfbuf length]. rewrite Nat.add_0_r, app_nil_r. destruct st as [fi lr fb]. cbn [lreg fid fbuf] in *. now subst lr.
  - destruct Hok as (Hd & _ & _ & Hok'). cbn [map item_stmt cblock0]. rewrite (cstmt_def path FT B d None st Hd Hlr).
    rewrite (IH _ _ {| fid := S (fid st); lreg := 0; fbuf := _ |} Hok' eq_refl). cbn [fid lreg fbuf mdefs length mcode map app]. destruct d as [f [ps body]]. cbn [dfbuf fst snd].
    rewrite <- app_assoc. replace (fid st + S (length (mdefs t))) with (S (fid st + length (mdefs t))) by lia. reflexivity.
  - destruct Hok as (Hs & Hok'). cbn [map item_stmt cblock0].
    rewrite (cstmt_frag path 0 s0 FT None [] false B None st Hs). rewrite Hlr.
    rewrite (IH _ _ _ Hok' Hlr). cbn [mcode mdefs]. rewrite map_app.
    rewrite (CI_strip _ (sitems_CI FT None [] 0 s0 B 0 None Hs)). reflexivity.
Qed.
End ModCode.

Lemma tloc_snoc_other : forall T e x, x <> fe_f e -> tloc (T ++ [e]) x = tloc T x.
Proof.
  intros T e x Hx. unfold tloc. rewrite tlocs_app. destruct (assoc x (tlocs T)) as [l|] eqn:E.
  - now rewrite (assoc_prefix _ _ _ _ _ E).
  - rewrite (assoc_app_none _ _ _ _ E). cbn [tlocs map assoc]. rewrite str_eqb_neq by congruence. reflexivity.
Qed.
Lemma tloc_snoc_same : forall T e, ~ In (fe_f e) (fnames (tFT T)) -> tloc (T ++ [e]) (fe_f e) = fe_loc e.
Proof.
  intros T e Hn. unfold tloc. rewrite tlocs_app.
  assert (E : assoc (fe_f e) (tlocs T) = None).
  { unfold tlocs. rewrite assoc_map. destruct (find _ T) as [e0|] eqn:Ef; [|reflexivity]. destruct Hn.
    destruct (find_some _ _ Ef) as [Hin Hk]. apply str_eqb_eq in Hk. rewrite <- Hk. exact (in_map fst _ _ (in_map fe_def _ _ Hin)). }
  rewrite (assoc_app_none _ _ _ _ E). cbn [tlocs map assoc]. now rewrite str_eqb_refl.
Qed.

Section ModRun.
Variable path : str.
Variable prog : program.
Variable name : str.
Variable code : list instr.
Hypothesis Hsmall : small (2 * length code + 8).

Record minv (T : list fentry) (B : list str) (env : fenv) (s : rstate) (a : act) (g : gstate) : Prop := {
  mi_R : Rst [] (tFT T) (fnames (tFT T)) (tcells T) None None name (tpins T) [] (tdtab T) no_pins env s a g;
  mi_B : bound_in (tFT T) (fnames (tFT T)) B env;
  mi_wf : twf prog T;
  mi_dt : forall x cc, In (x, cc) (tdtab T) -> uname (fnames (tFT T)) x;
  mi_one : exists sc fr, locals env = [sc] /\ frames g = [fr];
  mi_cb : a_cb a = None
}.

Lemma def_item : forall T B env s a g f ps body fuel,
  let d : fdef := (f, (ps, body)) in
  fn_ok (tFT T) B d -> ~ In f (fnames (tFT T)) -> ~ In f B -> minv T B env s a g ->
  code_at code (a_ip a) [mkI OP_MAKE_FUNCTION (fn_name path (length T) :: caps_of d); mkI OP_STORE [f]] ->
  assoc (fn_name path (length T)) prog = Some (fcode_of ps body) ->
  exists e env' s' g', fe_def e = d /\ Eval.exec (S (S fuel)) env (def_stmt d) s = SOk SigNormal env' s' /\
    xrun prog name code a g (upd a (S (S (a_ip a))) []) g' /\ minv (T ++ [e]) B env' s' (upd a (S (S (a_ip a))) []) g'.
Proof.
  intros T B env s a g f ps body fuel d Hfok HfT HfB [(HG & Hops & Hss) HB Hwf Hdt (sc & fr & El & Ef) Hcb] Hc Hprog.
  apply code_at_cons in Hc as [Hi1 Hc]. apply code_at_cons in Hc as [Hi2 _].
  pose proof Hfok as (Hf & Hndp & Hsrc & Hcaps & Hpn & Hokb & Hsm). rewrite forallb_forall in Hcaps.
  assert (Hf0 : uname0 f) by exact (src_nameb_ok _ Hf).
  destruct (def_new name (tFT T) (tcells T) f Hf0 HfT (tdtab T) _ env s g B sc fr HG HB HfB El Ef) as [Has Hav].
  set (loc := fn_name path (length T)). set (cbf := cbmap (vars fr) (caps_of d)).
  set (cenv := locals env ++ captured env).
  set (dcs := dcaps (tFT T) (caps_of d)).
  set (cellS := fun n : str => match assoc n sc with Some c1 => c1 | None => 0%N end).
  set (cellV := fun n : str => match assoc n (vars fr) with Some c1 => c1 | None => 0%N end).
  set (cd := map (fun n => (n, cellS n)) dcs).
  set (dt := map (fun n => (n, (cellS n, cellV n))) dcs).
  assert (Hdcs : forall x, In x dcs -> uname (fnames (tFT T)) x /\ assoc x sc = Some (cellS x) /\ assoc x (vars fr) = Some (cellV x)).
  { intros x Hx. apply In_dcaps in Hx as [Hxc Hxf]. specialize (Hcaps x Hxc). rewrite Hxf in Hcaps. apply mem_str_In in Hcaps.
    pose proof (bound_in_look _ _ _ _ x HB Hcaps) as Hlk.
    assert (Hux : uname (fnames (tFT T)) x).
    { destruct (Rg_un _ _ _ _ _ _ _ _ _ _ _ _ _ HG x Hlk) as [H|[H|H]]; [exact H| |]; destruct (proj2 HB x Hcaps) as [A B0]; [destruct (A H)|destruct (B0 H)]. }
    split; [exact Hux|].
    destruct (Rg_lookup _ _ _ _ _ _ _ _ _ _ _ _ _ x HG Hux Hlk) as (c1 & c1' & v1 & E1 & E2 & _).
    rewrite El, lookup_one_scope in E1. rewrite Ef, find_one_frame in E2. unfold cellS, cellV. rewrite E1, E2. split; reflexivity. }
  assert (Hwhere : forall f' c0 c0' ce cb', assoc f' (tcells T) = Some (c0, c0', ce, cb') ->
            lookup_scopes f' cenv = Some c0 /\ assoc f' (vars fr) = Some c0').
  { intros f' c0 c0' ce cb' E. destruct (Rg_flook0 _ _ _ _ _ _ _ _ _ _ _ _ _ f' c0 c0' ce cb' HG E) as [H1 H2].
    split; [exact H1|]. unfold lookup_fs in H2. rewrite Ef, find_one_frame in H2. now destruct (assoc f' (vars fr)). }
  assert (Hallcap : forall n, In n (caps_of d) -> assoc n (vars fr) <> None).
  { intros n Hn. destruct (mem_str n (fnames (tFT T))) eqn:Emf.
    - apply mem_str_In, tcells_keys in Emf. destruct (assoc n (tcells T)) as [[[[c0 c0'] ce] cb']|] eqn:E; [|congruence].
      rewrite (proj2 (Hwhere n c0 c0' ce cb' E)). discriminate.
    - rewrite (proj2 (proj2 (Hdcs n (proj2 (In_dcaps _ _ _) (conj Hn Emf))))). discriminate. }
  set (e := mkE f ps body (N.of_nat (length (store s))) (N.of_nat (length (cells g))) cenv cbf loc cd dt (map snd (tdtab T ++ dt))).
  destruct (def_run prog name code a g fr f loc (caps_of d) Hi1 Hi2 Hops Ef Hav Hallcap) as [tr R].
  assert (Hdtw : forall x c0 c0', In (x, (c0, c0')) dt -> assoc x sc = Some c0 /\ assoc x (vars fr) = Some c0').
  { intros x c0 c0' Hin. apply in_map_iff in Hin as (n & En & Hn). injection En as <- <- <-. exact (proj2 (Hdcs n Hn)). }
  destruct (def_rel name (tFT T) (tcells T) (tloc T) (tloc (T ++ [e])) (tcells_keys T) f ps body cenv cbf Hf0 HfT
              (tloc_snoc_other T e) (tdtab T) dt env s g B sc fr tr HG HB HfB El Ef Hdtw) as (HG' & HB' & _).
  cbv zeta in HG', HB'. rewrite (tloc_snoc_same T e HfT : tloc (T ++ [e]) f = loc) in HG'.
  exists e. eexists. eexists. eexists. split; [reflexivity|]. split; [exact (exec_def_stmt fuel env s d sc El Has)|]. split; [exact R|].
  assert (Ecd : map fst cd = dcs) by (unfold cd; rewrite map_map; apply map_id).
  assert (He : entry_ok prog T e).
  { split; [|split; [|split; [|split; [|split]]]].
    - cbn [fe_cd e]. rewrite Ecd. split; [exact Hf|]. split; [exact Hndp|]. split; [exact Hsrc|]. split; [|split; [exact Hpn|split; [exact Hokb|exact Hsm]]].
      rewrite forallb_forall. intros n Hn. destruct (mem_str n (fnames (tFT T))) eqn:Emf; [reflexivity|].
      apply In_mem_str, In_dcaps. split; [exact Hn|exact Emf].
    - exact Hprog.
    - intros f' c0 c0' ce cb' E Hin. destruct (Hwhere f' c0 c0' ce cb' E) as [H1 H2]. split; [exact H1|exact (assoc_cbmap _ _ _ _ Hin H2)].
    - exact Ecd.
    - intros x c0 E. apply assoc_map_key in E as [Hx ->]. destruct (Hdcs x Hx) as (Hux & Hs & Hv). split; [exact Hux|]. split.
      + apply lookup_app_some. now rewrite El, lookup_one_scope.
      + destruct (assoc_cbmap _ _ _ _ (proj1 (proj1 (In_dcaps _ _ _) Hx)) Hv) as (m & Em & Ea). exists (cellV x), m.
        split; [exact Em|]. split; [exact Ea|]. apply in_map_iff. exists x. split; [reflexivity|exact Hx].
    - cbn [fe_dn e]. rewrite tdtab_app. cbn [tdtab flat_map fe_dt e]. now rewrite app_nil_r. }
  constructor.
  - unfold tpins. rewrite !tFT_app, !tcells_app, tdtab_app. cbn [tFT tcells tdtab flat_map map fe_def fe_f fe_ps fe_body fe_c fe_c' fe_env fe_cb fe_dt e].
    rewrite app_nil_r. split; [exact HG'|]. split; [reflexivity|]. rewrite El in Hss. exact Hss.
  - rewrite tFT_app. exact HB'.
  - apply twf_snoc; assumption.
  - intros x cc Hin. rewrite tFT_app, fnames_app. rewrite tdtab_app in Hin. cbn [tdtab flat_map fe_dt e] in Hin. rewrite app_nil_r in Hin.
    apply uname_snoc; apply in_app_or in Hin as [Hin|Hin].
    + exact (Hdt x cc Hin).
    + apply in_map_iff in Hin as (n & En & Hn). injection En as <- _. exact (proj1 (Hdcs n Hn)).
    + intros ->. destruct cc as [c0 c0']. destruct (Rg_dlook0 _ _ _ _ _ _ _ _ _ _ _ _ _ f c0 c0' HG Hin) as [H1 _].
      rewrite El, lookup_one_scope, Has in H1. discriminate.
    + intros ->. apply in_map_iff in Hin as (n & En & Hn). injection En as -> _. rewrite (proj1 (proj2 (Hdcs f Hn))) in Has. discriminate.
  - eexists. eexists. split; reflexivity.
  - exact Hcb.
Qed.

Lemma mod_run : forall its T B env s a g fuel,
  mod_ok (tFT T) B its -> minv T B env s a g ->
  code_at code (a_ip a) (mcode path (length T) its ++ [ret_mod]) ->
  (forall j d, nth_error (mdefs its) j = Some d ->
     assoc (fn_name path (length T + j)) prog = Some (fcode_of (fst (snd d)) (snd (snd d)))) ->
  mod_end prog name code a g (exec_block fuel env (map item_stmt its) s).
Proof.
  induction its as [|[[f [ps body]]|st] t IH]; intros T B env s a g fuel Hok Hinv Hc Hprog.
  - destruct fuel as [|fuel]; [exact Logic.I|]. rewrite exec_block_nil. destruct Hinv as [(HG & Hops & _) _ _ _ _ _].
    exists a, g. split; [apply xrun_refl|]. split; [exact (proj1 (code_at_cons _ _ _ _ Hc))|]. split; [exact Hops|].
    split; [exact (rg_out HG)|exact (rg_drop HG)].
  - destruct Hok as (Hfok & HfT & HfB & Hok'). cbn [mcode] in Hc. apply (code_at_app _ _ [_; _]) in Hc as [Hc1 Hc2].
    destruct fuel as [|[|[|fuel]]]; [exact Logic.I..|]. cbn [map item_stmt]. rewrite exec_block_cons.
    destruct (def_item T B env s a g f ps body fuel Hfok HfT HfB Hinv Hc1) as (e & env' & s' & g' & Ee & -> & R & Hinv').
    { specialize (Hprog 0 _ eq_refl). now rewrite Nat.add_0_r in Hprog. }
    apply (mod_end_xrun _ _ _ _ _ _ _ _ R).
    pose proof (IH (T ++ [e]) B env' s' (upd a (S (S (a_ip a))) []) g' (S (S fuel))) as H. unfold tFT in H. rewrite map_app, app_length in H.
    cbn [map length] in H. rewrite Ee, Nat.add_1_r in H. apply (H Hok' Hinv').
    + replace (S (S (a_ip a))) with (a_ip a + 2) by lia. exact Hc2.
    + intros j d0 Hj. replace (S (length T) + j) with (length T + S j) by lia. exact (Hprog (S j) d0 Hj).
  - destruct Hok as (Hs & Hok').
    destruct fuel as [|fuel]; [exact Logic.I|]. cbn [map item_stmt]. rewrite exec_block_cons.
    destruct Hinv as [HR HB Hwf Hdt (sc & fr & El & Ef) Hcb].
    cbn [mcode] in Hc. rewrite <- app_assoc in Hc. apply code_at_app in Hc as [Hc1 Hc2].
    pose proof (sitems_CI (tFT T) None [] 0 st B 0 None Hs) as HCI.
    pose proof (strip_CI_length _ HCI) as Hlen.
    assert (Hlt : a_ip a + length (strip (sitems 0 0 None st)) < length code).
    { apply nth_error_Some. destruct (mcode path (length T) t ++ [ret_mod]) as [|i0 r0] eqn:E; [destruct (mcode path (length T) t); discriminate|].
      rewrite (proj1 (code_at_cons _ _ _ _ Hc2)). discriminate. }
    pose proof (stmt_sim [] (tFT T) (fnames (tFT T)) (tcells T) (tloc T) None (fun f0 H => H) (fun f0 => twf_names prog T f0 Hwf) (tcells_keys T)
                  None None name ltac:(intros ps0 E; discriminate) (tpins T) (fpins_of_v _ _ _) (fpins_of_s _ _ _)
                  [] ltac:(intros x c0 E; discriminate) (tdtab T) Hdt (tdn T) []
                  ltac:(intros f0 p0 _ Hp0; left; exact (tdn_dtab prog T Hwf f0 p0 Hp0)) ltac:(intros p0 [])
                  prog name code 0 Hsmall fuel
                  ltac:(intros fuel' _; apply tcall_ok_all; exact Hwf)
                  ltac:(intros fuel' _ ps0 body0 cenv0 E; discriminate)
                  st no_pins 0 false None 0 0 fuel (a_ip a) a g env s B (le_n _) (Nat.le_0_l _) Hs HB
                  ltac:(apply items_at_strip; [exact HCI|exact Hc1])
                  ltac:(left; rewrite <- Hlen; exact Hlt)
                  ltac:(split; [discriminate|intros m E; discriminate]) eq_refl Hcb HR) as H.
    rewrite <- Hlen in H.
    destruct (Eval.exec fuel env st s) as [sig env1 s1|fl s1|]; cbn [post mod_end] in H |- *; [|exact H|exact Logic.I].
    destruct H as [Hd H]. destruct sig as [| | |[v|]].
    + destruct H as (HB1 & a1 & g1 & R1 & Hip1 & HR1 & Ha1 & Hf1 & _).
      apply (mod_end_xrun _ _ _ _ _ _ _ _ R1). rewrite <- Hip1 in Hc2. apply (IH T (after B st) env1 s1 a1 g1 fuel Hok'); [|exact Hc2|exact Hprog].
      constructor; try assumption.
      * destruct Hd as [Ht Hne]. rewrite El in Ht. cbn [tl] in Ht. destruct (locals env1) as [|sc1 l1]; [congruence|]. cbn [tl] in Ht. subst l1.
        rewrite Ef in Hf1. cbn [tl] in Hf1. destruct (frames g1) as [|fr1 fs1] eqn:Ef1.
        -- destruct (proj2 (Rfr_ne _ _ _ _ (Rg_fr _ _ _ _ _ _ _ _ _ _ _ _ _ (proj1 HR1))) Ef1).
        -- cbn [tl] in Hf1. subst fs1. eexists. eexists. split; reflexivity.
      * rewrite (proj2 (proj2 Ha1)). exact Hcb.
    + destruct H as (m & ? & ? & E & _). discriminate.
    + destruct H as (m & ? & ? & E & _). discriminate.
    + destruct H as (env'' & a' & g' & R' & Hi & Hop & Hfo & HG' & Ha').
      exists a', g'. split; [exact R'|]. split; [exact Hi|]. split; [exact Hop|]. split; [exact (rg_out HG')|exact (rg_drop HG')].
    + exact H.
Qed.
End ModRun.

Lemma mdefs_length : forall path its k, 2 * length (mdefs its) <= length (mcode path k its).
Proof.
  intros path. induction its as [|[d|st] t IH]; intros k; cbn [mdefs mcode length]; [lia| |].
  - specialize (IH (S k)). lia.
  - rewrite app_length. specialize (IH k). lia.
Qed.

Section ModuleTop.
Variable path : str.

Definition tmodule_code (its : list mitem) : list instr := mcode path 0 its ++ [ret_mod].

Lemma cprogram_items : forall p, mod_ok [] [] (classify p) ->
  cprogram path p = dfbuf path 0 (mdefs (classify p)) ++ [(s_module_fn path, tmodule_code (classify p))].
Proof.
  intros p Hok. unfold cprogram. rewrite <- (classify_stmts p) at 1.
  rewrite (cblock0_items path (classify p) [] [] {| fid := 0; lreg := 0; fbuf := [] |} Hok eq_refl).
  cbn [fid fbuf lreg app]. rewrite strip_map_CI. reflexivity.
Qed.

(* C01 for modules whose function definitions stand anywhere between top-level statements of the fragment *)
Theorem module_top_correct : forall p,
  mod_ok [] [] (classify p) -> small (2 * length (tmodule_code (classify p)) + 8) ->
  forall fuel, snd (run fuel p) <> ROFuel -> no_claim (snd (run fuel p)) \/
  exists fuel', fst (fst (execute fuel' (cprogram path p) (s_module_fn path))) = fst (run fuel p) /\
                vm_outcome_ok (snd (run fuel p)) (snd (fst (execute fuel' (cprogram path p) (s_module_fn path)))).
Proof.
  intros p Hok Hsm fuel Hnf.
  set (its := classify p) in *.
  set (name := s_module_fn path).
  set (P := cprogram path p).
  set (mc := tmodule_code its).
  assert (EP : P = dfbuf path 0 (mdefs its) ++ [(name, mc)]) by (apply cprogram_items; exact Hok).
  assert (Ecode : assoc name P = Some mc) by (rewrite EP; apply assoc_dfbuf_module).
  assert (HlenFT : small (length (mdefs its))).
  { eapply small_le; [|exact Hsm]. unfold tmodule_code. rewrite app_length. pose proof (mdefs_length path its 0). lia. }
  assert (Hprog : forall j d, nth_error (mdefs its) j = Some d -> assoc (fn_name path (0 + j)) P = Some (fcode_of (fst (snd d)) (snd (snd d)))).
  { intros j [f [ps body]] Hj. rewrite EP. exact (assoc_dfbuf path (mdefs its) 0 j f ps body _ HlenFT Hj). }
  assert (Hinv0 : minv P name [] [] {| locals := [[]]; captured := []; cur := None |} {| store := []; rout := [] |}
                       (act0 name [] None) (push_frame g0 (LFun name))).
  { constructor.
    - apply Rst_init; [intros c w (f & c0 & ce & cbf & E & _)|intros c v (f & c0' & ce & cbf & ps & body & E & _)]; discriminate E.
    - apply bound_in_nil.
    - intros i e Hi. destruct i; discriminate.
    - intros x cc [].
    - eexists. eexists. split; reflexivity.
    - reflexivity. }
  apply (module_finish P name mc); [exact Ecode| |exact Hnf].
  rewrite <- (classify_stmts p) at 1. exact (mod_run path P name mc Hsm its [] [] _ _ _ _ fuel Hok Hinv0 (code_at_tail [] mc) Hprog).
Qed.
End ModuleTop.
