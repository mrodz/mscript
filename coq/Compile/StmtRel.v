(* C01, statement level -- part 2: the simulation relation between the scope stack of the reference semantics
   (Lang/Eval.v: `locals`, innermost first, cells in `store`) and the frame stack of the VM model
   (Vm/Model.v: block frames <if>/<else>/<while> on top of the function frame, cells in `cells`).

   The relation is LOOKUP based and closed under taking suffixes:
     Rfr st cs l fs   at every nesting level k < |l|: every source name resolves in `skipn k l` (lookup_scopes)
                      iff it resolves in `skipn k fs` (find_in_function), to cells holding related values;
                      the first |l|-1 frames are block frames, frame |l|-1 is the function frame;
     bij l fs         the induced relation between source cells and VM cells is one-to-one (no aliasing);
     NS l             no shadowing between scopes;  pins_ok  cells outside the relation that keep their value.
   Registers (#n) and loop registers (L#n) are ignored: they are not user names (uname). *)
From MS Require Import Lang.Eval.
From MS Require Import Vm.Model Lang.Syntax Compile.Compile Compile.ExprBase Compile.ExprSim Compile.StmtMach.
From Coq Require Import Lia.
Open Scope nat_scope.

Lemma nth_error_set_nth_same : forall A n (v : A) l, n < length l -> nth_error (set_nth n v l) n = Some v.
Proof.
  intros A. induction n as [|n IH]; intros v [|x l] H; cbn [length] in H; try lia; cbn [set_nth nth_error].
  - reflexivity.
  - apply IH. lia.
Qed.
Lemma nth_error_set_nth_other : forall A n m (v : A) l, n <> m -> nth_error (set_nth n v l) m = nth_error l m.
Proof.
  intros A. induction n as [|n IH]; intros m v [|x l] H; cbn [set_nth]; try reflexivity.
  - destruct m; [congruence|reflexivity].
  - destruct m; [reflexivity|]. cbn [nth_error]. apply IH. congruence.
Qed.
Lemma set_nth_length : forall A n (v : A) l, length (set_nth n v l) = length l.
Proof. intros A. induction n as [|n IH]; intros v [|x l]; cbn [set_nth length]; try reflexivity. now rewrite IH. Qed.

Lemma nth_error_app_keep : forall A (l x : list A) n v, nth_error l n = Some v -> nth_error (l ++ x) n = Some v.
Proof. intros A l x n v H. rewrite nth_error_app1; [exact H|]. apply nth_error_Some. congruence. Qed.

Lemma skipn_S_tl : forall A n (l : list A), skipn (S n) l = skipn n (tl l).
Proof. intros A n [|x l]; [cbn [tl]; now rewrite !skipn_nil|reflexivity]. Qed.
Lemma skipn_plus : forall A m k (l : list A), skipn k (skipn m l) = skipn (m + k) l.
Proof. intros A. induction m as [|m IH]; intros k [|x l]; cbn [skipn Nat.add]; rewrite ?skipn_nil; auto. Qed.

(* the hidden source name of the counter of an anonymous `from` loop (Lang/Eval.v) *)
Definition hid : str := [0%N].
(* user names: not a register (#n), not a loop register (L#n), not the hidden counter *)
Definition uname0 (x : str) : Prop :=
  src_name x /\ match x with 76%N :: 35%N :: _ => False | _ => True end /\ x <> hid.

Section Names.
(* the names of the module-level FUNCTIONS visible in the current activation: they are kept out of the data
   relation (their cells hold closures / VFun values and are never assigned) *)
Context {funs : list str}.

Definition uname (x : str) : Prop := uname0 x /\ ~ In x funs.
Lemma uname_src : forall x, uname x -> src_name x.
Proof. intros x H. exact (proj1 (proj1 H)). Qed.
Lemma uname_not_lregn : forall x n, uname x -> x <> lregn n.
Proof. intros x n [[_ [H _]] _] E. subst x. exact H. Qed.
Lemma uname_not_hid : forall x, uname x -> x <> hid.
Proof. intros x [[_ [_ H]] _]. exact H. Qed.
Lemma uname_nfun : forall x, uname x -> ~ In x funs.
Proof. intros x H. exact (proj2 H). Qed.

Definition cellrel (st : list rvalue) (cs : list value) (c c' : N) : Prop :=
  exists v, nth_error st (N.to_nat c) = Some v /\ first_order v /\ nth_error cs (N.to_nat c') = Some (inj v).

Definition orel {A B} (R : A -> B -> Prop) (x : option A) (y : option B) : Prop :=
  match x, y with Some a, Some b => R a b | None, None => True | _, _ => False end.

Definition look (st : list rvalue) (cs : list value) (l : list scope) (fs : list frame) : Prop :=
  forall x, uname x -> orel (cellrel st cs) (lookup_scopes x l) (find_in_function x fs).

Fixpoint Rfr (st : list rvalue) (cs : list value) (l : list scope) (fs : list frame) {struct l} : Prop :=
  match l, fs with
  | _ :: l', f :: fs' =>
    look st cs l fs /\
    match l' with
    | [] => special (lab f) = false
    | _ :: _ => special (lab f) = true /\ Rfr st cs l' fs'
    end
  | _, _ => False
  end.

Fixpoint pairs (l : list scope) (fs : list frame) (c c' : N) {struct l} : Prop :=
  match l, fs with
  | _ :: l', _ :: fs' =>
    (exists x, uname x /\ lookup_scopes x l = Some c /\ find_in_function x fs = Some c') \/ pairs l' fs' c c'
  | _, _ => False
  end.

Definition bij (l : list scope) (fs : list frame) : Prop :=
  forall c1 c1' c2 c2', pairs l fs c1 c1' -> pairs l fs c2 c2' -> (c1 = c2 <-> c1' = c2').

Lemma bij_sub : forall l fs l' fs', bij l fs -> (forall c c', pairs l' fs' c c' -> pairs l fs c c') -> bij l' fs'.
Proof. intros l fs l' fs' H Hs c1 c1' c2 c2' H1 H2. exact (H _ _ _ _ (Hs _ _ H1) (Hs _ _ H2)). Qed.

Lemma Rfr_look : forall st cs l fs, Rfr st cs l fs -> look st cs l fs.
Proof. intros st cs [|sc l] [|f fs] H; cbn in H; try contradiction. exact (proj1 H). Qed.

Lemma Rfr_ne : forall st cs l fs, Rfr st cs l fs -> l <> [] /\ fs <> [].
Proof. intros st cs [|sc l] [|f fs] H; cbn in H; try contradiction. split; discriminate. Qed.

Lemma Rfr_length : forall st cs l fs, Rfr st cs l fs -> length l <= length fs.
Proof.
  intros st cs. induction l as [|sc l IH]; intros [|f fs] H; cbn in H; try contradiction.
  destruct H as [_ H]. destruct l as [|sc' l]; cbn [length]; [lia|].
  destruct H as [_ H]. specialize (IH fs H). cbn [length] in IH. lia.
Qed.

Lemma pairs_cellrel : forall st cs l fs c c', Rfr st cs l fs -> pairs l fs c c' -> cellrel st cs c c'.
Proof.
  intros st cs. induction l as [|sc l IH]; intros [|f fs] c c' H Hp; cbn in H; try contradiction.
  destruct H as [Hl H]. cbn [pairs] in Hp. destruct Hp as [(x & Hx & E1 & E2)|Hp].
  - specialize (Hl x Hx). rewrite E1, E2 in Hl. exact Hl.
  - destruct l as [|sc' l]; [destruct Hp|]. destruct H as [_ H]. exact (IH fs c c' H Hp).
Qed.

Lemma cellrel_valid : forall st cs c c', cellrel st cs c c' -> N.to_nat c < length st /\ N.to_nat c' < length cs.
Proof.
  intros st cs c c' (v & H1 & _ & H2). split; apply nth_error_Some; congruence.
Qed.

Lemma Rfr_pop : forall st cs sc sc' l f fs, Rfr st cs (sc :: sc' :: l) (f :: fs) -> Rfr st cs (sc' :: l) fs.
Proof. intros st cs sc sc' l f fs H. cbn [Rfr] in H. exact (proj2 (proj2 H)). Qed.

Lemma Rfr_top_special : forall st cs sc sc' l f fs, Rfr st cs (sc :: sc' :: l) (f :: fs) -> special (lab f) = true.
Proof. intros st cs sc sc' l f fs H. cbn [Rfr] in H. exact (proj1 (proj2 H)). Qed.

Lemma bij_pop : forall sc l f fs, bij (sc :: l) (f :: fs) -> bij l fs.
Proof. intros sc l f fs H. apply (bij_sub _ _ _ _ H). intros c c' Hp. right. exact Hp. Qed.

Lemma Rfr_skipn : forall st cs m l fs, Rfr st cs l fs -> m < length l -> Rfr st cs (skipn m l) (skipn m fs).
Proof.
  intros st cs. induction m as [|m IH]; intros l fs H Hm; [exact H|].
  destruct l as [|sc l]; [cbn in Hm; lia|]. destruct fs as [|f fs]; [cbn in H; contradiction|].
  destruct l as [|sc' l]; [cbn in Hm; lia|].
  cbn [skipn]. apply IH; [eapply Rfr_pop; exact H|cbn [length] in *; lia].
Qed.

Lemma bij_skipn : forall m l fs, bij l fs -> bij (skipn m l) (skipn m fs).
Proof.
  induction m as [|m IH]; intros l fs H; [exact H|].
  destruct l as [|sc l]; [intros c1 c1' c2 c2' []|].
  destruct fs as [|f fs]; [intros c1 c1' c2 c2' Hp; destruct (skipn (S m) (sc :: l)); destruct Hp|].
  cbn [skipn]. apply IH. eapply bij_pop. exact H.
Qed.

Lemma pairs_intro : forall sc l f fs x c c', uname x -> lookup_scopes x (sc :: l) = Some c ->
  find_in_function x (f :: fs) = Some c' -> pairs (sc :: l) (f :: fs) c c'.
Proof. intros sc l f fs x c c' Hx E1 E2. left. exists x. auto. Qed.

Lemma Rfr_cells : forall st cs st' cs' l fs, Rfr st cs l fs ->
  (forall c c', pairs l fs c c' -> cellrel st cs c c' -> cellrel st' cs' c c') -> Rfr st' cs' l fs.
Proof.
  intros st cs st' cs'. induction l as [|sc l IH]; intros [|f fs] H Hc; cbn in H; try contradiction.
  destruct H as [Hl H]. cbn [Rfr]. split.
  - intros x Hx. specialize (Hl x Hx).
    destruct (lookup_scopes x (sc :: l)) as [c|] eqn:E1, (find_in_function x (f :: fs)) as [c'|] eqn:E2;
      cbn [orel] in *; try assumption.
    exact (Hc c c' (pairs_intro _ _ _ _ x c c' Hx E1 E2) Hl).
  - destruct l as [|sc' l]; [exact H|]. destruct H as [Hsp H]. split; [exact Hsp|]. apply IH; [exact H|].
    intros c c' Hp. apply Hc. right. exact Hp.
Qed.

Lemma Rfr_pairs_vals : forall st cs st' cs' l fs, Rfr st cs l fs ->
  (forall c c' v, pairs l fs c c' -> nth_error st (N.to_nat c) = Some v -> nth_error st' (N.to_nat c) = Some v) ->
  (forall c c' w, pairs l fs c c' -> nth_error cs (N.to_nat c') = Some w -> nth_error cs' (N.to_nat c') = Some w) ->
  Rfr st' cs' l fs.
Proof.
  intros st cs st' cs' l fs H Hs Hc. apply (Rfr_cells _ _ _ _ _ _ H). intros c c' Hp (v & A1 & A2 & A3).
  exists v. split; [exact (Hs _ _ _ Hp A1)|]. split; [exact A2|exact (Hc _ _ _ Hp A3)].
Qed.

Lemma Rfr_vals : forall st cs st' cs',
  (forall c v, nth_error st c = Some v -> nth_error st' c = Some v) ->
  (forall c w, nth_error cs c = Some w -> nth_error cs' c = Some w) ->
  forall l fs, Rfr st cs l fs -> Rfr st' cs' l fs.
Proof. intros st cs st' cs' Hs Hc l fs H. apply (Rfr_pairs_vals _ _ _ _ _ _ H); auto. Qed.

Lemma Rfr_mono : forall st cs x y l fs, Rfr st cs l fs -> Rfr (st ++ x) (cs ++ y) l fs.
Proof. intros st cs x y. apply Rfr_vals; intros c v; apply nth_error_app_keep. Qed.

Lemma Rfr_head : forall st cs sc sc' l f f' fs, Rfr st cs (sc :: l) (f :: fs) -> lab f' = lab f ->
  (forall x, uname x -> assoc x sc' = assoc x sc) ->
  (forall x, uname x -> find_in_function x (f' :: fs) = find_in_function x (f :: fs)) ->
  Rfr st cs (sc' :: l) (f' :: fs).
Proof.
  intros st cs sc sc' l f f' fs [Hl H] Hlab Hs Hfind. split; [|rewrite Hlab; exact H].
  intros x Hx. specialize (Hl x Hx). cbn [lookup_scopes] in *. now rewrite (Hs x Hx), (Hfind x Hx).
Qed.
Lemma pairs_head : forall sc sc' l f f' fs c c', (forall x, uname x -> assoc x sc' = assoc x sc) ->
  (forall x, uname x -> find_in_function x (f' :: fs) = find_in_function x (f :: fs)) ->
  pairs (sc' :: l) (f' :: fs) c c' <-> pairs (sc :: l) (f :: fs) c c'.
Proof.
  intros sc sc' l f f' fs c c' Hs Hfind. cbn [pairs lookup_scopes].
  split; (intros [(x & Hx & E1 & E2)|Hp]; [left; exists x; split; [exact Hx|]|right; exact Hp]).
  - now rewrite <- (Hs x Hx), <- (Hfind x Hx).
  - now rewrite (Hs x Hx), (Hfind x Hx).
Qed.

Lemma Rfr_top : forall st cs l f f' fs, Rfr st cs l (f :: fs) -> lab f' = lab f ->
  (forall x, uname x -> find_in_function x (f' :: fs) = find_in_function x (f :: fs)) ->
  Rfr st cs l (f' :: fs).
Proof. intros st cs [|sc l] f f' fs H Hlab Hfind; [destruct H|]. now apply (Rfr_head _ _ sc _ _ f). Qed.
Lemma pairs_top : forall l f f' fs c c',
  (forall x, uname x -> find_in_function x (f' :: fs) = find_in_function x (f :: fs)) ->
  pairs l (f' :: fs) c c' <-> pairs l (f :: fs) c c'.
Proof. intros [|sc l] f f' fs c c' Hfind; [reflexivity|]. now apply pairs_head. Qed.

Lemma Rfr_scope : forall st cs sc sc' l fs, Rfr st cs (sc :: l) fs ->
  (forall x, uname x -> assoc x sc' = assoc x sc) -> Rfr st cs (sc' :: l) fs.
Proof. intros st cs sc sc' l [|f fs] H Hs; [destruct H|]. now apply (Rfr_head _ _ sc _ _ f). Qed.
Lemma pairs_scope : forall sc sc' l fs c c', (forall x, uname x -> assoc x sc' = assoc x sc) ->
  pairs (sc' :: l) fs c c' <-> pairs (sc :: l) fs c c'.
Proof. intros sc sc' l [|f fs] c c' Hs; [reflexivity|]. now apply pairs_head. Qed.

Lemma bij_top : forall l f f' fs, bij l (f :: fs) ->
  (forall x, uname x -> find_in_function x (f' :: fs) = find_in_function x (f :: fs)) ->
  bij l (f' :: fs).
Proof. intros l f f' fs H Hfind. apply (bij_sub _ _ _ _ H). intros c c'. exact (proj1 (pairs_top l f f' fs c c' Hfind)). Qed.
Lemma bij_scope : forall sc sc' l fs, bij (sc :: l) fs -> (forall x, uname x -> assoc x sc' = assoc x sc) -> bij (sc' :: l) fs.
Proof. intros sc sc' l fs H Hs. apply (bij_sub _ _ _ _ H). intros c c'. exact (proj1 (pairs_scope sc sc' l fs c c' Hs)). Qed.

Lemma Rfr_update : forall st cs c c' v, first_order v -> N.to_nat c < length st -> N.to_nat c' < length cs ->
  forall l fs, Rfr st cs l fs -> (forall cy cy', pairs l fs cy cy' -> (cy = c <-> cy' = c')) ->
  Rfr (set_nth (N.to_nat c) v st) (set_nth (N.to_nat c') (inj v) cs) l fs.
Proof.
  intros st cs c c' v Hfo Hc Hc' l fs H Hb. apply (Rfr_cells _ _ _ _ _ _ H).
  intros cy cy' Hp (v0 & G1 & Hf0 & G2). specialize (Hb cy cy' Hp). destruct (N.eq_dec cy c) as [->|Hne].
  - rewrite (proj1 Hb eq_refl). exists v. split; [|split; [exact Hfo|]]; now apply nth_error_set_nth_same.
  - assert (Hne' : cy' <> c') by (intros E; apply Hne, Hb; exact E).
    exists v0. split; [|split; [exact Hf0|]].
    + rewrite nth_error_set_nth_other; [exact G1|]. intros E. apply Hne. now apply N2Nat.inj.
    + rewrite nth_error_set_nth_other; [exact G2|]. intros E. apply Hne'. now apply N2Nat.inj.
Qed.

Lemma Rfr_declare : forall st cs sc l f fs x v,
  Rfr st cs (sc :: l) (f :: fs) -> first_order v ->
  Rfr (st ++ [v]) (cs ++ [inj v]) (assoc_set x (N.of_nat (length st)) sc :: l)
      ({| lab := lab f; vars := assoc_set x (N.of_nat (length cs)) (vars f) |} :: fs).
Proof.
  intros st cs sc l f fs x v H Hfo.
  pose proof (Rfr_mono st cs [v] [inj v] _ _ H) as Hm. cbn [Rfr] in Hm |- *. destruct Hm as [Hl Hm].
  split; [|exact Hm].
  intros y Hy. cbn [lookup_scopes find_in_function vars lab].
  destruct (list_eq_dec N.eq_dec y x) as [->|Hne].
  - rewrite !assoc_set_same. cbn [orel]. exists v. rewrite !Nnat.Nat2N.id.
    split; [|split; [exact Hfo|]]; rewrite nth_error_app2 by lia; rewrite Nat.sub_diag; reflexivity.
  - rewrite !assoc_set_other by exact Hne. exact (Hl y Hy).
Qed.

Lemma pairs_declare : forall sc l f fs x cn cn' c c',
  pairs (assoc_set x cn sc :: l) ({| lab := lab f; vars := assoc_set x cn' (vars f) |} :: fs) c c' ->
  (c = cn /\ c' = cn') \/ pairs (sc :: l) (f :: fs) c c'.
Proof.
  intros sc l f fs x cn cn' c c' Hp. cbn [pairs] in Hp |- *. destruct Hp as [(y & Hy & E1 & E2)|Hp]; [|right; right; exact Hp].
  cbn [lookup_scopes find_in_function vars lab] in E1, E2.
  destruct (list_eq_dec N.eq_dec y x) as [->|Hne].
  - rewrite assoc_set_same in E1, E2. left. split; congruence.
  - rewrite assoc_set_other in E1, E2 by exact Hne. right. now apply (pairs_intro _ _ _ _ y).
Qed.

Lemma bij_declare : forall st cs sc l f fs x,
  Rfr st cs (sc :: l) (f :: fs) -> bij (sc :: l) (f :: fs) ->
  bij (assoc_set x (N.of_nat (length st)) sc :: l)
      ({| lab := lab f; vars := assoc_set x (N.of_nat (length cs)) (vars f) |} :: fs).
Proof.
  intros st cs sc l f fs x H Hb c1 c1' c2 c2' H1 H2.
  apply pairs_declare in H1, H2.
  assert (Hv : forall c c', pairs (sc :: l) (f :: fs) c c' -> c <> N.of_nat (length st) /\ c' <> N.of_nat (length cs)).
  { intros c c' Hp. apply (pairs_cellrel st cs _ _ _ _ H) in Hp. apply cellrel_valid in Hp. lia. }
  destruct H1 as [[-> ->]|H1], H2 as [[-> ->]|H2].
  - tauto.
  - destruct (Hv _ _ H2). split; intros E; congruence.
  - destruct (Hv _ _ H1). split; intros E; congruence.
  - exact (Hb _ _ _ _ H1 H2).
Qed.

Lemma Rfr_push : forall st cs l fs lb, Rfr st cs l fs -> special lb = true ->
  Rfr st cs ([] :: l) ({| lab := lb; vars := [] |} :: fs).
Proof.
  intros st cs l fs lb H Hs. destruct (Rfr_ne _ _ _ _ H) as [Hl _].
  destruct l as [|sc l]; [congruence|]. cbn [Rfr]. split; [|split; [exact Hs|exact H]].
  intros x Hx. cbn [lookup_scopes assoc find_in_function vars lab]. rewrite Hs.
  exact (Rfr_look _ _ _ _ H x Hx).
Qed.

Lemma pairs_push : forall l fs lb c c', special lb = true ->
  pairs ([] :: l) ({| lab := lb; vars := [] |} :: fs) c c' -> pairs l fs c c'.
Proof.
  intros l fs lb c c' Hs Hp. cbn [pairs] in Hp. destruct Hp as [(x & Hx & E1 & E2)|Hp]; [|exact Hp].
  cbn [lookup_scopes assoc find_in_function vars lab] in E1, E2. rewrite Hs in E2.
  destruct l as [|sc l]; [discriminate|]. destruct fs as [|f fs]; [discriminate|].
  now apply (pairs_intro _ _ _ _ x).
Qed.

Lemma bij_push : forall l fs lb, bij l fs -> special lb = true -> bij ([] :: l) ({| lab := lb; vars := [] |} :: fs).
Proof. intros l fs lb H Hs. apply (bij_sub _ _ _ _ H). intros c c'. now apply pairs_push. Qed.

Fixpoint NS (l : list scope) : Prop :=
  match l with
  | [] => True
  | sc :: r => (forall y, y <> hid -> assoc y sc <> None -> lookup_scopes y r = None) /\ NS r
  end.

Lemma NS_tl : forall l, NS l -> NS (tl l).
Proof. intros [|sc l] H; [exact Logic.I|exact (proj2 H)]. Qed.
Lemma NS_skipn : forall m l, NS l -> NS (skipn m l).
Proof. induction m as [|m IH]; intros l H; [exact H|]. destruct l as [|sc l]; [exact Logic.I|]. cbn [skipn]. apply IH. exact (proj2 H). Qed.
Lemma NS_push : forall l, NS l -> NS ([] :: l).
Proof. intros l H. cbn [NS]. split; [intros y _ Hy; cbn in Hy; congruence|exact H]. Qed.
Lemma NS_declare : forall sc l x c, NS (sc :: l) -> x = hid \/ lookup_scopes x (sc :: l) = None -> NS (assoc_set x c sc :: l).
Proof.
  intros sc l x c [H1 H2] Hn. cbn [NS]. split; [|exact H2].
  intros y Hyh Hy.
  destruct (list_eq_dec N.eq_dec y x) as [->|Hne].
  - destruct Hn as [Hn|Hn]; [congruence|]. cbn [lookup_scopes] in Hn. destruct (assoc x sc) eqn:Ex; [discriminate|exact Hn].
  - rewrite assoc_set_other in Hy by exact Hne. now apply H1.
Qed.
Lemma NS_undeclare : forall sc l x, NS (sc :: l) -> NS (assoc_del x sc :: l).
Proof.
  intros sc l x [H1 H2]. cbn [NS]. split; [|exact H2]. intros y Hyh Hy. apply H1; [exact Hyh|].
  apply assoc_keys. apply assoc_keys in Hy. exact (in_keys_assoc_del _ _ _ Hy).
Qed.
Lemma NS_lookup_tl : forall sc l x c, NS (sc :: l) -> x <> hid -> lookup_scopes x l = Some c -> lookup_scopes x (sc :: l) = Some c.
Proof.
  intros sc l x c [H1 _] Hx Hl. cbn [lookup_scopes]. destruct (assoc x sc) eqn:E; [|exact Hl].
  rewrite H1 in Hl by congruence. discriminate.
Qed.

Lemma lookup_tl_ne : forall l x, lookup_scopes x (tl l) <> None -> lookup_scopes x l <> None.
Proof. intros [|sc l] x H; [exact H|]. cbn [tl lookup_scopes] in *. destruct (assoc x sc); [discriminate|exact H]. Qed.

(* cells outside the relation that must keep their value: on the VM side the end register of a `from` loop and,
   across a call, every cell that existed before; on the source side every cell that existed before the call *)
Record pinset := { vpin : N -> value -> Prop; spin : N -> rvalue -> Prop }.
Definition no_pins : pinset := {| vpin := fun _ _ => False; spin := fun _ _ => False |}.
Definition add_vpin (P : pinset) (c : N) (w : value) : pinset :=
  {| vpin := fun cy w' => (cy = c /\ w' = w) \/ vpin P cy w'; spin := spin P |}.

Definition pins_ok (P : pinset) (l : list scope) (fs : list frame) (st : list rvalue) (cs : list value) : Prop :=
  (forall cy w, vpin P cy w -> nth_error cs (N.to_nat cy) = Some w /\ forall c, ~ pairs l fs c cy) /\
  (forall c v, spin P c v -> nth_error st (N.to_nat c) = Some v /\ forall c', ~ pairs l fs c c').

Lemma pins_keep_ : forall P l fs l' fs' st cs st' cs', pins_ok P l fs st cs ->
  (forall c c', pairs l' fs' c c' -> pairs l fs c c') ->
  (forall c v, (forall c', ~ pairs l fs c c') -> nth_error st (N.to_nat c) = Some v -> nth_error st' (N.to_nat c) = Some v) ->
  (forall cy w, (forall c, ~ pairs l fs c cy) -> nth_error cs (N.to_nat cy) = Some w -> nth_error cs' (N.to_nat cy) = Some w) ->
  pins_ok P l' fs' st' cs'.
Proof.
  intros P l fs l' fs' st cs st' cs' [H1 H2] Hsub Hs Hc. split.
  - intros cy w Hq. destruct (H1 cy w Hq) as [A B]. split; [exact (Hc _ _ B A)|]. intros c Hp. exact (B c (Hsub _ _ Hp)).
  - intros c v Hq. destruct (H2 c v Hq) as [A B]. split; [exact (Hs _ _ B A)|]. intros c' Hp. exact (B c' (Hsub _ _ Hp)).
Qed.

Lemma pins_sub_ : forall P l fs l' fs' st cs, pins_ok P l fs st cs ->
  (forall c c', pairs l' fs' c c' -> pairs l fs c c') -> pins_ok P l' fs' st cs.
Proof. intros P l fs l' fs' st cs H Hs. apply (pins_keep_ _ _ _ _ _ _ _ _ _ H Hs); auto. Qed.

Lemma pins_vals_ : forall P l fs st cs st' cs',
  (forall c v, nth_error st c = Some v -> nth_error st' c = Some v) ->
  (forall c w, nth_error cs c = Some w -> nth_error cs' c = Some w) ->
  pins_ok P l fs st cs -> pins_ok P l fs st' cs'.
Proof. intros P l fs st cs st' cs' Hs Hc H. apply (pins_keep_ _ _ _ _ _ _ _ _ _ H); auto. Qed.

Lemma pins_mono_ : forall P l fs st cs x y, pins_ok P l fs st cs -> pins_ok P l fs (st ++ x) (cs ++ y).
Proof. intros P l fs st cs x y. apply pins_vals_; intros c v; apply nth_error_app_keep. Qed.

Lemma pins_update_ : forall P l fs st cs c c' v w, pins_ok P l fs st cs -> pairs l fs c c' ->
  pins_ok P l fs (set_nth (N.to_nat c) v st) (set_nth (N.to_nat c') w cs).
Proof.
  intros P l fs st cs c c' v w H Hp. apply (pins_keep_ _ _ _ _ _ _ _ _ _ H); [auto| |].
  - intros c0 v0 B A. rewrite nth_error_set_nth_other; [exact A|]. intros E. apply N2Nat.inj in E. subst c0. exact (B c' Hp).
  - intros cy w0 B A. rewrite nth_error_set_nth_other; [exact A|]. intros E. apply N2Nat.inj in E. subst cy. exact (B c Hp).
Qed.

Lemma pins_declare_ : forall P sc l f fs st cs x v w, pins_ok P (sc :: l) (f :: fs) st cs ->
  pins_ok P (assoc_set x (N.of_nat (length st)) sc :: l)
            ({| lab := lab f; vars := assoc_set x (N.of_nat (length cs)) (vars f) |} :: fs)
            (st ++ [v]) (cs ++ [w]).
Proof.
  intros P sc l f fs st cs x v w [H1 H2]. split.
  - intros cy w0 Hq. destruct (H1 cy w0 Hq) as [A B]. split.
    + now apply nth_error_app_keep.
    + intros c0 Hp. apply pairs_declare in Hp. destruct Hp as [[_ E]|Hp]; [|exact (B c0 Hp)].
      subst cy. rewrite Nnat.Nat2N.id in A. assert (length cs < length cs) by (apply nth_error_Some; congruence). lia.
  - intros c0 v0 Hq. destruct (H2 c0 v0 Hq) as [A B]. split.
    + now apply nth_error_app_keep.
    + intros c0' Hp. apply pairs_declare in Hp. destruct Hp as [[E _]|Hp]; [|exact (B c0' Hp)].
      subst c0. rewrite Nnat.Nat2N.id in A. assert (length st < length st) by (apply nth_error_Some; congruence). lia.
Qed.

Lemma pins_push_ : forall P l fs st cs lb, pins_ok P l fs st cs -> special lb = true ->
  pins_ok P ([] :: l) ({| lab := lb; vars := [] |} :: fs) st cs.
Proof. intros P l fs st cs lb H Hs. eapply pins_sub_; [exact H|]. intros c c' Hp. eapply pairs_push; eassumption. Qed.

Lemma pins_pop_ : forall P sc l f fs st cs, pins_ok P (sc :: l) (f :: fs) st cs -> pins_ok P l fs st cs.
Proof. intros P sc l f fs st cs H. eapply pins_sub_; [exact H|]. intros c c' Hp. right. exact Hp. Qed.

Lemma pins_weaken_ : forall P c w l fs st cs, pins_ok (add_vpin P c w) l fs st cs -> pins_ok P l fs st cs.
Proof.
  intros P c w l fs st cs [H1 H2]. split; [|exact H2]. intros cy w0 Hq. apply H1. cbn [add_vpin vpin]. now right.
Qed.

Lemma pins_imp_ : forall P P' l fs st cs, pins_ok P l fs st cs ->
  (forall cy w, vpin P' cy w -> vpin P cy w) -> (forall c v, spin P' c v -> spin P c v) -> pins_ok P' l fs st cs.
Proof. intros P P' l fs st cs [H1 H2] Hv Hs. split; [intros cy w Hq; exact (H1 cy w (Hv _ _ Hq))|intros c v Hq; exact (H2 c v (Hs _ _ Hq))]. Qed.

Lemma lookup_one_scope : forall x sc, lookup_scopes x [sc] = assoc x sc.
Proof. intros x sc. cbn [lookup_scopes]. now destruct (assoc x sc). Qed.
Lemma find_one_frame : forall x fr, find_in_function x [fr] = assoc x (vars fr).
Proof. intros x fr. cbn [find_in_function]. destruct (assoc x (vars fr)); [reflexivity|now destruct (special (lab fr))]. Qed.

Lemma lookup_app_some : forall x l r c, lookup_scopes x l = Some c -> lookup_scopes x (l ++ r) = Some c.
Proof.
  intros x. induction l as [|sc l IH]; intros r c H; [discriminate|]. cbn [app lookup_scopes] in *.
  destruct (assoc x sc); [exact H|]. now apply IH.
Qed.

(* `ret` drops the block frames and the function frame: what remains are the frames below the activation *)
Lemma Rfr_drop : forall st cs l fs, Rfr st cs l fs -> drop_to_function fs = skipn (length l) fs.
Proof.
  intros st cs. induction l as [|sc l IH]; intros [|f fs] H; cbn in H; try contradiction.
  destruct H as [_ H]. destruct l as [|sc' l].
  - cbn [drop_to_function length skipn]. now rewrite H.
  - destruct H as [Hs H]. cbn [drop_to_function]. rewrite Hs. rewrite (IH fs H). reflexivity.
Qed.

(* the VM's `load f`: own frames, then the captured cells (a_cb) *)
Definition lookup_fs (cb : option (list (str * N))) (fs : list frame) (f : str) : option N :=
  match find_in_function f fs with
  | Some c => Some c
  | None => match cb with Some m => assoc f m | None => None end
  end.

Definition flook (cb : option (list (str * N))) (cap l : list scope) (fs : list frame) (f : str) (c c' : N) : Prop :=
  forall k, k < length l -> lookup_scopes f (skipn k l ++ cap) = Some c /\ lookup_fs cb (skipn k fs) f = Some c'.

Lemma flook_0 : forall cb cap l fs f c c', flook cb cap l fs f c c' -> l <> [] ->
  lookup_scopes f (l ++ cap) = Some c /\ lookup_fs cb fs f = Some c'.
Proof. intros cb cap l fs f c c' H Hl. apply (H 0). destruct l; [congruence|cbn; lia]. Qed.
Lemma flook_push : forall cb cap l fs f c c' lb, flook cb cap l fs f c c' -> l <> [] -> special lb = true ->
  flook cb cap ([] :: l) ({| lab := lb; vars := [] |} :: fs) f c c'.
Proof.
  intros cb cap l fs f c c' lb H Hl Hs k Hk. destruct k as [|k].
  - cbn [skipn app lookup_scopes assoc]. unfold lookup_fs. cbn [find_in_function vars lab assoc]. rewrite Hs.
    destruct l as [|sc l]; [congruence|]. exact (H 0 ltac:(cbn; lia)).
  - cbn [skipn]. apply H. cbn [length] in Hk. lia.
Qed.
Lemma flook_pop : forall cb cap sc l f0 fs f c c', flook cb cap (sc :: l) (f0 :: fs) f c c' -> flook cb cap l fs f c c'.
Proof. intros cb cap sc l f0 fs f c c' H k Hk. apply (H (S k)). cbn [length]. lia. Qed.
Lemma flook_top : forall cb cap sc sc' l f0 f0' fs f c c', flook cb cap (sc :: l) (f0 :: fs) f c c' ->
  assoc f sc' = assoc f sc -> find_in_function f (f0' :: fs) = find_in_function f (f0 :: fs) ->
  flook cb cap (sc' :: l) (f0' :: fs) f c c'.
Proof.
  intros cb cap sc sc' l f0 f0' fs f c c' H Ha Hf k Hk. destruct k as [|k].
  - destruct (H 0 ltac:(cbn; lia)) as [H1 H2]. cbn [skipn app lookup_scopes] in *. unfold lookup_fs in *.
    rewrite Ha, Hf. split; assumption.
  - exact (H (S k) Hk).
Qed.
Lemma flook_skipn : forall cb cap m l fs f c c', flook cb cap l fs f c c' -> m < length l ->
  flook cb cap (skipn m l) (skipn m fs) f c c'.
Proof.
  intros cb cap m l fs f c c' H Hm k Hk. rewrite !skipn_plus. apply H. rewrite skipn_length in Hk. lia.
Qed.

End Names.
Arguments uname funs x : clear implicits.
Arguments look funs st cs l fs : clear implicits.
Arguments Rfr funs st cs l fs : clear implicits.
Arguments pairs funs l fs c c' : clear implicits.
Arguments bij funs l fs : clear implicits.
Arguments pins_ok funs P l fs st cs : clear implicits.

Lemma uname_sub : forall funs funs' x, (forall y, In y funs -> In y funs') -> uname funs' x -> uname funs x.
Proof. intros funs funs' x H [H0 Hn]. split; [exact H0|]. intros Hin. exact (Hn (H _ Hin)). Qed.
