(* The fragment of programs with first-class function values for which the code generator is proved correct (C01, C07,
   C12, C15): function literals anywhere, closures by reference with `modify` writing through the captured cell, function
   values returned, stored, passed and called through a variable, `self(..)`; every statement form; calls anywhere in
   expressions.  The fragment test is a kind checker (kexpr / kstmt: a value is data or a function of given parameter and
   result kinds).  ec / sc give the code of an expression / statement and the functions it defines as plain functions of
   the syntax; comp_both: on the fragment, cexpr / cstmt of Compile/Compile.v compute exactly that. *)
From Coq Require Import List Arith ZArith Lia Bool.
Import ListNotations.
From MS Require Import Base.Str Vm.Model Lang.Syntax Lang.Eval Compile.Compile Compile.ExprBase Compile.ExprSim.
From MS Require Import Compile.StmtMach Compile.StmtRel Compile.StmtFrag Compile.StmtSim Compile.StmtFun.
Open Scope nat_scope.

(* KD: a first-order value; KF ps r: a function taking ps and returning r; KN: the result of a function that does not
   surely end with `return e`: a first-order value if there is one *)
Inductive kind := KD | KF (ps : list kind) (r : kind) | KN.

Fixpoint kind_eqb (a b : kind) {struct a} : bool :=
  match a, b with
  | KD, KD => true
  | KN, KN => true
  | KF p1 r1, KF p2 r2 =>
    (fix go (l1 l2 : list kind) {struct l1} : bool :=
       match l1, l2 with
       | [], [] => true
       | x :: l1, y :: l2 => kind_eqb x y && go l1 l2
       | _, _ => false end) p1 p2 && kind_eqb r1 r2
  | _, _ => false
  end.
Fixpoint kinds_eqb (l1 l2 : list kind) : bool :=
  match l1, l2 with
  | [], [] => true
  | x :: l1, y :: l2 => kind_eqb x y && kinds_eqb l1 l2
  | _, _ => false end.
Lemma kind_eqb_KF : forall p1 r1 p2 r2, kind_eqb (KF p1 r1) (KF p2 r2) = kinds_eqb p1 p2 && kind_eqb r1 r2.
Proof. reflexivity. Qed.

Lemma kind_eqb_eq : forall a b, kind_eqb a b = true -> a = b.
Proof.
  fix IH 1. intros [|p1 r1|] [|p2 r2|] H; try discriminate; try reflexivity.
  rewrite kind_eqb_KF in H. apply andb_true_iff in H as [Hp Hr]. rewrite (IH r1 r2 Hr). f_equal.
  revert p2 Hp. induction p1 as [|x p1 IHp]; intros [|y p2] Hp; try discriminate; [reflexivity|].
  cbn [kinds_eqb] in Hp. apply andb_true_iff in Hp as [Hx Hp]. rewrite (IH x y Hx), (IHp p2 Hp). reflexivity.
Qed.
Lemma kinds_eqb_eq : forall l1 l2, kinds_eqb l1 l2 = true -> l1 = l2.
Proof.
  induction l1 as [|x l1 IH]; intros [|y l2] H; try discriminate; [reflexivity|].
  cbn [kinds_eqb] in H. apply andb_true_iff in H as [Hx H]. now rewrite (kind_eqb_eq _ _ Hx), (IH _ H).
Qed.

(* The Core syntax carries no types: the kind of a parameter is read off its use in the body (called with n arguments: a
   function of n data arguments returning data; otherwise data) *)
Fixpoint call_ar_e (p : str) (e : expr) {struct e} : option nat :=
  let fix go (l : list expr) : option nat :=
    match l with [] => None | a :: l => match call_ar_e p a with Some n => Some n | None => go l end end in
  match e with
  | EBin _ a b | EAnd a b | EOr a b | ENilOr a b => match call_ar_e p a with Some n => Some n | None => call_ar_e p b end
  | ENot a | ENeg a | EGet a _ => call_ar_e p a
  | ECall f args =>
    match f with
    | EVar g => if str_eqb g p then Some (length args) else go args
    | _ => go args end
  | ESelf args => go args
  | _ => None
  end.
Fixpoint call_ar_s (p : str) (s : stmt) {struct s} : option nat :=
  let fix gs (l : list stmt) : option nat :=
    match l with [] => None | s :: l => match call_ar_s p s with Some n => Some n | None => gs l end end in
  match s with
  | SAssign _ e | SModify _ e | SOpAssign _ _ e | SPrint e | SAssert e _ | SExpr e => call_ar_e p e
  | SReturn (Some e) => call_ar_e p e
  | SIf c b | SWhile c b => match call_ar_e p c with Some n => Some n | None => gs b end
  | SIfElse c b e => match call_ar_e p c with Some n => Some n | None => match gs b with Some n => Some n | None => gs e end end
  | SFrom a b _ _ _ _ body =>
    match call_ar_e p a with Some n => Some n | None => match call_ar_e p b with Some n => Some n | None => gs body end end
  | _ => None
  end.
Fixpoint call_ar_b (p : str) (l : list stmt) : option nat :=
  match l with [] => None | s :: l => match call_ar_s p s with Some n => Some n | None => call_ar_b p l end end.
Definition pkind (body : list stmt) (p : str) : kind :=
  match call_ar_b p body with Some n => KF (repeat KD n) KD | None => KD end.

Definition kctx := list (str * kind).
Definition kvar (B CD : kctx) (x : str) : option kind :=
  match assoc x B with Some k => Some k | None => assoc x CD end.
Definition is_KD (k : option kind) : bool := match k with Some KD => true | _ => false end.
Definition ok_dexpr (B CD : kctx) (e : expr) : bool :=
  pure e && lits_ok e && forallb (fun x => src_nameb x && is_KD (kvar B CD x)) (used_e e).
Fixpoint capctx (B CD : kctx) (ns : list str) : option kctx :=
  match ns with
  | [] => Some []
  | n :: ns => match kvar B CD n, capctx B CD ns with
               | Some k, Some G => Some ((n, k) :: G) | _, _ => None end
  end.
Fixpoint nodupb (l : list str) : bool :=
  match l with [] => true | x :: t => negb (mem_str x t) && nodupb t end.
Lemma nodupb_sound2 : forall l, nodupb l = true -> NoDup l.
Proof.
  induction l as [|x t IH]; intros H; [constructor|]. cbn [nodupb] in H. apply andb_true_iff in H as [Hx Ht].
  constructor; [|now apply IH]. intros Hin. apply In_mem_str in Hin. rewrite Hin in Hx. discriminate.
Qed.

Fixpoint last_ret (l : list stmt) : bool :=
  match l with
  | [] => false
  | [st] => match st with SReturn (Some _) => true | _ => false end
  | _ :: l' => last_ret l' end.
Definition rkind (body : list stmt) (rets : list kind) : kind := if last_ret body then hd KD rets else KN.
(* a function that may return no value (KN) may also return data *)
Definition ret_ok (r k : kind) : bool := kind_eqb r k || (kind_eqb r KN && kind_eqb k KD).

(* the code of a statement (list) may end exactly at the end of the function when it is a `return` (with or without value) *)
Definition isret (st : stmt) : bool := match st with SReturn _ => true | _ => false end.
Fixpoint endsret (l : list stmt) : bool :=
  match l with [] => true | [st] => isret st | _ :: l' => endsret l' end.
Lemma endsret_snoc : forall l st, endsret (l ++ [st]) = isret st.
Proof.
  induction l as [|x l IH]; intros st; [reflexivity|]. cbn [app]. destruct l as [|y l]; [reflexivity|].
  change (endsret (x :: (y :: l) ++ [st])) with (endsret ((y :: l) ++ [st])). apply IH.
Qed.

Fixpoint noefn (e : expr) {struct e} : bool :=
  let fix go (l : list expr) : bool := match l with [] => true | a :: l => noefn a && go l end in
  match e with
  | EFn _ _ => false
  | EBin _ a b | EAnd a b | EOr a b | ENilOr a b => noefn a && noefn b
  | ENot a | ENeg a | EGet a _ => noefn a
  | ECall f l => noefn f && go l
  | ESelf l => go l
  | _ => true
  end.

(* the names a statement may leave bound in a scope that did not bind them: assigned names and counters that are existing variables,
   at any depth (a step expression of a `from` loop may read a captured variable none of these shadows: the step runs while the frame
   of the body is still there) *)
Fixpoint asg (st : stmt) {struct st} : list str :=
  match st with
  | SAssign x _ => [x]
  | SIf _ body | SWhile _ body => flat_map asg body
  | SIfElse _ body els => flat_map asg body ++ flat_map asg els
  | SIfElif _ body nxt => flat_map asg body ++ asg nxt
  | SFrom _ _ _ _ nm collide body =>
    match nm, collide with
    | Some x, false => filter (fun z => negb (str_eqb x z)) (flat_map asg body)    (* a fresh counter is bound throughout the body, and gone afterwards *)
    | Some x, true => x :: flat_map asg body
    | None, _ => flat_map asg body
    end
  | _ => []
  end.
Definition asgl (l : list stmt) : list str := flat_map asg l.
Definition step_free (B : kctx) (body : list stmt) (e : expr) : bool :=
  forallb (fun y => mem_str y (map fst B) || negb (mem_str y (asgl body))) (used_e e).

Definition kres := option (kctx * list kind).       (* the locals afterwards, the kinds of the values returned *)

Definition sfk := option (list kind * kind).     (* inside a function: the kinds of its parameters and of its result (for self(..)) *)

Fixpoint kexpr (SF : sfk) (B CD : kctx) (e : expr) {struct e} : option kind :=
  let fix kargs (l : list expr) {struct l} : option (list kind) :=
    match l with
    | [] => Some []
    | a :: l => match kexpr SF B CD a, kargs l with Some k, Some ks => Some (k :: ks) | _, _ => None end
    end in
  if ok_dexpr B CD e then Some KD else
  match e with
  | EVar x => if src_nameb x then kvar B CD x else None
  | EBin _ a b | EAnd a b | EOr a b | ENilOr a b =>
    match kexpr SF B CD a, kexpr SF B CD b with Some KD, Some KD => Some KD | _, _ => None end
  | ENot a | ENeg a | EGet a _ => match kexpr SF B CD a with Some KD => Some KD | _ => None end
  | ECall f args =>
    match f with
    | EVar g =>
      if src_nameb g then
        match kvar B CD g, kargs args with
        | Some (KF pk r), Some ks => if kinds_eqb ks pk then Some r else None
        | _, _ => None end
      else None
    | _ => None end
  | ESelf args =>
    match SF with
    | Some (pk, r) => match kargs args with Some ks => if kinds_eqb ks pk then Some r else None | None => None end
    | None => None end
  | EFn ps body =>
    let pk := map (pkind body) ps in
    match capctx B CD (free_vars ps body) with
    | Some G =>
      let kb := fun (sf : sfk) => fix kb (B' : kctx) (l : list stmt) {struct l} : kres :=
        match l with
        | [] => Some (B', [])
        | s :: l => match kstmt sf false B' G s with
                    | Some (B'', r1) => match kb B'' l with Some (B3, r2) => Some (B3, r1 ++ r2) | None => None end
                    | None => None end
        end in
      match kb (Some (pk, KD)) (rev (combine ps pk)) body with
      | Some (_, rets0) =>
        let r := rkind body rets0 in
        match (if kind_eqb r KD then Some rets0
               else match kb (Some (pk, r)) (rev (combine ps pk)) body with Some (_, rets) => Some rets | None => None end) with
        | Some rets => if nodupb ps && forallb src_nameb ps && forallb (ret_ok r) rets then Some (KF pk r) else None
        | None => None end
      | None => None end
    | None => None end
  | _ => None
  end
with kstmt (SF : sfk) (il : bool) (B CD : kctx) (s : stmt) {struct s} : kres :=
  let fix kb (il : bool) (B' : kctx) (l : list stmt) {struct l} : kres :=
    match l with
    | [] => Some (B', [])
    | s :: l => match kstmt SF il B' CD s with
                | Some (B'', r1) => match kb il B'' l with Some (B3, r2) => Some (B3, r1 ++ r2) | None => None end
                | None => None end
    end in
  match s with
  | SAssign x e =>
    if src_nameb x then
      match kexpr SF B CD e with
      | Some k => match assoc x B with
                  | Some k' => if kind_eqb k k' then Some (B, []) else None
                  | None => Some ((x, k) :: B, []) end
      | None => None end
    else None
  | SModify x e =>
    match assoc x CD, kexpr SF B CD e with
    | Some k', Some k => if src_nameb x && kind_eqb k k' then Some (B, []) else None
    | _, _ => None end
  | SOpAssign x o e =>
    if arith5 o && src_nameb x && is_KD (kvar B CD x) && is_KD (kexpr SF B CD e) then Some (B, []) else None
  | SPrint e => if is_KD (kexpr SF B CD e) then Some (B, []) else None
  | SAssert e _ => if is_KD (kexpr SF B CD e) then Some (B, []) else None
  | SExpr e => match kexpr SF B CD e with Some _ => Some (B, []) | None => None end
  | SIf c body =>
    if is_KD (kexpr SF B CD c) then match kb il B body with Some (_, r) => Some (B, r) | None => None end else None
  | SIfElse c body els =>
    if is_KD (kexpr SF B CD c) then
      match kb il B body, kb il B els with Some (_, r1), Some (_, r2) => Some (B, r1 ++ r2) | _, _ => None end
    else None
  | SIfElif c body nxt =>
    if is_KD (kexpr SF B CD c) then
      match kb il B body, kstmt SF il B CD nxt with Some (_, r1), Some (_, r2) => Some (B, r1 ++ r2) | _, _ => None end
    else None
  | SWhile c body =>
    if is_KD (kexpr SF B CD c) then match kb true B body with Some (_, r) => Some (B, r) | None => None end else None
  | SFrom a b incl step name collide body =>
    (* the step: a call-free expression over data variables; it runs inside the frame of the body, so the captured ones it reads
       are not bound anywhere in the body *)
    let kstep := fun B' => match step with None => true | Some e => ok_dexpr B' CD e && step_free B' body e end in
    match name, collide with
    | Some x, false =>   (* a fresh counter: a variable of the enclosing block for the duration of the loop *)
      if is_KD (kexpr SF B CD a) && is_KD (kexpr SF B CD b) && src_nameb x && negb (mem_str x (map fst B)) && kstep ((x, KD) :: B) then
        match kb true ((x, KD) :: B) body with Some (_, r) => Some (B, r) | None => None end
      else None
    | Some x, true =>    (* the counter is an existing local variable *)
      if is_KD (kexpr SF B CD a) && is_KD (kexpr SF B CD b) && src_nameb x && is_KD (assoc x B) && kstep B then
        match kb true B body with Some (_, r) => Some (B, r) | None => None end
      else None
    | None, false =>     (* a hidden counter *)
      if is_KD (kexpr SF B CD a) && is_KD (kexpr SF B CD b) && kstep B then
        match kb true B body with Some (_, r) => Some (B, r) | None => None end
      else None
    | None, true => None
    end
  | SBreak | SContinue => if il then Some (B, []) else None
  | SReturn None => Some (B, [KN])
  | SReturn (Some e) => match kexpr SF B CD e with Some k => Some (B, [k]) | None => None end
  end.

Fixpoint kblock (SF : sfk) (il : bool) (B CD : kctx) (l : list stmt) {struct l} : kres :=
  match l with
  | [] => Some (B, [])
  | s :: l => match kstmt SF il B CD s with
              | Some (B', r1) => match kblock SF il B' CD l with Some (B3, r2) => Some (B3, r1 ++ r2) | None => None end
              | None => None end
  end.
Fixpoint kargs (SF : sfk) (B CD : kctx) (l : list expr) : option (list kind) :=
  match l with
  | [] => Some []
  | a :: l => match kexpr SF B CD a, kargs SF B CD l with Some k, Some ks => Some (k :: ks) | _, _ => None end
  end.

(* the kind of a function literal.  The kind of the result is read off the first `return` (rkind); `self(..)` has that kind
   (first pass with the guess "data", a second one when the function returns a function) *)
Definition kfn (B CD : kctx) (ps : list str) (body : list stmt) : option (kctx * list kind * kind) :=
  let pk := map (pkind body) ps in
  match capctx B CD (free_vars ps body) with
  | Some G =>
    match kblock (Some (pk, KD)) false (rev (combine ps pk)) G body with
    | Some (_, rets0) =>
      let r := rkind body rets0 in
      match (if kind_eqb r KD then Some rets0
             else match kblock (Some (pk, r)) false (rev (combine ps pk)) G body with Some (_, rets) => Some rets | None => None end) with
      | Some rets => if nodupb ps && forallb src_nameb ps && forallb (ret_ok r) rets then Some (G, pk, r) else None
      | None => None end
    | None => None end
  | None => None end.

Lemma kblock_fix : forall SF CD l il B,
  (fix kb (il : bool) (B' : kctx) (l : list stmt) {struct l} : kres :=
     match l with
     | [] => Some (B', [])
     | s :: l => match kstmt SF il B' CD s with
                 | Some (B'', r1) => match kb il B'' l with Some (B3, r2) => Some (B3, r1 ++ r2) | None => None end
                 | None => None end
     end) il B l = kblock SF il B CD l.
Proof.
  intros SF CD. induction l as [|s l IH]; intros il B; [reflexivity|]. cbn [kblock].
  destruct (kstmt SF il B CD s) as [[B' r1]|]; [|reflexivity]. now rewrite IH.
Qed.
Lemma kblock_fix0 : forall SF CD l B,
  (fix kb (B' : kctx) (l : list stmt) {struct l} : kres :=
     match l with
     | [] => Some (B', [])
     | s :: l => match kstmt SF false B' CD s with
                 | Some (B'', r1) => match kb B'' l with Some (B3, r2) => Some (B3, r1 ++ r2) | None => None end
                 | None => None end
     end) B l = kblock SF false B CD l.
Proof.
  intros SF CD. induction l as [|s l IH]; intros B; [reflexivity|]. cbn [kblock].
  destruct (kstmt SF false B CD s) as [[B' r1]|]; [|reflexivity]. now rewrite IH.
Qed.
Lemma kargs_fix : forall SF B CD l,
  (fix kargs (l : list expr) {struct l} : option (list kind) :=
     match l with
     | [] => Some []
     | a :: l => match kexpr SF B CD a, kargs l with Some k, Some ks => Some (k :: ks) | _, _ => None end
     end) l = kargs SF B CD l.
Proof. intros SF B CD. induction l as [|a l IH]; [reflexivity|]. cbn [kargs]. now rewrite IH. Qed.

Lemma kexpr_eq : forall SF B CD e, kexpr SF B CD e =
  if ok_dexpr B CD e then Some KD else
  match e with
  | EVar x => if src_nameb x then kvar B CD x else None
  | EBin _ a b | EAnd a b | EOr a b | ENilOr a b =>
    match kexpr SF B CD a, kexpr SF B CD b with Some KD, Some KD => Some KD | _, _ => None end
  | ENot a | ENeg a | EGet a _ => match kexpr SF B CD a with Some KD => Some KD | _ => None end
  | ECall (EVar g) args =>
      if src_nameb g then
        match kvar B CD g, kargs SF B CD args with
        | Some (KF pk r), Some ks => if kinds_eqb ks pk then Some r else None
        | _, _ => None end
      else None
  | ESelf args =>
    match SF with
    | Some (pk, r) => match kargs SF B CD args with Some ks => if kinds_eqb ks pk then Some r else None | None => None end
    | None => None end
  | EFn ps body => match kfn B CD ps body with Some (_, pk, r) => Some (KF pk r) | None => None end
  | _ => None
  end.
Proof.
  intros SF B CD e. destruct e as [z|b|s| |x|o a b|a b|a b|a|a|f args|args|ps body|a b|a sp]; try reflexivity.
  - cbn [kexpr]. destruct (ok_dexpr B CD (ECall f args)); [reflexivity|]. destruct f; try reflexivity. now rewrite kargs_fix.
  - cbn [kexpr]. destruct (ok_dexpr B CD (ESelf args)); [reflexivity|]. now rewrite kargs_fix.
  - cbn [kexpr]. destruct (ok_dexpr B CD (EFn ps body)); [reflexivity|]. unfold kfn.
    destruct (capctx B CD (free_vars ps body)) as [G|]; [|reflexivity]. rewrite !kblock_fix0.
    destruct (kblock (Some (_, KD)) false _ G body) as [[B' rets0]|]; [|reflexivity]. rewrite ?kblock_fix0.
    destruct (kind_eqb (rkind body rets0) KD); [|destruct (kblock _ false _ G body) as [[B2 rets]|]; [|reflexivity]];
      destruct (nodupb ps && _ && _); reflexivity.
Qed.

Lemma ok_dexpr_pure : forall B CD e, ok_dexpr B CD e = true -> pure e = true.
Proof. intros B CD e H. unfold ok_dexpr in H. rewrite !andb_true_iff in H. tauto. Qed.
Lemma ok_dexpr_impure : forall B CD e, pure e = false -> ok_dexpr B CD e = false.
Proof. intros B CD e H. unfold ok_dexpr. now rewrite H. Qed.
Lemma ok_dexpr_locals : forall B CD e, ok_dexpr B [] e = true -> ok_dexpr B CD e = true.
Proof.
  intros B CD e H. unfold ok_dexpr in *. rewrite !andb_true_iff in *. destruct H as [[Hp Hl] Hu]. split; [split; assumption|].
  rewrite forallb_forall in *. intros x Hx. specialize (Hu x Hx). apply andb_true_iff in Hu as [H1 H2]. rewrite H1. cbn [andb].
  unfold kvar in *. destruct (assoc x B); [exact H2|discriminate H2].
Qed.
Lemma kexpr_inv : forall SF B CD e k, kexpr SF B CD e = Some k ->
  pure e = true \/
  match e with
  | EBin _ a b | EAnd a b | EOr a b | ENilOr a b => kexpr SF B CD a = Some KD /\ kexpr SF B CD b = Some KD
  | ENot a | ENeg a | EGet a _ => kexpr SF B CD a = Some KD
  | _ => True end.
Proof.
  intros SF B CD e k H. rewrite kexpr_eq in H. destruct (ok_dexpr B CD e) eqn:Ho; [left; exact (ok_dexpr_pure _ _ _ Ho)|right].
  destruct e as [z|c|s| |x|o a b|a b|a b|a|a|f args|args|ps body|a b|a sp]; try exact Logic.I;
    (destruct (kexpr SF B CD a) as [[| |]|]; try discriminate H); try (destruct (kexpr SF B CD b) as [[| |]|]; try discriminate H); auto.
Qed.

Lemma kstmt_SIf : forall SF il B CD c body, kstmt SF il B CD (SIf c body) =
  if is_KD (kexpr SF B CD c) then match kblock SF il B CD body with Some (_, r) => Some (B, r) | None => None end else None.
Proof. intros. cbn [kstmt]. now rewrite kblock_fix. Qed.
Lemma kstmt_SIfElse : forall SF il B CD c body els, kstmt SF il B CD (SIfElse c body els) =
  if is_KD (kexpr SF B CD c) then
    match kblock SF il B CD body, kblock SF il B CD els with Some (_, r1), Some (_, r2) => Some (B, r1 ++ r2) | _, _ => None end
  else None.
Proof. intros. cbn [kstmt]. now rewrite !kblock_fix. Qed.
Lemma kstmt_SIfElif : forall SF il B CD c body nxt, kstmt SF il B CD (SIfElif c body nxt) =
  if is_KD (kexpr SF B CD c) then
    match kblock SF il B CD body, kstmt SF il B CD nxt with Some (_, r1), Some (_, r2) => Some (B, r1 ++ r2) | _, _ => None end
  else None.
Proof. intros. cbn [kstmt]. now rewrite !kblock_fix. Qed.
Lemma kstmt_SWhile : forall SF il B CD c body, kstmt SF il B CD (SWhile c body) =
  if is_KD (kexpr SF B CD c) then match kblock SF true B CD body with Some (_, r) => Some (B, r) | None => None end else None.
Proof. intros. cbn [kstmt]. now rewrite kblock_fix. Qed.
Lemma kstmt_expr : forall SF il B CD s r, kstmt SF il B CD s = Some r ->
  match s with
  | SAssign _ e | SModify _ e | SOpAssign _ _ e | SPrint e | SAssert e _ | SExpr e | SReturn (Some e) => kexpr SF B CD e <> None
  | _ => True end.
Proof.
  intros SF il B CD s r H. destruct s as [x e|x e|x o e|e|e sp|e| | | | | | | |[e|]]; try exact Logic.I; cbn [kstmt] in H; intros E; rewrite E in H.
  - destruct (src_nameb x); discriminate.
  - destruct (assoc x CD); discriminate.
  - rewrite andb_false_r in H. discriminate.
  - discriminate.
  - discriminate.
  - discriminate.
  - discriminate.
Qed.
Definition kstep (SF : sfk) (B CD : kctx) (body : list stmt) (step : option expr) : bool :=
  match step with None => true | Some e => ok_dexpr B CD e && step_free B body e end.
Lemma kstmt_SFrom : forall SF il B CD a b incl step name collide body, kstmt SF il B CD (SFrom a b incl step name collide body) =
  match name, collide with
  | Some x, false =>
    if is_KD (kexpr SF B CD a) && is_KD (kexpr SF B CD b) && src_nameb x && negb (mem_str x (map fst B)) && kstep SF ((x, KD) :: B) CD body step then
      match kblock SF true ((x, KD) :: B) CD body with Some (_, r) => Some (B, r) | None => None end
    else None
  | Some x, true =>
    if is_KD (kexpr SF B CD a) && is_KD (kexpr SF B CD b) && src_nameb x && is_KD (assoc x B) && kstep SF B CD body step then
      match kblock SF true B CD body with Some (_, r) => Some (B, r) | None => None end
    else None
  | None, false =>
    if is_KD (kexpr SF B CD a) && is_KD (kexpr SF B CD b) && kstep SF B CD body step then
      match kblock SF true B CD body with Some (_, r) => Some (B, r) | None => None end
    else None
  | None, true => None
  end.
Proof. intros SF il B CD a b incl step [x|] [|] body; cbn [kstmt]; rewrite ?kblock_fix; reflexivity. Qed.

Lemma is_KD_eq : forall o, is_KD o = true -> o = Some KD.
Proof. intros [[| |]|] H; try discriminate; reflexivity. Qed.
Definition from_ctx (B : kctx) (name : option str) (collide : bool) : kctx :=
  match name, collide with Some x, false => (x, KD) :: B | _, _ => B end.
Lemma kstmt_SFrom_inv : forall SF il B CD a b incl step name collide body B' rets,
  kstmt SF il B CD (SFrom a b incl step name collide body) = Some (B', rets) ->
  B' = B /\ kexpr SF B CD a = Some KD /\ kexpr SF B CD b = Some KD /\ kstep SF (from_ctx B name collide) CD body step = true /\
  (exists B1, kblock SF true (from_ctx B name collide) CD body = Some (B1, rets)) /\
  match name, collide with
  | Some x, false => src_nameb x = true /\ mem_str x (map fst B) = false
  | Some x, true => src_nameb x = true /\ assoc x B = Some KD
  | None, false => True
  | None, true => False end.
Proof.
  intros SF il B CD a b incl step name collide body B' rets H. rewrite kstmt_SFrom in H.
  destruct name as [x|]; destruct collide; try discriminate; cbn [from_ctx];
    match type of H with (if ?c then _ else _) = _ => destruct c eqn:Hc; [|discriminate] end; rewrite !andb_true_iff in Hc;
    (destruct (kblock SF true _ CD body) as [[B1 r]|]; [|discriminate]); injection H as <- <-.
  - destruct Hc as [[[[Ha Hb] Hs] Hx] Hk]. repeat split; eauto using is_KD_eq.
  - destruct Hc as [[[[Ha Hb] Hs] Hx] Hk]. apply negb_true_iff in Hx. repeat split; eauto using is_KD_eq.
  - destruct Hc as [[Ha Hb] Hk]. repeat split; eauto using is_KD_eq.
Qed.

(* nm x e: x is not mentioned in e, neither as a variable nor as a free variable of a function literal.  A captured name
   that an expression does not mention can be left out of the captured context (kexpr_remove_key); this goes with Cl_cd and
   Cl_bind_ghost of ClosRel.v: kstmt has no case that needs it *)
Fixpoint nm (x : str) (e : expr) {struct e} : bool :=
  let fix go (l : list expr) : bool := match l with [] => true | a :: l => nm x a && go l end in
  match e with
  | EVar y => negb (str_eqb y x)
  | EBin _ a b | EAnd a b | EOr a b | ENilOr a b => nm x a && nm x b
  | ENot a | ENeg a | EGet a _ => nm x a
  | ECall f l => nm x f && go l
  | ESelf l => go l
  | EFn ps body => negb (mem_str x (free_vars ps body))
  | _ => true
  end.
Definition nml (x : str) (l : list expr) : bool := forallb (nm x) l.
Lemma nm_ECall : forall x f l, nm x (ECall f l) = nm x f && nml x l.
Proof. reflexivity. Qed.
Definition remove_key (x : str) (CD : kctx) : kctx := filter (fun p => negb (str_eqb (fst p) x)) CD.
Lemma assoc_remove_key : forall x CD y, assoc y (remove_key x CD) = if str_eqb y x then None else assoc y CD.
Proof.
  intros x CD y. unfold remove_key. induction CD as [|[z k] t IH]; [now destruct (str_eqb y x)|]. cbn [filter fst].
  destruct (str_eqb z x) eqn:Ezx; cbn [negb assoc].
  - rewrite IH. apply str_eqb_eq in Ezx. subst z. destruct (str_eqb y x) eqn:Eyx; [reflexivity|].
    destruct (str_eqb x y) eqn:Exy; [apply str_eqb_eq in Exy; subst y; now rewrite str_eqb_refl in Eyx|reflexivity].
  - destruct (str_eqb z y) eqn:Ezy.
    + apply str_eqb_eq in Ezy. subst z. now rewrite Ezx.
    + exact IH.
Qed.
Lemma remove_key_id : forall x CD, ~ In x (map fst CD) -> remove_key x CD = CD.
Proof.
  intros x CD. unfold remove_key. induction CD as [|[z k] t IH]; intros H; [reflexivity|]. cbn [filter fst map In] in *.
  rewrite str_eqb_neq by (intros E; apply H; now left). cbn [negb]. rewrite IH; [reflexivity|]. intros Hi. apply H. now right.
Qed.
Lemma assoc_remove_key_same : forall x CD, assoc x (remove_key x CD) = None.
Proof. intros. now rewrite assoc_remove_key, str_eqb_refl. Qed.
Lemma assoc_remove_key_sub : forall x CD y k, assoc y (remove_key x CD) = Some k -> assoc y CD = Some k.
Proof. intros x CD y k H. rewrite assoc_remove_key in H. destruct (str_eqb y x); [discriminate|exact H]. Qed.
Lemma kvar_remove_key : forall x B CD y, y <> x -> kvar B (remove_key x CD) y = kvar B CD y.
Proof. intros x B CD y Hne. unfold kvar. rewrite assoc_remove_key, str_eqb_neq by exact Hne. reflexivity. Qed.

Lemma nm_used : forall x e, pure e = true -> nm x e = true -> ~ In x (used_e e).
Proof.
  intros x. induction e; intros Hp Hn; cbn [pure] in Hp; try discriminate; cbn [used_e nm] in *; try (intros Hi; exact Hi); try exact (IHe Hp Hn).
  1: intros [->|[]]; rewrite str_eqb_refl in Hn; discriminate.
  all: apply andb_true_iff in Hp as [P1 P2]; apply andb_true_iff in Hn as [N1 N2]; intros Hi;
    apply in_app_or in Hi as [Hi|Hi]; [exact (IHe1 P1 N1 Hi)|exact (IHe2 P2 N2 Hi)].
Qed.
Lemma forallb_ext_in : forall A (f g : A -> bool) l, (forall y, In y l -> f y = g y) -> forallb f l = forallb g l.
Proof. intros A f g. induction l as [|a l IH]; intros H; [reflexivity|]. cbn [forallb]. rewrite (H a (or_introl eq_refl)), IH; [reflexivity|]. intros y Hy. apply H. now right. Qed.
Lemma ok_dexpr_remove_key : forall x B CD e, nm x e = true -> ok_dexpr B (remove_key x CD) e = ok_dexpr B CD e.
Proof.
  intros x B CD e Hn. unfold ok_dexpr. destruct (pure e) eqn:Hp; [|reflexivity]. f_equal.
  apply forallb_ext_in. intros y Hy. rewrite kvar_remove_key; [reflexivity|]. intros ->. exact (nm_used x e Hp Hn Hy).
Qed.
Lemma capctx_remove_key : forall x B CD ns, ~ In x ns -> capctx B (remove_key x CD) ns = capctx B CD ns.
Proof.
  intros x B CD. induction ns as [|n ns IH]; intros Hn; [reflexivity|]. cbn [capctx].
  rewrite kvar_remove_key by (intros ->; apply Hn; now left). rewrite IH by (intros Hi; apply Hn; now right). reflexivity.
Qed.
Lemma kargs_remove_key : forall x SF B CD l, Forall (fun a => forall SF B CD, nm x a = true -> kexpr SF B (remove_key x CD) a = kexpr SF B CD a) l ->
  nml x l = true -> kargs SF B (remove_key x CD) l = kargs SF B CD l.
Proof.
  intros x SF B CD l IHl. induction IHl as [|a l Ha _ IH]; intros Hn; [reflexivity|]. cbn [nml forallb] in Hn. apply andb_true_iff in Hn as [Na Nl].
  cbn [kargs]. now rewrite (Ha _ _ _ Na), (IH Nl).
Qed.
Lemma kexpr_remove_key : forall x e SF B CD, nm x e = true -> kexpr SF B (remove_key x CD) e = kexpr SF B CD e.
Proof.
  (* both sides by the equation of the checker; the test for a call-free expression does not see the name *)
  Local Ltac kx Hn := match goal with |- kexpr ?SF ?B (remove_key ?x ?CD) ?e = _ =>
    rewrite (kexpr_eq SF B (remove_key x CD) e), (kexpr_eq SF B CD e), (ok_dexpr_remove_key x B CD e Hn) end.
  intros x. apply (expr_ind' (fun e => forall SF B CD, nm x e = true -> kexpr SF B (remove_key x CD) e = kexpr SF B CD e) (fun _ => True));
    try (intros; exact Logic.I).
  - intros z SF B CD Hn. kx Hn. reflexivity.
  - intros b SF B CD Hn. kx Hn. reflexivity.
  - intros s SF B CD Hn. kx Hn. reflexivity.
  - intros SF B CD Hn. kx Hn. reflexivity.
  - intros y SF B CD Hn. kx Hn. cbn [nm] in Hn. apply negb_true_iff in Hn.
    rewrite kvar_remove_key; [reflexivity|]. intros ->. rewrite str_eqb_refl in Hn. discriminate.
  - intros o a b IHa IHb SF B CD Hn. kx Hn. cbn [nm] in Hn. apply andb_true_iff in Hn as [N1 N2]. now rewrite IHa, IHb.
  - intros a b IHa IHb SF B CD Hn. kx Hn. cbn [nm] in Hn. apply andb_true_iff in Hn as [N1 N2]. now rewrite IHa, IHb.
  - intros a b IHa IHb SF B CD Hn. kx Hn. cbn [nm] in Hn. apply andb_true_iff in Hn as [N1 N2]. now rewrite IHa, IHb.
  - intros a IHa SF B CD Hn. kx Hn. now rewrite IHa.
  - intros a IHa SF B CD Hn. kx Hn. now rewrite IHa.
  - intros f l IHf IHl SF B CD Hn. kx Hn. rewrite nm_ECall in Hn. apply andb_true_iff in Hn as [N1 N2].
    destruct f; try reflexivity. cbn [nm] in N1. apply negb_true_iff in N1.
    rewrite kvar_remove_key, (kargs_remove_key x SF B CD l IHl N2); [reflexivity|]. intros ->. rewrite str_eqb_refl in N1. discriminate.
  - intros l IHl SF B CD Hn. kx Hn. now rewrite (kargs_remove_key x SF B CD l IHl Hn).
  - intros ps body _ SF B CD Hn. kx Hn. cbn [nm] in Hn. apply negb_true_iff in Hn.
    unfold kfn. rewrite capctx_remove_key; [reflexivity|]. intros Hi. apply In_mem_str in Hi. congruence.
  - intros a b IHa IHb SF B CD Hn. kx Hn. cbn [nm] in Hn. apply andb_true_iff in Hn as [N1 N2]. now rewrite IHa, IHb.
  - intros a sp IHa SF B CD Hn. kx Hn. now rewrite IHa.
Qed.

Definition fbl := list (str * nat * list instr).     (* the functions defined: name, register levels of the body (expression + loop registers), code *)
Definition fbe (x : str * nat * list instr) : str * list instr := (fst (fst x), snd x).
(* the end of a function body: `void; ret` unless the body ends with ret (compiler/src/ast/function.rs, Function::compile) *)
Definition tailc (cb : list instr) : list instr :=
  match rev cb with
  | i :: _ => if (op i =? OP_RET)%N then [] else [mkI OP_VOID []; mkI OP_RET []]
  | [] => [mkI OP_VOID []; mkI OP_RET []] end.
Definition sln (sl : option nat) : nat := match sl with Some n => n | None => 0 end.

Section Code.
Variable path : str.

(* d / c: the expression-register level; lr: the loop-register counter; k: the id of the next function literal.
   Expressions give instructions, statements items: the break / continue placeholders of a loop body are resolved by the
   loop (sl = scopes since the innermost loop, None outside a loop) *)
Fixpoint ec (d lr k : nat) (e : expr) {struct e} : list instr * fbl :=
  let fix args (j k : nat) (l : list expr) {struct l} : list instr * list instr * fbl :=
    match l with
    | [] => ([], [], [])
    | a :: l => let '(ca, fa) := ec j lr k a in
                let '(ci, cl, fl) := args (S j) (k + length fa) l in
                (ca ++ [mkI OP_STORE_FAST [reg j]] ++ ci, mkI OP_LOAD_FAST [reg j] :: cl, fa ++ fl)
    end in
  match e with
  | EBin o a b =>
    let '(ca, fa) := ec (S d) lr k a in
    let '(cb, fb) := ec (S d) lr (k + length fa) b in
    (ca ++ [mkI OP_STORE_FAST [reg d]] ++ cb ++ [mkI OP_LOAD_FAST [reg d]; mkI OP_FAST_REV2 []] ++ [op_instr o], fa ++ fb)
  | EAnd a b =>
    let '(ca, fa) := ec (S d) lr k a in
    let '(cb, fb) := ec (S d) lr (k + length fa) b in
    (ca ++ [mkI OP_STORE_SKIP [reg d; s_zero; sN (length cb + 3)]] ++ cb ++ [mkI OP_LOAD_FAST [reg d]; mkI OP_BIN_OP [op_and]], fa ++ fb)
  | EOr a b =>
    let '(ca, fa) := ec (S d) lr k a in
    let '(cb, fb) := ec (S d) lr (k + length fa) b in
    (ca ++ [mkI OP_STORE_SKIP [reg d; s_one; sN (length cb + 3)]] ++ cb ++ [mkI OP_LOAD_FAST [reg d]; mkI OP_BIN_OP [op_or]], fa ++ fb)
  | ENot a => let '(ca, fa) := ec (S d) lr k a in (ca ++ [mkI OP_NOT []], fa)
  | ENeg a => let '(ca, fa) := ec (S d) lr k a in (ca ++ [mkI OP_NEG []], fa)
  | ENilOr a b =>
    let '(ca, fa) := ec (S d) lr k a in
    let '(cb, fb) := ec (S d) lr (k + length fa) b in
    (ca ++ [mkI OP_JMP_NOT_NIL [sN (length cb + 1)]] ++ cb, fa ++ fb)
  | EGet a sp => let '(ca, fa) := ec (S d) lr k a in (ca ++ [mkI OP_UNWRAP [sp]], fa)
  | ESelf l => let '(ci, cl, fl) := args (S d) k l in (ci ++ cl ++ [mkI OP_CALL_SELF []], fl)
  | ECall f l =>
    match f with
    | EVar g =>
      let '(ci, cl, fl) := args (S (S d)) k l in
      ([mkI OP_LOAD [g]] ++ [mkI OP_STORE_FAST [reg (S d)]] ++ ci ++ cl ++ [mkI OP_LOAD_FAST [reg (S d)]; mkI OP_CALL []], fl)
    | _ => (pcode d e, []) end
  | EFn ps body =>
    let fix bc (k : nat) (l : list stmt) {struct l} : list citem * fbl :=
      match l with
      | [] => ([], [])
      | s :: l => let '(cs, fs) := sc (S d) lr None k s in
                  let '(cl, fl) := bc (k + length fs) l in (cs ++ cl, fs ++ fl)
      end in
    let '(cb, fb) := bc k body in
    let name := fn_name path (k + length fb) in
    ([mkI OP_MAKE_FUNCTION (name :: free_vars ps body)], fb ++ [(name, S d + lr, pcodeP 0 ps ++ strip cb ++ tailc (strip cb))])
  | _ => (pcode d e, [])
  end
with sc (c lr : nat) (sl : option nat) (k : nat) (s : stmt) {struct s} : list citem * fbl :=
  let fix bc (lr : nat) (sl : option nat) (k : nat) (l : list stmt) {struct l} : list citem * fbl :=
    match l with
    | [] => ([], [])
    | s :: l => let '(cs, fs) := sc c lr sl k s in
                let '(cl, fl) := bc lr sl (k + length fs) l in (cs ++ cl, fs ++ fl)
    end in
  let inner := option_map S sl in
  match s with
  | SAssign x e => let '(ce, fe) := ec c lr k e in (map CI ce ++ [I OP_STORE [x]], fe)
  | SModify x e => let '(ce, fe) := ec c lr k e in (map CI ce ++ [I OP_STORE_OBJECT [x]], fe)
  | SOpAssign x o e =>
    let '(ce, fe) := ec (S c) lr k e in (map CI ce ++ [I OP_BIN_OP_ASSIGN [binop_sym o ++ [61%N]; x]; I OP_VOID []], fe)
  | SPrint e => let '(ce, fe) := ec c lr k e in (map CI ce ++ [I OP_PRINTN [s_star]; I OP_VOID []], fe)
  | SAssert e sp => let '(ce, fe) := ec c lr k e in (map CI ce ++ [I OP_ASSERT [sp]], fe)
  | SExpr e => let '(ce, fe) := ec c lr k e in (map CI ce ++ [I OP_VOID []], fe)
  | SIf cnd body =>
    let '(cc, fc) := ec c lr k cnd in
    let '(cb0, fb) := bc lr inner (k + length fc) body in
    let cb := cb0 ++ [I OP_DONE []] in
    (map CI cc ++ [I OP_IF_STMT [sN (length cb + 1)]] ++ cb, fc ++ fb)
  | SIfElse cnd body els =>
    let '(cc, fc) := ec c lr k cnd in
    let '(cb0, fb) := bc lr inner (k + length fc) body in
    let cb := cb0 ++ [I OP_DONE []] in
    let '(ce0, fe) := bc lr inner (k + length fc + length fb) els in
    let ce := I OP_ELSE_STMT [] :: ce0 ++ [I OP_DONE []] in
    (map CI cc ++ [I OP_IF_STMT [sN (length cb + 2)]] ++ cb ++ [I OP_JMP [sN (length ce + 1)]] ++ ce, fc ++ fb ++ fe)
  | SIfElif cnd body nxt =>
    let '(cc, fc) := ec c lr k cnd in
    let '(cb0, fb) := bc lr inner (k + length fc) body in
    let cb := cb0 ++ [I OP_DONE []] in
    let '(ce0, fe) := sc c lr inner (k + length fc + length fb) nxt in
    let ce := I OP_ELSE_STMT [] :: ce0 ++ [I OP_DONE []] in
    (map CI cc ++ [I OP_IF_STMT [sN (length cb + 2)]] ++ cb ++ [I OP_JMP [sN (length ce + 1)]] ++ ce, fc ++ fb ++ fe)
  | SWhile cnd body =>
    let '(cc, fc) := ec c lr k cnd in
    let '(cb0, fb) := bc lr (Some 1) (k + length fc) body in
    let cb := cb0 ++ [I OP_JMP_POP [neg_off (1 + length cb0 + length cc)]] in
    (map CI cc ++ [I OP_WHILE_LOOP [sN (length cb + 1)]] ++ resolve (length cb) 0 0 cb, fc ++ fb)
  | SFrom a b incl step name collide body =>
    let idn := from_idn lr name in
    let lr1 := from_lr1 lr name in
    let startr := lregn (S lr1) in
    let endr := lregn (S (S lr1)) in
    let '(ca, fa) := ec c lr1 k a in
    let '(cb_, fb) := ec c lr1 (k + length fa) b in
    let cond := [I OP_LOAD_FAST [idn]; I OP_LOAD_FAST [endr]; I OP_BIN_OP [if incl then op_le else op_lt]] in
    let '(cbody, fbd) := bc (S (S lr1)) (Some 1) (k + length fa + length fb) body in
    let '(cs, fs) := match step with
                     | Some e => ec c (S (S lr1)) (k + length fa + length fb + length fbd) e
                     | None => ([mkI OP_MAKE_INT [s_one]], []) end in
    let cstep := map CI cs ++ [I OP_BIN_OP_ASSIGN [[43; 61]%N; idn]] in
    let full0 := cbody ++ cstep in
    let full := full0 ++ [I OP_JMP_POP [neg_off (1 + length cond + length full0)]] in
    (map CI ca ++ [I OP_STORE_FAST [startr]] ++ map CI cb_ ++ [I OP_STORE_FAST [endr]; I OP_LOAD_FAST [startr];
                                                             I (if collide then OP_STORE else OP_STORE_FAST) [idn]] ++ cond
       ++ [I OP_WHILE_LOOP [sN (length full + 1)]] ++ resolve (length full) (length cstep) 0 full
       ++ (if collide then [] else [I OP_DELETE_NAME_SCOPED [idn; startr; endr]]), fa ++ fb ++ fbd ++ fs)
  | SBreak => ([CBrk (sln sl)], [])
  | SContinue => ([CCont (sln sl)], [])
  | SReturn None => ([I OP_RET []], [])
  | SReturn (Some e) => let '(ce, fe) := ec c lr k e in (map CI ce ++ [I OP_RET []], fe)
  end.

Fixpoint bc (c lr : nat) (sl : option nat) (k : nat) (l : list stmt) {struct l} : list citem * fbl :=
  match l with
  | [] => ([], [])
  | s :: l => let '(cs, fs) := sc c lr sl k s in
              let '(cl, fl) := bc c lr sl (k + length fs) l in (cs ++ cl, fs ++ fl)
  end.
Fixpoint eargs (lr j k : nat) (l : list expr) {struct l} : list instr * list instr * fbl :=
  match l with
  | [] => ([], [], [])
  | a :: l => let '(ca, fa) := ec j lr k a in
              let '(ci, cl, fl) := eargs lr (S j) (k + length fa) l in
              (ca ++ [mkI OP_STORE_FAST [reg j]] ++ ci, mkI OP_LOAD_FAST [reg j] :: cl, fa ++ fl)
  end.

Lemma bc_cons : forall c lr sl k st l, bc c lr sl k (st :: l) =
  let '(cs, fs) := sc c lr sl k st in let '(cl, fl) := bc c lr sl (k + length fs) l in (cs ++ cl, fs ++ fl).
Proof. reflexivity. Qed.
Lemma eargs_cons : forall lr j k a l, eargs lr j k (a :: l) =
  let '(ca, fa) := ec j lr k a in
  let '(ci, cl, fl) := eargs lr (S j) (k + length fa) l in
  (ca ++ [mkI OP_STORE_FAST [reg j]] ++ ci, mkI OP_LOAD_FAST [reg j] :: cl, fa ++ fl).
Proof. reflexivity. Qed.

Lemma bc_fix : forall c l lr sl k,
  (fix bc (lr : nat) (sl : option nat) (k : nat) (l : list stmt) {struct l} : list citem * fbl :=
     match l with
     | [] => ([], [])
     | s :: l => let '(cs, fs) := sc c lr sl k s in
                 let '(cl, fl) := bc lr sl (k + length fs) l in (cs ++ cl, fs ++ fl)
     end) lr sl k l = bc c lr sl k l.
Proof.
  intros c. induction l as [|s l IH]; intros lr sl k; [reflexivity|]. cbn [bc].
  destruct (sc c lr sl k s) as [cs fs]. now rewrite IH.
Qed.
Lemma bc_fix1 : forall d lr l k,
  (fix bc (k : nat) (l : list stmt) {struct l} : list citem * fbl :=
     match l with
     | [] => ([], [])
     | s :: l => let '(cs, fs) := sc (S d) lr None k s in
                 let '(cl, fl) := bc (k + length fs) l in (cs ++ cl, fs ++ fl)
     end) k l = bc (S d) lr None k l.
Proof.
  intros d lr. induction l as [|s l IH]; intros k; [reflexivity|]. cbn [bc].
  destruct (sc (S d) lr None k s) as [cs fs]. now rewrite IH.
Qed.
Lemma eargs_fix : forall lr l j k,
  (fix args (j k : nat) (l : list expr) {struct l} : list instr * list instr * fbl :=
     match l with
     | [] => ([], [], [])
     | a :: l => let '(ca, fa) := ec j lr k a in
                 let '(ci, cl, fl) := args (S j) (k + length fa) l in
                 (ca ++ [mkI OP_STORE_FAST [reg j]] ++ ci, mkI OP_LOAD_FAST [reg j] :: cl, fa ++ fl)
     end) j k l = eargs lr j k l.
Proof.
  intros lr. induction l as [|a l IH]; intros j k; [reflexivity|]. cbn [eargs].
  destruct (ec j lr k a) as [ca fa]. now rewrite IH.
Qed.

Definition fcode (d lr k : nat) (ps : list str) (body : list stmt) : list instr :=
  let cb := strip (fst (bc (S d) lr None k body)) in pcodeP 0 ps ++ cb ++ tailc cb.

Lemma ec_EBin : forall d lr k o a b, ec d lr k (EBin o a b) =
  let '(ca, fa) := ec (S d) lr k a in
  let '(cb, fb) := ec (S d) lr (k + length fa) b in
  (ca ++ [mkI OP_STORE_FAST [reg d]] ++ cb ++ [mkI OP_LOAD_FAST [reg d]; mkI OP_FAST_REV2 []] ++ [op_instr o], fa ++ fb).
Proof. reflexivity. Qed.
Lemma ec_ECall : forall d lr k g l, ec d lr k (ECall (EVar g) l) =
  let '(ci, cl, fl) := eargs lr (S (S d)) k l in
  ([mkI OP_LOAD [g]] ++ [mkI OP_STORE_FAST [reg (S d)]] ++ ci ++ cl ++ [mkI OP_LOAD_FAST [reg (S d)]; mkI OP_CALL []], fl).
Proof. intros. cbn [ec]. now rewrite eargs_fix. Qed.
Lemma ec_EFn : forall d lr k ps body, ec d lr k (EFn ps body) =
  let fb := snd (bc (S d) lr None k body) in
  let name := fn_name path (k + length fb) in
  ([mkI OP_MAKE_FUNCTION (name :: free_vars ps body)], fb ++ [(name, S d + lr, fcode d lr k ps body)]).
Proof. intros. cbn [ec]. rewrite bc_fix1. unfold fcode. destruct (bc (S d) lr None k body) as [cb fb]. reflexivity. Qed.
Lemma ec_EAnd : forall d lr k a b, ec d lr k (EAnd a b) =
  let '(ca, fa) := ec (S d) lr k a in
  let '(cb, fb) := ec (S d) lr (k + length fa) b in
  (ca ++ [mkI OP_STORE_SKIP [reg d; s_zero; sN (length cb + 3)]] ++ cb ++ [mkI OP_LOAD_FAST [reg d]; mkI OP_BIN_OP [op_and]], fa ++ fb).
Proof. reflexivity. Qed.
Lemma ec_EOr : forall d lr k a b, ec d lr k (EOr a b) =
  let '(ca, fa) := ec (S d) lr k a in
  let '(cb, fb) := ec (S d) lr (k + length fa) b in
  (ca ++ [mkI OP_STORE_SKIP [reg d; s_one; sN (length cb + 3)]] ++ cb ++ [mkI OP_LOAD_FAST [reg d]; mkI OP_BIN_OP [op_or]], fa ++ fb).
Proof. reflexivity. Qed.
Lemma ec_ENot : forall d lr k a, ec d lr k (ENot a) = let '(ca, fa) := ec (S d) lr k a in (ca ++ [mkI OP_NOT []], fa).
Proof. reflexivity. Qed.
Lemma ec_ENeg : forall d lr k a, ec d lr k (ENeg a) = let '(ca, fa) := ec (S d) lr k a in (ca ++ [mkI OP_NEG []], fa).
Proof. reflexivity. Qed.
Lemma ec_ENilOr : forall d lr k a b, ec d lr k (ENilOr a b) =
  let '(ca, fa) := ec (S d) lr k a in
  let '(cb, fb) := ec (S d) lr (k + length fa) b in
  (ca ++ [mkI OP_JMP_NOT_NIL [sN (length cb + 1)]] ++ cb, fa ++ fb).
Proof. reflexivity. Qed.
Lemma ec_EGet : forall d lr k a sp, ec d lr k (EGet a sp) = let '(ca, fa) := ec (S d) lr k a in (ca ++ [mkI OP_UNWRAP [sp]], fa).
Proof. reflexivity. Qed.
Lemma ec_ESelf : forall d lr k l, ec d lr k (ESelf l) =
  let '(ci, cl, fl) := eargs lr (S d) k l in (ci ++ cl ++ [mkI OP_CALL_SELF []], fl).
Proof. intros. cbn [ec]. now rewrite eargs_fix. Qed.

Lemma ec_pure : forall e, pure e = true -> forall d lr k, ec d lr k e = (pcode d e, []).
Proof.
  induction e; intros Hp d lr k; cbn [pure] in Hp; try discriminate; try reflexivity.
  - apply andb_true_iff in Hp as [H1 H2]. rewrite ec_EBin, (IHe1 H1), (IHe2 H2). reflexivity.
  - apply andb_true_iff in Hp as [H1 H2]. rewrite ec_EAnd, (IHe1 H1), (IHe2 H2). reflexivity.
  - apply andb_true_iff in Hp as [H1 H2]. rewrite ec_EOr, (IHe1 H1), (IHe2 H2). reflexivity.
  - rewrite ec_ENot, (IHe Hp). reflexivity.
  - rewrite ec_ENeg, (IHe Hp). reflexivity.
  - apply andb_true_iff in Hp as [H1 H2]. rewrite ec_ENilOr, (IHe1 H1), (IHe2 H2). reflexivity.
  - rewrite ec_EGet, (IHe Hp). reflexivity.
Qed.

Lemma sc_Assign : forall c lr sl k x e, sc c lr sl k (SAssign x e) = let '(ce, fe) := ec c lr k e in (map CI ce ++ [I OP_STORE [x]], fe).
Proof. reflexivity. Qed.
Lemma sc_Modify : forall c lr sl k x e, sc c lr sl k (SModify x e) = let '(ce, fe) := ec c lr k e in (map CI ce ++ [I OP_STORE_OBJECT [x]], fe).
Proof. reflexivity. Qed.
Lemma sc_OpAssign : forall c lr sl k x o e, sc c lr sl k (SOpAssign x o e) =
  let '(ce, fe) := ec (S c) lr k e in (map CI ce ++ [I OP_BIN_OP_ASSIGN [binop_sym o ++ [61%N]; x]; I OP_VOID []], fe).
Proof. reflexivity. Qed.
Lemma sc_Print : forall c lr sl k e, sc c lr sl k (SPrint e) = let '(ce, fe) := ec c lr k e in (map CI ce ++ [I OP_PRINTN [s_star]; I OP_VOID []], fe).
Proof. reflexivity. Qed.
Lemma sc_Assert : forall c lr sl k e sp, sc c lr sl k (SAssert e sp) = let '(ce, fe) := ec c lr k e in (map CI ce ++ [I OP_ASSERT [sp]], fe).
Proof. reflexivity. Qed.
Lemma sc_Expr : forall c lr sl k e, sc c lr sl k (SExpr e) = let '(ce, fe) := ec c lr k e in (map CI ce ++ [I OP_VOID []], fe).
Proof. reflexivity. Qed.
Lemma sc_Return : forall c lr sl k e, sc c lr sl k (SReturn (Some e)) = let '(ce, fe) := ec c lr k e in (map CI ce ++ [I OP_RET []], fe).
Proof. reflexivity. Qed.
Lemma sc_SIf : forall c lr sl k cnd body, sc c lr sl k (SIf cnd body) =
  let '(cc, fc) := ec c lr k cnd in
  let '(cb0, fb) := bc c lr (option_map S sl) (k + length fc) body in
  let cb := cb0 ++ [I OP_DONE []] in
  (map CI cc ++ [I OP_IF_STMT [sN (length cb + 1)]] ++ cb, fc ++ fb).
Proof. intros. cbn [sc]. destruct (ec c lr k cnd) as [cc fc]. now rewrite bc_fix. Qed.
Lemma sc_SIfElse : forall c lr sl k cnd body els, sc c lr sl k (SIfElse cnd body els) =
  let '(cc, fc) := ec c lr k cnd in
  let '(cb0, fb) := bc c lr (option_map S sl) (k + length fc) body in
  let cb := cb0 ++ [I OP_DONE []] in
  let '(ce0, fe) := bc c lr (option_map S sl) (k + length fc + length fb) els in
  let ce := I OP_ELSE_STMT [] :: ce0 ++ [I OP_DONE []] in
  (map CI cc ++ [I OP_IF_STMT [sN (length cb + 2)]] ++ cb ++ [I OP_JMP [sN (length ce + 1)]] ++ ce, fc ++ fb ++ fe).
Proof.
  intros. cbn [sc]. destruct (ec c lr k cnd) as [cc fc]. rewrite bc_fix. destruct (bc c lr (option_map S sl) (k + length fc) body) as [cb0 fb].
  now rewrite bc_fix.
Qed.
Lemma sc_SIfElif : forall c lr sl k cnd body nxt, sc c lr sl k (SIfElif cnd body nxt) =
  let '(cc, fc) := ec c lr k cnd in
  let '(cb0, fb) := bc c lr (option_map S sl) (k + length fc) body in
  let cb := cb0 ++ [I OP_DONE []] in
  let '(ce0, fe) := sc c lr (option_map S sl) (k + length fc + length fb) nxt in
  let ce := I OP_ELSE_STMT [] :: ce0 ++ [I OP_DONE []] in
  (map CI cc ++ [I OP_IF_STMT [sN (length cb + 2)]] ++ cb ++ [I OP_JMP [sN (length ce + 1)]] ++ ce, fc ++ fb ++ fe).
Proof. intros. cbn [sc]. destruct (ec c lr k cnd) as [cc fc]. now rewrite bc_fix. Qed.
Lemma sc_SWhile : forall c lr sl k cnd body, sc c lr sl k (SWhile cnd body) =
  let '(cc, fc) := ec c lr k cnd in
  let '(cb0, fb) := bc c lr (Some 1) (k + length fc) body in
  let cb := cb0 ++ [I OP_JMP_POP [neg_off (1 + length cb0 + length cc)]] in
  (map CI cc ++ [I OP_WHILE_LOOP [sN (length cb + 1)]] ++ resolve (length cb) 0 0 cb, fc ++ fb).
Proof. intros. cbn [sc]. destruct (ec c lr k cnd) as [cc fc]. now rewrite bc_fix. Qed.
Definition stepc (c lr k : nat) (step : option expr) : list instr * fbl :=
  match step with Some e => ec c lr k e | None => ([mkI OP_MAKE_INT [s_one]], []) end.
Lemma sc_SFrom : forall c lr sl k a b incl step name collide body, sc c lr sl k (SFrom a b incl step name collide body) =
  let idn := from_idn lr name in
  let lr1 := from_lr1 lr name in
  let startr := lregn (S lr1) in
  let endr := lregn (S (S lr1)) in
  let '(ca, fa) := ec c lr1 k a in
  let '(cb_, fb) := ec c lr1 (k + length fa) b in
  let cond := [I OP_LOAD_FAST [idn]; I OP_LOAD_FAST [endr]; I OP_BIN_OP [if incl then op_le else op_lt]] in
  let '(cbody, fbd) := bc c (S (S lr1)) (Some 1) (k + length fa + length fb) body in
  let '(cs, fs) := stepc c (S (S lr1)) (k + length fa + length fb + length fbd) step in
  let cstep := map CI cs ++ [I OP_BIN_OP_ASSIGN [[43; 61]%N; idn]] in
  let full0 := cbody ++ cstep in
  let full := full0 ++ [I OP_JMP_POP [neg_off (1 + length cond + length full0)]] in
  (map CI ca ++ [I OP_STORE_FAST [startr]] ++ map CI cb_ ++ [I OP_STORE_FAST [endr]; I OP_LOAD_FAST [startr];
                                                           I (if collide then OP_STORE else OP_STORE_FAST) [idn]] ++ cond
     ++ [I OP_WHILE_LOOP [sN (length full + 1)]] ++ resolve (length full) (length cstep) 0 full
     ++ (if collide then [] else [I OP_DELETE_NAME_SCOPED [idn; startr; endr]]), fa ++ fb ++ fbd ++ fs).
Proof.
  intros. cbn [sc]. destruct (ec c (from_lr1 lr name) k a) as [ca fa]. destruct (ec c (from_lr1 lr name) (k + length fa) b) as [cb_ fb].
  rewrite bc_fix. reflexivity.
Qed.
End Code.

Definition stx (st : cst) (f : fbl) : cst :=
  {| fid := fid st + length f; lreg := lreg st; fbuf := fbuf st ++ map fbe f |}.
Lemma stx_nil : forall st, stx st [] = st.
Proof. intros [f l b]. unfold stx. cbn [fid lreg fbuf length map]. now rewrite Nat.add_0_r, app_nil_r. Qed.
Lemma stx_app : forall st f1 f2, stx (stx st f1) f2 = stx st (f1 ++ f2).
Proof. intros st f1 f2. unfold stx. cbn [fid lreg fbuf]. now rewrite app_length, Nat.add_assoc, map_app, app_assoc. Qed.
Lemma stx_lreg : forall st f, lreg (stx st f) = lreg st.
Proof. reflexivity. Qed.
Lemma stx_fid : forall st f, fid (stx st f) = fid st + length f.
Proof. reflexivity. Qed.

Lemma resolve_map_CI : forall F S l idx, resolve F S idx (map CI l) = map CI l.
Proof. intros F S. induction l as [|i l IH]; intros idx; [reflexivity|]. cbn [map resolve]. now rewrite IH. Qed.
Lemma strip_snoc : forall l it, strip (l ++ [it]) = strip l ++ strip [it].
Proof. intros l it. apply strip_app. Qed.
(* Function::compile looks at the last item: a placeholder is not a ret *)
Lemma strip_ftail : forall its, Forall is_CI its -> strip (ftail its) = tailc (strip its).
Proof.
  intros its H. unfold ftail, ends_in_ret, tailc.
  destruct (rev its) as [|it r] eqn:E.
  - apply (f_equal (@rev citem)) in E. rewrite rev_involutive in E. subst its. reflexivity.
  - apply (f_equal (@rev citem)) in E. rewrite rev_involutive in E. cbn [rev] in E. subst its.
    apply Forall_app in H as [_ H]. pose proof (Forall_inv H) as Hi. destruct it as [i|n|n]; try contradiction.
    rewrite strip_snoc. cbn [strip]. rewrite rev_app_distr. cbn [rev app]. destruct (op i =? OP_RET)%N; reflexivity.
Qed.

Section Comp.
Variable path : str.

Definition comp_e (e : expr) : Prop :=
  forall SF B CD k0, kexpr SF B CD e = Some k0 -> forall d st,
    cexpr path d e st = (map CI (fst (ec path d (lreg st) (fid st) e)), stx st (snd (ec path d (lreg st) (fid st) e))).
Definition comp_s (s : stmt) : Prop :=
  forall SF il B CD r, kstmt SF il B CD s = Some r -> forall c sl st,
    cstmt path c sl s st = (fst (sc path c (lreg st) sl (fid st) s), stx st (snd (sc path c (lreg st) sl (fid st) s))) /\
    (il = false -> Forall is_CI (fst (sc path c (lreg st) sl (fid st) s))).

Lemma comp_pure : forall e, pure e = true -> forall d st,
  cexpr path d e st = (map CI (fst (ec path d (lreg st) (fid st) e)), stx st (snd (ec path d (lreg st) (fid st) e))).
Proof. intros e Hp d st. rewrite (ec_pure path e Hp), (cexpr_pure path e Hp). cbn [fst snd]. now rewrite stx_nil. Qed.

Lemma comp_block : forall l, Forall comp_s l -> forall SF il B CD r, kblock SF il B CD l = Some r -> forall c sl st,
  cblockT path c sl l st = (fst (bc path c (lreg st) sl (fid st) l), stx st (snd (bc path c (lreg st) sl (fid st) l))) /\
  (il = false -> Forall is_CI (fst (bc path c (lreg st) sl (fid st) l))).
Proof.
  induction l as [|s l IH]; intros HF SF il B CD r Hk c sl st.
  - cbn [cblockT bc fst snd]. rewrite stx_nil. split; [reflexivity|constructor].
  - cbn [kblock] in Hk. destruct (kstmt SF il B CD s) as [[B' r1]|] eqn:Es; [|discriminate].
    destruct (kblock SF il B' CD l) as [[B3 r2]|] eqn:El; [|discriminate].
    destruct (Forall_inv HF _ _ _ _ _ Es c sl st) as [E1 C1]. edestruct (IH (Forall_inv_tail HF) _ _ _ _ _ El) as [E2 C2].
    cbn [cblockT]. rewrite bc_cons, E1, E2, !let_pair. cbn [fst snd]. rewrite <- stx_app. split; [reflexivity|].
    intros Hil. apply Forall_app. split; [exact (C1 Hil)|exact (C2 Hil)].
Qed.

Lemma comp_args : forall l, Forall comp_e l -> forall SF B CD ks, kargs SF B CD l = Some ks -> forall j st,
  cargs path j l st = (map CI (fst (fst (eargs path (lreg st) j (fid st) l))), map CI (snd (fst (eargs path (lreg st) j (fid st) l))),
                       stx st (snd (eargs path (lreg st) j (fid st) l))).
Proof.
  induction l as [|a l IH]; intros HF SF B CD ks Hk j st.
  - cbn [cargs eargs fst snd map]. now rewrite stx_nil.
  - cbn [kargs] in Hk. destruct (kexpr SF B CD a) as [k1|] eqn:Ea; [|discriminate].
    destruct (kargs SF B CD l) as [ks'|] eqn:El; [|discriminate].
    cbn [cargs]. rewrite eargs_cons, (Forall_inv HF _ _ _ _ Ea), (IH (Forall_inv_tail HF) _ _ _ _ El), !let_pair. cbn [fst snd].
    rewrite <- stx_app, !map_app. reflexivity.
Qed.

Ltac ci2 := repeat (first [ apply map_CI_all | apply resolve_all_CI | assumption
                          | apply Forall_app; split | apply Forall_cons | apply Forall_nil | exact Logic.I ]).

(* a statement that is an expression followed by instructions *)
Lemma comp_expr_then : forall e, comp_e e -> forall SF B CD, kexpr SF B CD e <> None -> forall d st tl (Q : Prop), Forall is_CI tl ->
  (let '(ce, st) := cexpr path d e st in (ce ++ tl, st)) =
    (fst (let '(ce, fe) := ec path d (lreg st) (fid st) e in (map CI ce ++ tl, fe)),
     stx st (snd (let '(ce, fe) := ec path d (lreg st) (fid st) e in (map CI ce ++ tl, fe)))) /\
  (Q -> Forall is_CI (fst (let '(ce, fe) := ec path d (lreg st) (fid st) e in (map CI ce ++ tl, fe)))).
Proof.
  intros e IHe SF B CD Hk d st tl Q Htl. destruct (kexpr SF B CD e) as [k|] eqn:Ee; [|congruence].
  rewrite (IHe _ _ _ _ Ee), !let_pair. split; [reflexivity|intros _; ci2].
Qed.
Lemma comp_leaf : forall st (its : list citem), (its, st) = (its, stx st []).
Proof. intros. now rewrite stx_nil. Qed.

Lemma comp_stepc : forall SF B CD body step, kstep SF B CD body step = true -> forall c st,
  match step with Some e => cexpr path c e st | None => ([I OP_MAKE_INT [s_one]], st) end =
  (map CI (fst (stepc path c (lreg st) (fid st) step)), stx st (snd (stepc path c (lreg st) (fid st) step))).
Proof.
  intros SF B CD body [e|] Hk c st; cbn [stepc kstep] in *.
  - apply andb_true_iff in Hk as [Ho _]. exact (comp_pure e (ok_dexpr_pure _ _ _ Ho) c st).
  - cbn [fst snd map]. now rewrite stx_nil.
Qed.

(* the state of the code generator once the counter of a from loop is chosen (an anonymous one takes a loop register) *)
Lemma from_head : forall (st : cst) name,
  match name with
  | Some x => (x, st)
  | None => (lregn (S (lreg st)), {| fid := fid st; lreg := S (lreg st); fbuf := fbuf st |}) end =
  (from_idn (lreg st) name, {| fid := fid st; lreg := from_lr1 (lreg st) name; fbuf := fbuf st |}).
Proof. intros [k lr fb] [x|]; reflexivity. Qed.
Lemma stx_one : forall st n cc code, stx st [(n, cc, code)] = {| fid := S (fid st); lreg := lreg st; fbuf := fbuf st ++ [(n, code)] |}.
Proof. intros. unfold stx. cbn [length map fbe fst snd]. now rewrite Nat.add_1_r. Qed.
(* the code of a statement occurs three times in comp_s: it is named once *)
Lemma named_code : forall (m : list citem * cst) st (p : list citem * fbl) (Q : Prop),
  (forall its f, p = (its, f) -> m = (its, stx st f) /\ (Q -> Forall is_CI its)) ->
  m = (fst p, stx st (snd p)) /\ (Q -> Forall is_CI (fst p)).
Proof. intros m st [its f] Q H. exact (H its f eq_refl). Qed.

(* Every case: the equation of the code generator, the induction hypotheses of the parts from left to right (each leaves
   the state stx st f of the next part), the equation of ec / sc, and projections instead of the destructuring lets (let_pair). *)
Theorem comp_both : (forall e, comp_e e) /\ (forall s, comp_s s).
Proof.
  apply expr_stmt_ind'; unfold comp_e, comp_s.
  all: try (intros; apply comp_pure; reflexivity).
  - intros o a b IHa IHb SF B CD k0 Hk d st. destruct (kexpr_inv _ _ _ _ _ Hk) as [Hp|[Ea Eb]]; [now apply comp_pure|].
    rewrite cexpr_EBin, (IHa _ _ _ _ Ea), (IHb _ _ _ _ Eb), ec_EBin, !let_pair. cbn [fst snd]. rewrite <- stx_app, I_op_instr, !map_app. reflexivity.
  - intros a b IHa IHb SF B CD k0 Hk d st. destruct (kexpr_inv _ _ _ _ _ Hk) as [Hp|[Ea Eb]]; [now apply comp_pure|].
    rewrite cexpr_EAnd, (IHa _ _ _ _ Ea), (IHb _ _ _ _ Eb), ec_EAnd, !let_pair. cbn [fst snd]. rewrite <- stx_app, !map_app, map_length. reflexivity.
  - intros a b IHa IHb SF B CD k0 Hk d st. destruct (kexpr_inv _ _ _ _ _ Hk) as [Hp|[Ea Eb]]; [now apply comp_pure|].
    rewrite cexpr_EOr, (IHa _ _ _ _ Ea), (IHb _ _ _ _ Eb), ec_EOr, !let_pair. cbn [fst snd]. rewrite <- stx_app, !map_app, map_length. reflexivity.
  - intros a IHa SF B CD k0 Hk d st. destruct (kexpr_inv _ _ _ _ _ Hk) as [Hp|Ea]; [now apply comp_pure|].
    rewrite cexpr_ENot, (IHa _ _ _ _ Ea), ec_ENot, let_pair. cbn [fst snd]. now rewrite map_app.
  - intros a IHa SF B CD k0 Hk d st. destruct (kexpr_inv _ _ _ _ _ Hk) as [Hp|Ea]; [now apply comp_pure|].
    rewrite cexpr_ENeg, (IHa _ _ _ _ Ea), ec_ENeg, let_pair. cbn [fst snd]. now rewrite map_app.
  - intros f l _ IHl SF B CD k0 Hk d st. rewrite kexpr_eq, ok_dexpr_impure in Hk by reflexivity.
    destruct f as [| | | |g| | | | | | | | | |]; try discriminate.
    destruct (src_nameb g); [|discriminate]. destruct (kvar B CD g) as [[|pk r|]|]; try discriminate.
    destruct (kargs SF B CD l) as [ks|] eqn:El; [|discriminate].
    rewrite cexpr_ECall, ec_ECall. cbn [cexpr]. rewrite (comp_args l IHl _ _ _ _ El), !let_pair. cbn [fst snd]. rewrite !map_app. reflexivity.
  - intros l IHl SF B CD k0 Hk d st. rewrite kexpr_eq, ok_dexpr_impure in Hk by reflexivity.
    destruct SF as [[pk r]|] eqn:ESF; [|discriminate]. rewrite <- ESF in *. destruct (kargs SF B CD l) as [ks|] eqn:El; [|discriminate].
    rewrite cexpr_ESelf, ec_ESelf, (comp_args l IHl _ _ _ _ El), !let_pair. cbn [fst snd]. rewrite !map_app. reflexivity.
  - intros ps body IHb SF B CD k0 Hk d st. rewrite kexpr_eq, ok_dexpr_impure in Hk by reflexivity.
    unfold kfn in Hk. destruct (capctx B CD (free_vars ps body)) as [G|]; [|discriminate].
    destruct (kblock (Some (map (pkind body) ps, KD)) false (rev (combine ps (map (pkind body) ps))) G body) as [[B' rets]|] eqn:Eb; [|discriminate].
    destruct (comp_block body IHb _ _ _ _ _ Eb (S d) None st) as [E1 C1].
    rewrite cexpr_EFn_eq, E1, ec_EFn. cbn [fst snd]. cbv zeta. rewrite <- stx_app, stx_one. unfold fcode.
    rewrite !strip_app, strip_map_CI, (strip_ftail _ (C1 eq_refl)). reflexivity.
  - intros a b IHa IHb SF B CD k0 Hk d st. destruct (kexpr_inv _ _ _ _ _ Hk) as [Hp|[Ea Eb]]; [now apply comp_pure|].
    rewrite cexpr_ENilOr, (IHa _ _ _ _ Ea), (IHb _ _ _ _ Eb), ec_ENilOr, !let_pair. cbn [fst snd]. rewrite <- stx_app, !map_app, map_length. reflexivity.
  - intros a sp IHa SF B CD k0 Hk d st. destruct (kexpr_inv _ _ _ _ _ Hk) as [Hp|Ea]; [now apply comp_pure|].
    rewrite cexpr_EGet, (IHa _ _ _ _ Ea), ec_EGet, let_pair. cbn [fst snd]. now rewrite map_app.
  - intros x e IHe SF il B CD r Hk c sl st. exact (comp_expr_then e IHe _ _ _ (kstmt_expr _ _ _ _ _ _ Hk) c st [I OP_STORE [x]] _ ltac:(ci2)).
  - intros x e IHe SF il B CD r Hk c sl st. exact (comp_expr_then e IHe _ _ _ (kstmt_expr _ _ _ _ _ _ Hk) c st [I OP_STORE_OBJECT [x]] _ ltac:(ci2)).
  - intros x o e IHe SF il B CD r Hk c sl st.
    exact (comp_expr_then e IHe _ _ _ (kstmt_expr _ _ _ _ _ _ Hk) (S c) st [I OP_BIN_OP_ASSIGN [binop_sym o ++ [61%N]; x]; I OP_VOID []] _ ltac:(ci2)).
  - intros e IHe SF il B CD r Hk c sl st. exact (comp_expr_then e IHe _ _ _ (kstmt_expr _ _ _ _ _ _ Hk) c st [I OP_PRINTN [s_star]; I OP_VOID []] _ ltac:(ci2)).
  - intros e sp IHe SF il B CD r Hk c sl st. exact (comp_expr_then e IHe _ _ _ (kstmt_expr _ _ _ _ _ _ Hk) c st [I OP_ASSERT [sp]] _ ltac:(ci2)).
  - intros e IHe SF il B CD r Hk c sl st. exact (comp_expr_then e IHe _ _ _ (kstmt_expr _ _ _ _ _ _ Hk) c st [I OP_VOID []] _ ltac:(ci2)).
  - intros cnd body IHc IHb SF il B CD r Hk c sl st. rewrite kstmt_SIf in Hk.
    destruct (kexpr SF B CD cnd) as [[| |]|] eqn:Ec; try discriminate. destruct (kblock SF il B CD body) as [[B' rb]|] eqn:Eb; [|discriminate].
    edestruct (comp_block body IHb _ _ _ _ _ Eb) as [E1 C1].
    rewrite cstmt_SIf, (IHc _ _ _ _ Ec), E1, sc_SIf, !let_pair. cbn [fst snd]. rewrite <- stx_app.
    split; [reflexivity|]. intros Hil. specialize (C1 Hil). ci2.
  - intros cnd body els IHc IHb IHe SF il B CD r Hk c sl st. rewrite kstmt_SIfElse in Hk.
    destruct (kexpr SF B CD cnd) as [[| |]|] eqn:Ec; try discriminate. destruct (kblock SF il B CD body) as [[B' rb]|] eqn:Eb; [|discriminate].
    destruct (kblock SF il B CD els) as [[B2 re]|] eqn:Ee; [|discriminate].
    edestruct (comp_block body IHb _ _ _ _ _ Eb) as [E1 C1]. edestruct (comp_block els IHe _ _ _ _ _ Ee) as [E2 C2].
    rewrite cstmt_SIfElse, (IHc _ _ _ _ Ec), E1, E2, sc_SIfElse, !let_pair. cbn [fst snd]. rewrite <- !stx_app.
    split; [reflexivity|]. intros Hil. specialize (C1 Hil). specialize (C2 Hil). ci2.
  - intros cnd body nxt IHc IHb IHn SF il B CD r Hk c sl st. rewrite kstmt_SIfElif in Hk.
    destruct (kexpr SF B CD cnd) as [[| |]|] eqn:Ec; try discriminate. destruct (kblock SF il B CD body) as [[B' rb]|] eqn:Eb; [|discriminate].
    destruct (kstmt SF il B CD nxt) as [[B2 re]|] eqn:Ee; [|discriminate].
    edestruct (comp_block body IHb _ _ _ _ _ Eb) as [E1 C1]. edestruct (IHn _ _ _ _ _ Ee) as [E2 C2].
    rewrite cstmt_SIfElif, (IHc _ _ _ _ Ec), E1, E2, sc_SIfElif, !let_pair. cbn [fst snd]. rewrite <- !stx_app.
    split; [reflexivity|]. intros Hil. specialize (C1 Hil). specialize (C2 Hil). ci2.
  - intros cnd body IHc IHb SF il B CD r Hk c sl st. rewrite kstmt_SWhile in Hk.
    destruct (kexpr SF B CD cnd) as [[| |]|] eqn:Ec; try discriminate. destruct (kblock SF true B CD body) as [[B' rb]|] eqn:Eb; [|discriminate].
    edestruct (comp_block body IHb _ _ _ _ _ Eb) as [E1 _].
    rewrite cstmt_SWhile, (IHc _ _ _ _ Ec), E1, sc_SWhile, !let_pair. cbn [fst snd]. rewrite <- stx_app, !map_length.
    split; [reflexivity|]. intros _. ci2.
  - (* SFrom: four parts, each used many times: their results are named as they come *)
    intros a b incl step name collide body IHa IHb _ IHbody SF il B CD [B' rets] Hk c sl st.
    destruct (kstmt_SFrom_inv _ _ _ _ _ _ _ _ _ _ _ _ _ Hk) as (_ & Ea & Eb & Hks & [B1 Ebody] & _).
    apply named_code. intros its f E. rewrite sc_SFrom in E.
    rewrite cstmt_SFrom, from_head, (IHa _ _ _ _ Ea). cbn [lreg fid]. destruct (ec path c _ _ a) as [ca fa] eqn:E1. cbn [fst snd].
    rewrite (IHb _ _ _ _ Eb), ?stx_lreg, ?stx_fid. cbn [lreg fid]. destruct (ec path c _ _ b) as [cb fb] eqn:E2. cbn [fst snd]. cbv zeta.
    edestruct (comp_block body IHbody _ _ _ _ _ Ebody) as [E3 _]. rewrite E3. clear E3. cbn [lreg fid]. rewrite ?stx_lreg, ?stx_fid. cbn [lreg fid].
    destruct (bc path c _ _ _ body) as [cbody fbd] eqn:E3. cbn [fst snd].
    rewrite (comp_stepc _ _ _ _ _ Hks), ?stx_lreg, ?stx_fid. cbn [lreg fid]. destruct (stepc path c _ _ step) as [cs fs] eqn:E4. cbn [fst snd].
    cbv zeta in E. rewrite E1, E2, E3, E4 in E. injection E as <- <-.
    split; [|intros _; destruct collide; ci2]. f_equal.
    rewrite <- !stx_app. unfold stx. cbn [fid lreg fbuf]. f_equal. destruct name; cbn [from_lr1]; lia.
  - intros SF il B CD r Hk c sl st. cbn [kstmt] in Hk. destruct il; [|discriminate]. split; [exact (comp_leaf st [CBrk (sln sl)])|discriminate].
  - intros SF il B CD r Hk c sl st. cbn [kstmt] in Hk. destruct il; [|discriminate]. split; [exact (comp_leaf st [CCont (sln sl)])|discriminate].
  - intros [e|] IHe SF il B CD r Hk c sl st.
    + exact (comp_expr_then e (IHe e eq_refl) _ _ _ (kstmt_expr _ _ _ _ _ _ Hk) c st [I OP_RET []] _ ltac:(ci2)).
    + split; [exact (comp_leaf st [I OP_RET []])|intros _; cbn [sc fst]; ci2].
Qed.
End Comp.
