(* Two facts about the reference semantics (Lang/Eval.v) alone.
   eval_env_irrel: an expression without function literals only looks at the cells of its variables and at the executing
   function (the values of calls do not depend on the caller's scopes), so an extra innermost scope that binds none of its
   variables is not seen.
   exec_K: a statement leaves the bindings of a name it does not assign as they are, scope by scope.  The step expression of a
   `from` loop needs it: the VM evaluates the step in the frame of the body, the reference semantics outside the scope of the
   body, and a captured variable the step reads must be found in the captured cell by both. *)
From Coq Require Import List Arith ZArith Lia Bool.
Import ListNotations.
From MS Require Import Base.Str Vm.Model Lang.Syntax Lang.Eval Compile.Compile Compile.ExprBase Compile.ExprSim.
From MS Require Import Compile.StmtMach Compile.StmtRel Compile.StmtFrag Compile.StmtSim Compile.ClosFrag.
Open Scope nat_scope.

Fixpoint used_l (l : list expr) : list str := match l with [] => [] | a :: l => used_e a ++ used_l l end.
Lemma used_e_ECall : forall f l, used_e (ECall f l) = used_e f ++ used_l l.
Proof. reflexivity. Qed.
Lemma used_e_ESelf : forall l, used_e (ESelf l) = used_l l.
Proof. reflexivity. Qed.
Lemma noefn_ECall : forall f l, noefn (ECall f l) = noefn f && forallb noefn l.
Proof. reflexivity. Qed.
Lemma noefn_ESelf : forall l, noefn (ESelf l) = forallb noefn l.
Proof. reflexivity. Qed.

Definition same_vars (env env' : fenv) (xs : list str) : Prop :=
  forall x, In x xs -> lookup_scopes x (locals env' ++ captured env') = lookup_scopes x (locals env ++ captured env).

Lemma eval_env_irrel : forall fuel e env env' s, noefn e = true -> cur env' = cur env -> same_vars env env' (used_e e) ->
  eval fuel env' e s = eval fuel env e s.
Proof.
  induction fuel as [|fuel IH]; intros e env env' s Hn Hc Hv; [reflexivity|].
  assert (Hl : forall l, forallb noefn l = true -> same_vars env env' (used_l l) -> forall s acc, evals_ fuel env' l s acc = evals_ fuel env l s acc).
  { induction l as [|a l IHl]; intros Hnl Hvl s0 acc; [reflexivity|]. cbn [forallb] in Hnl. apply andb_true_iff in Hnl as [Hna Hnl].
    cbn [evals_]. rewrite (IH a env env' s0 Hna Hc) by (intros x Hx; apply Hvl; cbn [used_l]; apply in_or_app; now left).
    destruct (eval fuel env a s0) as [v s1|s1|f s1|]; try reflexivity. apply IHl; [exact Hnl|]. intros x Hx. apply Hvl. cbn [used_l]. apply in_or_app. now right. }
  assert (H2 : forall a b, noefn a && noefn b = true -> same_vars env env' (used_e a ++ used_e b) ->
            (forall s0, eval fuel env' a s0 = eval fuel env a s0) /\ (forall s0, eval fuel env' b s0 = eval fuel env b s0)).
  { intros a b Hab Hvab. apply andb_true_iff in Hab as [Ha Hb]. split; intros s0; apply IH; try assumption;
      intros x Hx; apply Hvab; apply in_or_app; [now left|now right]. }
  destruct e as [z|bb|t| |x|o a b|a b|a b|a|a|f l|l|ps body|a b|a sp]; try reflexivity.
  - rewrite !eval_EVar. rewrite (Hv x (or_introl eq_refl)). reflexivity.
  - cbn [noefn used_e] in Hn, Hv. destruct (H2 a b Hn Hv) as [Ea Eb]. rewrite !eval_EBin, Ea. destruct (eval fuel env a s) as [va s1|s1|f s1|]; try reflexivity. now rewrite Eb.
  - cbn [noefn used_e] in Hn, Hv. destruct (H2 a b Hn Hv) as [Ea Eb]. rewrite !eval_EAnd, Ea. destruct (eval fuel env a s) as [[?|[|]|?| |? ? ?] s1|s1|f s1|]; try reflexivity. now rewrite Eb.
  - cbn [noefn used_e] in Hn, Hv. destruct (H2 a b Hn Hv) as [Ea Eb]. rewrite !eval_EOr, Ea. destruct (eval fuel env a s) as [[?|[|]|?| |? ? ?] s1|s1|f s1|]; try reflexivity. now rewrite Eb.
  - cbn [noefn used_e] in Hn, Hv. rewrite !eval_ENot, (IH a env env' s Hn Hc Hv). reflexivity.
  - cbn [noefn used_e] in Hn, Hv. rewrite !eval_ENeg, (IH a env env' s Hn Hc Hv). reflexivity.
  - rewrite noefn_ECall in Hn. apply andb_true_iff in Hn as [Hf Hnl]. rewrite used_e_ECall in Hv.
    rewrite !eval_ECall. rewrite (IH f env env' s Hf Hc) by (intros x Hx; apply Hv; apply in_or_app; now left).
    destruct (eval fuel env f s) as [vf s1|s1|fl s1|]; try reflexivity.
    rewrite (Hl l Hnl) by (intros x Hx; apply Hv; apply in_or_app; now right). reflexivity.
  - rewrite noefn_ESelf in Hn. rewrite used_e_ESelf in Hv. rewrite !eval_ESelf, (Hl l Hn Hv), Hc. reflexivity.
  - discriminate Hn.
  - cbn [noefn used_e] in Hn, Hv. destruct (H2 a b Hn Hv) as [Ea Eb]. rewrite !eval_ENilOr, Ea. destruct (eval fuel env a s) as [[?|?|?| |? ? ?] s1|s1|f s1|]; try reflexivity. now rewrite Eb.
  - cbn [noefn used_e] in Hn, Hv. rewrite !eval_EGet, (IH a env env' s Hn Hc Hv). reflexivity.
Qed.

Definition ky (y : str) (sc : scope) : scope := filter (fun p => str_eqb (fst p) y) sc.
Definition K (y : str) (env env' : fenv) : Prop := map (ky y) (locals env') = map (ky y) (locals env).
Lemma K_refl : forall y env, K y env env.
Proof. reflexivity. Qed.
Lemma K_trans : forall y e1 e2 e3, K y e1 e2 -> K y e2 e3 -> K y e1 e3.
Proof. unfold K. intros. congruence. Qed.
Lemma assoc_ky : forall y sc, assoc y sc = match ky y sc with [] => None | p :: _ => Some (snd p) end.
Proof.
  intros y sc. induction sc as [|[k c] t IH]; [reflexivity|]. cbn [ky filter fst assoc]. destruct (str_eqb k y); [reflexivity|exact IH].
Qed.
Lemma ky_nil_assoc : forall y sc, assoc y sc = None -> ky y sc = [].
Proof. intros y sc H. rewrite assoc_ky in H. destruct (ky y sc); [reflexivity|discriminate]. Qed.
Lemma lookup_ky : forall y l l', map (ky y) l' = map (ky y) l -> lookup_scopes y l' = lookup_scopes y l.
Proof.
  intros y l. induction l as [|sc l IH]; intros [|sc' l'] H; try discriminate; [reflexivity|]. cbn [map] in H. inversion H as [[H1 H2]].
  cbn [lookup_scopes]. rewrite !assoc_ky, H1, (IH _ H2). reflexivity.
Qed.
Lemma K_look : forall y e e', K y e e' -> lookup_scopes y (locals e') = lookup_scopes y (locals e).
Proof. intros y e e' H. exact (lookup_ky _ _ _ H). Qed.
Lemma K_tl : forall y e e', K y e e' -> map (ky y) (tl (locals e')) = map (ky y) (tl (locals e)).
Proof. unfold K. intros y e e' H. destruct (locals e) as [|a l], (locals e') as [|a' l']; try discriminate; [reflexivity|]. cbn [map] in H. now inversion H. Qed.
Lemma K_hd : forall y e e', K y e e' -> ky y (hd [] (locals e')) = ky y (hd [] (locals e)).
Proof. unfold K. intros y e e' H. destruct (locals e) as [|a l], (locals e') as [|a' l']; try discriminate; [reflexivity|]. cbn [map] in H. now inversion H. Qed.
Lemma K_ne : forall y e e', K y e e' -> locals e <> [] -> locals e' <> [].
Proof. unfold K. intros y e e' H Hn E. rewrite E in H. destruct (locals e); [congruence|discriminate]. Qed.
Lemma ky_set_other : forall y x c sc, y <> x -> ky y (assoc_set x c sc) = ky y sc.
Proof.
  intros y x c sc Hne. induction sc as [|[k v] t IH]; cbn [assoc_set ky filter fst].
  - rewrite str_eqb_neq by congruence. reflexivity.
  - destruct (str_eqb k x) eqn:E; cbn [filter fst].
    + apply str_eqb_eq in E. subst k. rewrite str_eqb_neq by congruence. reflexivity.
    + fold (ky y (assoc_set x c t)). fold (ky y t). now rewrite IH.
Qed.
Lemma ky_set_new : forall y c sc, ky y sc = [] -> ky y (assoc_set y c sc) = [(y, c)].
Proof.
  intros y c sc. induction sc as [|[k v] t IH]; intros H; cbn [assoc_set ky filter fst].
  - now rewrite str_eqb_refl.
  - cbn [ky filter fst] in H. destruct (str_eqb k y) eqn:E; [discriminate|]. cbn [filter fst]. rewrite E. exact (IH H).
Qed.
Lemma ky_del_other : forall y x sc, y <> x -> ky y (assoc_del x sc) = ky y sc.
Proof.
  intros y x sc Hne. induction sc as [|[k v] t IH]; [reflexivity|]. cbn [assoc_del].
  destruct (str_eqb k x) eqn:E.
  - apply str_eqb_eq in E. subst k. cbn [ky filter fst]. rewrite str_eqb_neq by congruence. reflexivity.
  - cbn [ky filter fst]. fold (ky y (assoc_del x t)). fold (ky y t). now rewrite IH.
Qed.
Lemma ky_del_same : forall y sc, ky y (assoc_del y sc) = tl (ky y sc).
Proof.
  intros y sc. induction sc as [|[k v] t IH]; [reflexivity|]. cbn [assoc_del ky filter fst].
  destruct (str_eqb k y) eqn:E; [reflexivity|]. cbn [filter fst]. rewrite E. exact IH.
Qed.
Lemma K_declare : forall env s x v y, y <> x -> locals env <> [] -> K y env (fst (declare env s x v)).
Proof.
  intros env s x v y Hne Hl. unfold declare, K. destruct (alloc s v) as [s1 c]. destruct (locals env) as [|sc r] eqn:El; [congruence|].
  cbn [fst locals map]. now rewrite ky_set_other.
Qed.
Lemma K_assign : forall env s x v y, y <> x -> locals env <> [] -> K y env (fst (assign env s x v)).
Proof. intros env s x v y Hne Hl. unfold assign. destruct (lookup_scopes x (locals env)); [apply K_refl|now apply K_declare]. Qed.
Lemma K_block : forall y e e', K y (push_scope e) e' -> K y e (pop_scope e').
Proof. intros y e e' H. exact (K_tl _ _ _ H). Qed.

Lemma asgl_cons : forall st l, asgl (st :: l) = asg st ++ asgl l.
Proof. reflexivity. Qed.

(* Pre: the invariant of exec_K at a statement that may bind `names` (asg); PreB: at a block about to get a scope of its own *)
Definition Rk (y : str) (env : fenv) : Prop := ky y (hd [] (locals env)) = [] /\ lookup_scopes y (tl (locals env)) <> None.
Definition Uk (y : str) (env : fenv) : Prop := lookup_scopes y (locals env) = None /\ locals env <> [].
Definition Pre (y : str) (env : fenv) (names : list str) : Prop := Rk y env \/ (Uk y env /\ ~ In y names).
Definition PreB (y : str) (env : fenv) (names : list str) : Prop := lookup_scopes y (locals env) <> None \/ (Uk y env /\ ~ In y names).
Lemma Rk_K : forall y e e', K y e e' -> Rk y e -> Rk y e'.
Proof. intros y e e' H [H1 H2]. split; [now rewrite (K_hd _ _ _ H)|]. now rewrite (lookup_ky _ _ _ (K_tl _ _ _ H)). Qed.
Lemma Uk_K : forall y e e', K y e e' -> Uk y e -> Uk y e'.
Proof. intros y e e' H [H1 H2]. split; [now rewrite (K_look _ _ _ H)|exact (K_ne _ _ _ H H2)]. Qed.
Lemma Pre_K : forall y e e' ns, K y e e' -> Pre y e ns -> Pre y e' ns.
Proof. intros y e e' ns H [HR|[HU Hn]]; [left; exact (Rk_K _ _ _ H HR)|right; split; [exact (Uk_K _ _ _ H HU)|exact Hn]]. Qed.
Lemma PreB_K : forall y e e' ns, K y e e' -> PreB y e ns -> PreB y e' ns.
Proof. intros y e e' ns H [HR|[HU Hn]]; [left; now rewrite (K_look _ _ _ H)|right; split; [exact (Uk_K _ _ _ H HU)|exact Hn]]. Qed.
Lemma Rk_bound : forall y e, Rk y e -> lookup_scopes y (locals e) <> None.
Proof.
  intros y e [H1 H2]. destruct (locals e) as [|sc r]; [exact H2|]. cbn [hd tl lookup_scopes] in *. rewrite assoc_ky, H1. exact H2.
Qed.
Lemma Pre_ne : forall y e ns, Pre y e ns -> locals e <> [].
Proof. intros y e ns [[_ H]|[[_ H] _]]; [|exact H]. intros E. rewrite E in H. now apply H. Qed.
Lemma Pre_top : forall y e ns, Pre y e ns -> ky y (hd [] (locals e)) = [].
Proof.
  intros y e ns [[H _]|[[H _] _]]; [exact H|]. destruct (locals e) as [|sc r]; [reflexivity|]. cbn [hd lookup_scopes] in *.
  apply ky_nil_assoc. now destruct (assoc y sc).
Qed.
Lemma Pre_PreB : forall y e ns ns', Pre y e ns -> (In y ns' -> In y ns) -> PreB y e ns'.
Proof. intros y e ns ns' [HR|[HU Hn]] Hs; [left; exact (Rk_bound _ _ HR)|right; split; [exact HU|intros Hi; exact (Hn (Hs Hi))]]. Qed.
Lemma PreB_push : forall y e ns, PreB y e ns -> Pre y (push_scope e) ns.
Proof.
  intros y e ns [HR|[[H1 H2] Hn]]; [left; split; [reflexivity|exact HR]|right]. split; [|exact Hn]. split; [exact H1|discriminate].
Qed.

Lemma K_assign_pre : forall y env s x v names, Pre y env names -> (y = x -> In y names) -> K y env (fst (assign env s x v)).
Proof.
  intros y env s x v names HP Hin. destruct (list_eq_dec N.eq_dec y x) as [<-|Hne]; [|exact (K_assign _ _ _ _ _ Hne (Pre_ne _ _ _ HP))].
  destruct HP as [HR|[_ Hn]]; [|destruct (Hn (Hin eq_refl))].
  unfold assign. pose proof (Rk_bound _ _ HR) as Hb. destruct (lookup_scopes y (locals env)); [apply K_refl|congruence].
Qed.

(* H : a nest of matches = SOk sig env' s', each successful branch of which returns the environment it was given *)
Ltac K_same H :=
  repeat match type of H with
         | match ?x with _ => _ end = _ => destruct x; try discriminate H
         end;
  inversion H; subst; apply K_refl.

Lemma in_block_K : forall y fuel,
  (forall env l s sig env' s', exec_block fuel env l s = SOk sig env' s' -> Pre y env (asgl l) -> K y env env') ->
  forall body env s sig env' s', in_block_ fuel body env s = SOk sig env' s' -> PreB y env (asgl body) -> K y env env'.
Proof.
  intros y fuel IHb body env s sig env' s' H HP. unfold in_block_ in H.
  destruct (exec_block fuel (push_scope env) body s) as [g e1 s1|f s1|] eqn:E; try discriminate. inversion H; subst.
  apply K_block. exact (IHb _ _ _ _ _ _ E (PreB_push _ _ _ HP)).
Qed.

Lemma from_iter_inv : forall fuel incl hi step cname collide body n e s sig env' s',
  from_iter fuel incl hi step cname collide body (S n) e s = SOk sig env' s' ->
  env' = (if collide then e else undeclare e cname) \/
  exists g e1 s1, in_block_ fuel body e s = SOk g e1 s1 /\
    (env' = (if collide then e1 else undeclare e1 cname) \/
     exists s2, from_iter fuel incl hi step cname collide body n e1 s2 = SOk sig env' s').
Proof.
  intros fuel incl hi step cname collide body n e s sig env' s' H. rewrite from_iter_S in H.
  destruct (lookup_scopes cname (locals e)) as [c|]; try discriminate. destruct (sget s c) as [[i|?|?| |? ? ?]|]; try discriminate.
  destruct (if incl then (i <=? hi)%Z else (i <? hi)%Z); [|inversion H; now left].
  destruct (in_block_ fuel body e s) as [g e1 s1|f s1|]; try discriminate. right. exists g, e1, s1. split; [reflexivity|].
  destruct g as [| | |v]; try (inversion H; now left); right; cbv zeta in H;
    (destruct step as [se|]; [destruct (eval fuel e1 se s1) as [sv s2|s2|f s2|]; try discriminate|]);
    (destruct (sget _ c) as [[i'|?|?| |? ? ?]|]; try discriminate); try (destruct sv as [d|?|?| |? ? ?]; try discriminate);
    (destruct (i32_ok _); [eauto|discriminate]).
Qed.

Lemma from_iter_K : forall y fuel incl hi step cname collide body sig env' s',
  (forall env s sig env' s', in_block_ fuel body env s = SOk sig env' s' -> PreB y env (asgl body) -> K y env env') ->
  forall n e0 s0, PreB y e0 (asgl body) -> from_iter fuel incl hi step cname collide body n e0 s0 = SOk sig env' s' ->
  exists en, K y e0 en /\ env' = (if collide then en else undeclare en cname).
Proof.
  intros y fuel incl hi step cname collide body sig env' s' Hib. induction n as [|n IHn]; intros e0 s0 HP0 H0; [discriminate|].
  apply from_iter_inv in H0 as [->|(g & e1 & s1 & E & H1)]; [exists e0; split; [apply K_refl|reflexivity]|].
  pose proof (Hib _ _ _ _ _ E HP0) as K1. destruct H1 as [->|[s2 H2]]; [exists e1; split; [exact K1|reflexivity]|].
  destruct (IHn _ _ (PreB_K _ _ _ _ K1 HP0) H2) as (en & Kn & En). exists en. split; [eapply K_trans; eassumption|exact En].
Qed.

Lemma exec_K : forall y, y <> hid -> forall fuel,
  (forall env st s sig env' s', Eval.exec fuel env st s = SOk sig env' s' -> Pre y env (asg st) -> K y env env') /\
  (forall env l s sig env' s', exec_block fuel env l s = SOk sig env' s' -> Pre y env (asgl l) -> K y env env').
Proof.
  intros y Hh. induction fuel as [|fuel [IHs IHb]]; [split; intros; discriminate|].
  pose proof (in_block_K y fuel IHb) as Hib.
  split.
  - intros env st s sig env' s' H HP.
    destruct st as [x e|x e|x o e|e|e sp|e|c body|c body els|c body nxt|c body|a b incl step nm collide body| | |[e|]].
    + rewrite exec_SAssign in H. destruct (eval fuel env e s) as [v s1|s1|f s1|]; try discriminate.
      pose proof (K_assign_pre y env s1 x v _ HP (fun E => or_introl (eq_sym E))) as K0.
      destruct (assign env s1 x v) as [e1 s2]. inversion H; subst. exact K0.
    + change (Eval.exec (S fuel) env (SModify x e) s) with
        (match eval fuel env e s with
         | EVal v s => match lookup_scopes x (captured env) with
                       | Some c => SOk SigNormal env (sset s c v) | None => SFailed (FUnbound x) s end
         | ENoVal s => SFailed (FType 3) s | EFail f s => SFailed f s | EFuel => SFuel end) in H.
      K_same H.
    + rewrite exec_SOpAssign in H. K_same H.
    + rewrite exec_SPrint in H. K_same H.
    + rewrite exec_SAssert in H. K_same H.
    + rewrite exec_SExpr in H. K_same H.
    + rewrite exec_SIf in H. destruct (eval fuel env c s) as [[?|[|]|?| |? ? ?] s1|s1|f s1|]; try discriminate.
      * apply (Hib _ _ _ _ _ _ H). apply (Pre_PreB _ _ _ _ HP). intros Hz. exact Hz.
      * inversion H; subst. apply K_refl.
    + rewrite exec_SIfElse in H. cbn [asg] in HP. destruct (eval fuel env c s) as [[?|[|]|?| |? ? ?] s1|s1|f s1|]; try discriminate.
      * apply (Hib _ _ _ _ _ _ H). apply (Pre_PreB _ _ _ _ HP). intros Hz. apply in_or_app. now left.
      * apply (Hib _ _ _ _ _ _ H). apply (Pre_PreB _ _ _ _ HP). intros Hz. apply in_or_app. now right.
    + rewrite exec_SIfElif in H. cbn [asg] in HP. destruct (eval fuel env c s) as [[?|[|]|?| |? ? ?] s1|s1|f s1|]; try discriminate.
      * apply (Hib _ _ _ _ _ _ H). apply (Pre_PreB _ _ _ _ HP). intros Hz. apply in_or_app. now left.
      * apply (Hib _ _ _ _ _ _ H). apply (Pre_PreB _ _ _ _ HP). intros Hz. apply in_or_app. right.
        unfold asgl in Hz. cbn [flat_map] in Hz. now rewrite app_nil_r in Hz.
    + rewrite exec_SWhile in H. destruct (eval fuel env c s) as [[?|[|]|?| |? ? ?] s1|s1|f s1|]; try discriminate.
      * destruct (in_block_ fuel body env s1) as [g e1 s2|f s2|] eqn:E; try discriminate.
        pose proof (Hib _ _ _ _ _ _ E (Pre_PreB _ _ _ _ HP (fun Hz => Hz))) as K1.
        destruct g as [| | |v]; try (inversion H; subst; exact K1);
          (eapply K_trans; [exact K1|]; exact (IHs _ _ _ _ _ _ H (Pre_K _ _ _ _ K1 HP))).
      * inversion H; subst. apply K_refl.
    + rewrite exec_SFrom in H.
      destruct (eval fuel env a s) as [va s1|s1|f s1|]; try discriminate.
      destruct (eval fuel env b s1) as [vb s2|s2|f s2|]; try discriminate.
      destruct va as [lo|?|?| |? ? ?]; try discriminate. destruct vb as [hi|?|?| |? ? ?]; try discriminate. cbv zeta in H.
      set (cname := match nm with Some x => x | None => [0%N] end) in *.
      pose proof (Pre_ne _ _ _ HP) as Hne0. pose proof (Pre_top _ _ _ HP) as Htop.
      pose proof (fun n => from_iter_K y fuel incl hi step cname collide body sig env' s' (Hib body) n) as Hit.
      destruct (locals env) as [|sc r] eqn:El; [congruence|]. cbn [hd] in Htop.
      destruct collide.
      * (* the counter is an existing variable, or becomes a variable of this scope *)
        assert (K0 : K y env (fst (assign env s2 cname (RInt lo)))).
        { apply (K_assign_pre _ _ _ _ _ _ HP). intros Ey. unfold cname in Ey. destruct nm as [x|]; [left; now rewrite Ey|destruct (Hh Ey)]. }
        assert (P0 : PreB y (fst (assign env s2 cname (RInt lo))) (asgl body)).
        { apply (PreB_K _ _ _ _ K0), (Pre_PreB _ _ _ _ HP). intros Hz. destruct nm as [x|]; cbn [asg]; [right; exact Hz|exact Hz]. }
        destruct (assign env s2 cname (RInt lo)) as [e0 s3]. cbn [fst] in K0, P0.
        destruct (Hit _ _ _ P0 H) as (en & Kn & ->). eapply K_trans; eassumption.
      * (* a counter of its own, removed afterwards *)
        unfold declare in H. destruct (alloc s2 (RInt lo)) as [s3 c]. rewrite El in H.
        set (e0 := {| locals := assoc_set cname c sc :: r; captured := captured env; cur := cur env |}) in *.
        destruct (list_eq_dec N.eq_dec y cname) as [Ey|Hne].
        -- assert (P0 : PreB y e0 (asgl body)).
           { left. cbn [e0 locals lookup_scopes]. rewrite <- Ey, assoc_set_same. discriminate. }
           destruct (Hit _ _ _ P0 H) as (en & Kn & ->). unfold K in *. cbn [e0 locals map] in Kn. rewrite El. cbn [map].
           unfold undeclare. destruct (locals en) as [|scn rn] eqn:En; [discriminate|]. cbn [map] in Kn. inversion Kn as [[K1 K2]].
           cbn [locals map]. rewrite K2. f_equal. rewrite <- Ey in *. rewrite ky_del_same, K1, (ky_set_new y c sc Htop), Htop. reflexivity.
        -- assert (K0 : K y env e0) by (unfold K; cbn [e0 locals map]; rewrite El; cbn [map]; now rewrite ky_set_other).
           assert (P0 : PreB y e0 (asgl body)).
           { apply (PreB_K _ _ _ _ K0). apply (Pre_PreB _ _ _ _ HP). intros Hz. unfold cname in Hne. destruct nm as [x|]; cbn [asg]; [|exact Hz].
             apply filter_In. split; [exact Hz|]. rewrite str_eqb_neq by congruence. reflexivity. }
           destruct (Hit _ _ _ P0 H) as (en & Kn & ->). eapply K_trans; [exact K0|]. eapply K_trans; [exact Kn|].
           unfold K, undeclare. destruct (locals en) as [|scn rn] eqn:En; [now rewrite En|]. cbn [locals map]. now rewrite ky_del_other.
    + inversion H; subst. apply K_refl.
    + inversion H; subst. apply K_refl.
    + rewrite exec_SReturn in H. K_same H.
    + inversion H; subst. apply K_refl.
  - intros env l s sig env' s' H HP. destruct l as [|st l]; [inversion H; subst; apply K_refl|].
    rewrite exec_block_cons in H. rewrite asgl_cons in HP.
    destruct (Eval.exec fuel env st s) as [g e1 s1|f s1|] eqn:E; try discriminate.
    assert (HP1 : Pre y env (asg st)) by (destruct HP as [HR|[HU Hn]]; [now left|right; split; [exact HU|intros Hi; apply Hn; apply in_or_app; now left]]).
    pose proof (IHs _ _ _ _ _ _ E HP1) as K1.
    destruct g as [| | |v]; try (inversion H; subst; exact K1).
    eapply K_trans; [exact K1|]. apply (IHb _ _ _ _ _ _ H). apply (Pre_K _ _ _ _ K1).
    destruct HP as [HR|[HU Hn]]; [now left|right; split; [exact HU|intros Hi; apply Hn; apply in_or_app; now right]].
Qed.
