(* C15 / C01, expression level: the code `cexpr` emits for a call-free expression computes, on the VM model, what the
   reference semantics (Lang/Eval.v) prescribes -- value, failure, evaluation order, short-circuit -- at EVERY nesting
   depth, and touches no register below its own depth.  `step`/`steps` are the body of the interpreter loop of
   `run_fn_gen` (Vm/Model.v) restricted to the outcomes of the fragment (SNext, SGoto, SFail); `loop_steps` ties them to it. *)
From MS Require Import Lang.Eval.
From MS Require Export Vm.ClosureLemmas.
From MS Require Import Vm.Model Lang.Syntax Compile.Compile Verify.Sound Compile.ExprBase.
From Coq Require Import Lia Sorted.
Open Scope nat_scope.

Definition first_order (v : rvalue) : Prop := match v with RClos _ _ _ => False | _ => True end.

(* closures do not occur in the fragment; VModule is a placeholder that is never produced *)
Definition inj (v : rvalue) : value :=
  match v with
  | RInt z => VInt z | RBool b => VBool b | RStr s => VStr s | RNil => VNil
  | RClos _ _ _ => VModule
  end.

Definition err_rel (f : failure) (e : err) : Prop :=
  match f with
  | FDivZero => e = E_div_zero
  | FOverflow => e = E_overflow OP_BIN_OP \/ e = E_overflow OP_NEG
  | FUnwrapNil sp => e = E_unwrap_nil sp
  | FType _ => e = E_unsupported OP_BIN_OP \/ e = E_not_bool \/ e = E_invalid_op
  | FUnbound _ | FAssert _ => False
  end.

Inductive rstatus :=
| Running (a : act) (g : gstate)
| Failed (e : err) (g : gstate)          (* = RFail e g of the loop *)
| Escaped.                               (* fell off the code, or an outcome outside the fragment (call, ret, push ...) *)

Definition upd (a : act) (ip : nat) (ops : list value) : act := set_ip (set_ops a ops) ip.

Section Steps.
  Variable name : str.
  Variable code : list instr.

  Definition trc (a : act) (g : gstate) (i : instr) : gstate :=
    add_trace g (name, N.of_nat (a_ip a), op i, N.of_nat (length (frames g)), N.of_nat (length (a_ops a))).

  Definition step (a : act) (g : gstate) : rstatus :=
    match nth_error code (a_ip a) with
    | None => Escaped
    | Some i =>
      let g := trc a g i in
      match Model.exec i a g with
      | SFail e => Failed e g
      | SNext a g => Running (set_ip a (S (a_ip a))) g
      | SGoto off a g => match goto (length code) (a_ip a) off with
                         | Some t => Running (set_ip a t) g | None => Failed E_goto_range g end
      | _ => Escaped
      end
    end.

  Fixpoint steps (n : nat) (r : rstatus) : rstatus :=
    match n with
    | O => r
    | S n => match r with Running a g => steps n (step a g) | _ => r end
    end.

  Definition reaches (r r' : rstatus) : Prop := exists n, steps n r = r'.

  Lemma steps_stop_failed : forall n e g, steps n (Failed e g) = Failed e g.
  Proof. destruct n; reflexivity. Qed.
  Lemma steps_stop_escaped : forall n, steps n Escaped = Escaped.
  Proof. destruct n; reflexivity. Qed.

  Lemma steps_trans : forall n m r a g r', steps n r = Running a g -> steps m (Running a g) = r' -> steps (n + m) r = r'.
  Proof.
    induction n as [|n IH]; intros m r a g r' H1 H2.
    - cbn in H1. subst r. exact H2.
    - destruct r as [a0 g0|e0 g0|].
      + cbn [steps Nat.add] in *. eapply IH; eassumption.
      + rewrite steps_stop_failed in H1. discriminate.
      + rewrite steps_stop_escaped in H1. discriminate.
  Qed.

  Lemma reaches_refl : forall r, reaches r r.
  Proof. intros r. exists 0. reflexivity. Qed.
  Lemma reaches_step : forall a g r, step a g = r -> reaches (Running a g) r.
  Proof. intros a g r H. exists 1. cbn [steps]. rewrite H. reflexivity. Qed.
  Lemma reaches_trans : forall r a g r', reaches r (Running a g) -> reaches (Running a g) r' -> reaches r r'.
  Proof. intros r a g r' [n H1] [m H2]. exists (n + m). eapply steps_trans; eassumption. Qed.

  Lemma loop_steps : forall rc callee n a g,
    match steps n (Running a g) with
    | Running a' g' => forall fuel, loop rc callee name code (n + fuel) a g = loop rc callee name code fuel a' g'
    | Failed e g' => forall fuel, loop rc callee name code (n + fuel) a g = RFail e g'
    | Escaped => True
    end.
  Proof.
    intros rc callee. induction n as [|n IH]; intros a g; [intros fuel; reflexivity|].
    cbn [steps Nat.add loop]. unfold step.
    destruct (nth_error code (a_ip a)) as [i|]; [|rewrite steps_stop_escaped; exact Logic.I].
    fold (trc a g i). destruct (Model.exec i a (trc a g i)) as [a1 g1|off a1 g1| | | | | |e];
      try (rewrite steps_stop_escaped; exact Logic.I).
    - apply IH.
    - destruct (goto (length code) (a_ip a1) off) as [t|]; [apply IH|rewrite steps_stop_failed; reflexivity].
    - rewrite steps_stop_failed. reflexivity.
  Qed.

  Lemma loop_steps_running : forall rc callee n a g a' g', steps n (Running a g) = Running a' g' ->
    forall fuel, loop rc callee name code (n + fuel) a g = loop rc callee name code fuel a' g'.
  Proof. intros rc callee n a g a' g' H. pose proof (loop_steps rc callee n a g) as L. rewrite H in L. exact L. Qed.

  Lemma loop_steps_failed : forall rc callee n a g e g', steps n (Running a g) = Failed e g' ->
    forall fuel, loop rc callee name code (n + fuel) a g = RFail e g'.
  Proof. intros rc callee n a g e g' H. pose proof (loop_steps rc callee n a g) as L. rewrite H in L. exact L. Qed.

  Lemma step_next : forall a g i dI ip ops' g', a_ip a = ip -> nth_error code ip = Some i -> decode i = DOk dI ->
    exec_d dI a (trc a g i) = SNext (set_ops a ops') g' ->
    step a g = Running (upd a (S ip) ops') g'.
  Proof.
    intros a g i dI ip ops' g' Hip Hf Hd He. unfold step. rewrite Hip, Hf. unfold Model.exec.
    rewrite Hd, He. subst ip. reflexivity.
  Qed.

  Lemma step_fail : forall a g i dI ip e, a_ip a = ip -> nth_error code ip = Some i -> decode i = DOk dI ->
    exec_d dI a (trc a g i) = SFail e ->
    step a g = Failed e (trc a g i).
  Proof.
    intros a g i dI ip e Hip Hf Hd He. unfold step. rewrite Hip, Hf. unfold Model.exec.
    rewrite Hd, He. reflexivity.
  Qed.

  Lemma step_goto : forall a g i dI ip off t, a_ip a = ip -> nth_error code ip = Some i -> decode i = DOk dI ->
    exec_d dI a (trc a g i) = SGoto off a (trc a g i) ->
    goto (length code) ip off = Some t ->
    step a g = Running (set_ip a t) (trc a g i).
  Proof.
    intros a g i dI ip off t Hip Hf Hd He Hg. unfold step. rewrite Hip, Hf. unfold Model.exec.
    rewrite Hd, He, Hip, Hg. reflexivity.
  Qed.
End Steps.

Lemma goto_fwd : forall len ip n, ip + n < len -> goto len ip (Z.of_nat n) = Some (ip + n).
Proof.
  intros len ip n H. rewrite goto_some by lia. f_equal. lia.
Qed.

(* the registers a sub-expression compiled at depth d may bind *)
Definition own_reg (d : nat) (x : str) : Prop := exists k, d <= k /\ small k /\ x = reg k.

Definition ev_ip (ev : tev) : nat := match ev with (_, ip, _, _, _) => N.to_nat ip end.

(* a trace is newest first: strictly increasing ip in execution order *)
Definition ev_sorted (new : list tev) : Prop := StronglySorted (fun x y => ev_ip y < ev_ip x) new.

Lemma StronglySorted_app : forall A (R : A -> A -> Prop) l1 l2,
  StronglySorted R l1 -> StronglySorted R l2 -> (forall x y, In x l1 -> In y l2 -> R x y) ->
  StronglySorted R (l1 ++ l2).
Proof.
  induction l1 as [|x l1 IH]; intros l2 H1 H2 H; [exact H2|].
  inversion H1 as [|? ? Hs Hf]; subst. cbn [app]. constructor.
  - apply IH; [exact Hs|exact H2|]. intros a b Ha Hb. apply H; [now right|exact Hb].
  - apply Forall_app. split; [exact Hf|]. apply Forall_forall. intros y Hy. apply H; [now left|exact Hy].
Qed.

Definition top_vars (fs : list frame) : list (str * N) := match fs with f :: _ => vars f | [] => [] end.

(* g' extends g: cells are only appended, only registers >= d of the TOP frame are (re)bound, nothing is printed, and
   the instructions executed in between lie in [lo, hi), in address order, each at most once *)
Record ext (d lo hi : nat) (g g' : gstate) : Prop := {
  ext_cells : exists extra, cells g' = cells g ++ extra;
  ext_find : forall x, ~ own_reg d x -> find_in_function x (frames g') = find_in_function x (frames g);
  ext_out : out g' = out g;
  ext_labs : map lab (frames g') = map lab (frames g);
  ext_tail : tl (frames g') = tl (frames g);
  ext_trace : exists new, trace g' = new ++ trace g /\ Forall (fun ev => lo <= ev_ip ev < hi) new /\ ev_sorted new;
  ext_top : forall x, ~ own_reg d x -> assoc x (top_vars (frames g')) = assoc x (top_vars (frames g))
}.

Lemma ext_refl : forall d lo hi g, ext d lo hi g g.
Proof.
  intros. constructor; try reflexivity.
  - exists []. now rewrite app_nil_r.
  - exists []. split; [reflexivity|]. split; constructor.
Qed.

Lemma own_reg_mono : forall d d' x, d <= d' -> own_reg d' x -> own_reg d x.
Proof. intros d d' x H (k & L & S & E). exists k. repeat split; [lia|exact S|exact E]. Qed.

Lemma ext_app : forall d k n m g g1 g2, ext d k (k + n) g g1 -> ext d (k + n) (k + n + m) g1 g2 -> ext d k (k + n + m) g g2.
Proof.
  intros d k n m g g1 g2 [C1 F1 O1 L1 T1 R1 V1] [C2 F2 O2 L2 T2 R2 V2]. constructor.
  - destruct C1 as [x1 E1], C2 as [x2 E2]. exists (x1 ++ x2). rewrite E2, E1, app_assoc. reflexivity.
  - intros x Hx. rewrite F2 by exact Hx. apply F1, Hx.
  - congruence.
  - congruence.
  - congruence.
  - destruct R1 as (n1 & E1 & A1 & S1), R2 as (n2 & E2 & A2 & S2). exists (n2 ++ n1). split; [|split].
    + rewrite E2, E1, app_assoc. reflexivity.
    + apply Forall_app. split; eapply Forall_impl; try eassumption; cbn beta; intros; lia.
    + apply StronglySorted_app; [exact S2|exact S1|]. intros x y Hx Hy.
      rewrite Forall_forall in A1, A2. specialize (A1 y Hy). specialize (A2 x Hx). cbn beta in *. lia.
  - intros x Hx. rewrite V2 by exact Hx. apply V1, Hx.
Qed.

Lemma ext_weaken : forall d lo hi d1 lo1 hi1 g g1, ext d1 lo1 hi1 g g1 -> d <= d1 -> lo <= lo1 -> hi1 <= hi -> ext d lo hi g g1.
Proof.
  intros d lo hi d1 lo1 hi1 g g1 [C1 F1 O1 L1 T1 R1 V1] Hd Hl Hh. constructor; try assumption.
  - intros x Hx. apply F1. intros Ho; apply Hx; exact (own_reg_mono d d1 x Hd Ho).
  - destruct R1 as (n1 & E1 & A1 & S1). exists n1. split; [exact E1|]. split; [|exact S1].
    eapply Forall_impl; try eassumption; cbn beta; intros; lia.
  - intros x Hx. apply V1. intros Ho; apply Hx; exact (own_reg_mono d d1 x Hd Ho).
Qed.

Lemma ext_frames_ne : forall d lo hi g g', ext d lo hi g g' -> frames g <> [] -> frames g' <> [].
Proof.
  intros d lo hi g g' H Hne E. apply ext_labs in H. rewrite E in H. destruct (frames g); [congruence|discriminate].
Qed.

Lemma ext_cell_get : forall d lo hi g g' c v, ext d lo hi g g' -> cell_get g c = Some v -> cell_get g' c = Some v.
Proof.
  intros d lo hi g g' c v H Hc. destruct (ext_cells _ _ _ _ _ H) as [extra E]. unfold cell_get in *.
  rewrite E, nth_error_app1; [exact Hc|]. apply nth_error_Some. congruence.
Qed.

Lemma ext_trc : forall name d lo hi a g i, lo <= a_ip a < hi -> ext d lo hi g (trc name a g i).
Proof.
  intros name d lo hi a g i H. constructor; try reflexivity.
  - exists []. cbn. now rewrite app_nil_r.
  - eexists [_]. split; [reflexivity|]. split.
    + constructor; [|constructor]. cbn [ev_ip]. rewrite Nnat.Nat2N.id. exact H.
    + constructor; constructor.
Qed.

Lemma bind_local_ext : forall g d v lo hi, frames g <> [] -> small d ->
  exists g' c, bind_local g (reg d) v = Some g' /\ ext d lo hi g g' /\
               find_in_function (reg d) (frames g') = Some c /\ cell_get g' c = Some v.
Proof.
  intros g d v lo hi Hne Hs. unfold bind_local. destruct (frames g) as [|f fs] eqn:Ef; [congruence|].
  assert (Hx : forall x, ~ own_reg d x -> x <> reg d) by (intros x Hx ->; apply Hx; exists d; auto).
  cbn [cell_new]. eexists. eexists. split; [reflexivity|]. split; [|split].
  - constructor; cbn [cells frames out trace with_frames map tl]; try (rewrite Ef); try reflexivity.
    + eexists. reflexivity.
    + intros x Hn. cbn [find_in_function vars lab]. now rewrite assoc_set_other by auto.
    + exists []. split; [reflexivity|]. split; constructor.
    + intros x Hn. cbn [top_vars vars]. now rewrite assoc_set_other by auto.
  - cbn [with_frames frames find_in_function vars]. rewrite assoc_set_same. reflexivity.
  - unfold cell_get. cbn [with_frames cells]. rewrite Nnat.Nat2N.id.
    rewrite nth_error_app2 by lia. rewrite Nat.sub_diag. reflexivity.
Qed.

Lemma exec_load : forall x a g c v, lookup_var a g x = Some c -> cell_get g c = Some v ->
  exec_d (DLoad x) a g = SNext (set_ops a (a_ops a ++ [v])) g.
Proof. intros x a g c v H1 H2. unfold exec_d. rewrite H1, H2. reflexivity. Qed.
Lemma exec_load_fast : forall x a g c v, find_in_function x (frames g) = Some c -> cell_get g c = Some v ->
  exec_d (DLoadFast x) a g = SNext (set_ops a (a_ops a ++ [v])) g.
Proof. intros x a g c v H1 H2. unfold exec_d. rewrite H1, H2. reflexivity. Qed.
Lemma exec_store_fast : forall x a g v g', a_ops a = [v] -> bind_local g x v = Some g' ->
  exec_d (DStoreFast x) a g = SNext (set_ops a []) g'.
Proof. intros x a g v g' H1 H2. unfold exec_d. rewrite H1, H2. reflexivity. Qed.
Lemma exec_rev2 : forall a g x y, a_ops a = [x; y] -> exec_d DRev2 a g = SNext (set_ops a [y; x]) g.
Proof. intros a g x y H. unfold exec_d. rewrite H. reflexivity. Qed.
Lemma exec_bin_op : forall sym a g x y, a_ops a = [x; y] ->
  exec_d (DBinOp sym) a g = match bin_op_sem sym x y with OV v => SNext (set_ops a [v]) g | OE e => SFail e end.
Proof. intros sym a g x y H. unfold exec_d. rewrite H. reflexivity. Qed.
Lemma exec_equ : forall a g x y, a_ops a = [x; y] ->
  exec_d DEqu a g = match val_equals 100 y x with Some b => SNext (set_ops a [VBool b]) g | None => SFail E_invalid_op end.
Proof. intros a g x y H. unfold exec_d. rewrite H. reflexivity. Qed.
Lemma exec_neq : forall a g x y, a_ops a = [x; y] ->
  exec_d DNeq a g = match val_equals 100 y x with Some b => SNext (set_ops a [VBool (negb b)]) g | None => SFail E_invalid_op end.
Proof. intros a g x y H. unfold exec_d. rewrite H. reflexivity. Qed.
Lemma exec_not : forall a g v, a_ops a = [v] ->
  exec_d DNot a g = match v with VBool b => SNext (set_ops a [VBool (negb b)]) g | _ => SFail E_not_bool end.
Proof. intros a g v H. unfold exec_d. rewrite H. destruct v; reflexivity. Qed.
Lemma exec_neg : forall a g v, a_ops a = [v] ->
  exec_d DNeg a g = match v with
                    | VInt z => if i32_ok (- z) then SNext (set_ops a [VInt (- z)]) g else SFail (E_overflow OP_NEG)
                    | _ => SFail E_invalid_op end.
Proof. intros a g v H. unfold exec_d. rewrite H. destruct v; reflexivity. Qed.
Lemma exec_unwrap : forall sp a g v, a_ops a = [v] ->
  exec_d (DUnwrap sp) a g = match v with
                            | VSome w => SNext (set_ops a [w]) g
                            | VNil => SFail (E_unwrap_nil sp)
                            | _ => SNext a g end.
Proof. intros sp a g v H. unfold exec_d. rewrite H. destruct v; reflexivity. Qed.
Lemma exec_jmp_not_nil : forall off a g v, a_ops a = [v] ->
  exec_d (DJmpNotNil off) a g = match v with VNil => SNext (set_ops a []) g | _ => SGoto off a g end.
Proof. intros off a g v H. unfold exec_d. rewrite H. destruct v; reflexivity. Qed.
Lemma exec_store_skip : forall x p off a g v, a_ops a = [v] ->
  exec_d (DStoreSkip x p off) a g =
  match v with
  | VBool b => if (if p then b else negb b) then SGoto off a g
               else match bind_local g x (VBool b) with
                    | Some g' => SNext (set_ops a []) g' | None => SFail (E_panic OP_STORE_SKIP) end
  | _ => SFail E_not_bool end.
Proof. intros x p off a g v H. unfold exec_d. rewrite H. destruct v; reflexivity. Qed.

Lemma val_equals_inj : forall va vb, val_equals 100 (inj vb) (inj va) = req va vb.
Proof.
  intros va vb. destruct va, vb; cbn; try reflexivity.
  - now rewrite Z.eqb_sym.
  - now destruct b, b0.
  - now rewrite str_eqb_sym.
Qed.

Definition arith_op (o : binop) : Prop := o <> BEq /\ o <> BNeq.

Definition res_agree (s : rstate) (r : eres) (x : ores) : Prop :=
  match r with
  | EVal v s' => s' = s /\ first_order v /\ x = OV (inj v)
  | EFail f s' => s' = s /\ exists e, x = OE e /\ err_rel f e
  | _ => False
  end.

Lemma res_agree_val : forall s v, first_order v -> res_agree s (EVal v s) (OV (inj v)).
Proof. intros s v H. repeat split. exact H. Qed.
Lemma res_agree_fail : forall s f e, err_rel f e -> res_agree s (EFail f s) (OE e).
Proof. intros s f e H. split; [reflexivity|]. exists e. split; [reflexivity|exact H]. Qed.

Lemma arith_agree : forall z s, res_agree s (arith_res z s) (arith OP_BIN_OP z).
Proof.
  intros z s. unfold arith_res, arith. destruct (i32_ok z); [now apply res_agree_val|apply res_agree_fail; now left].
Qed.
Lemma div_agree : forall q y s, res_agree s (if (y =? 0)%Z then EFail FDivZero s else arith_res q s)
                                          (if (y =? 0)%Z then OE E_div_zero else arith OP_BIN_OP q).
Proof. intros q y s. destruct (y =? 0)%Z; [now apply res_agree_fail|apply arith_agree]. Qed.

Lemma binop_agree : forall o va vb s, arith_op o ->
  match binop_sem o va vb s with
  | EVal v s' => s' = s /\ first_order v /\ bin_op_sem (binop_sym o) (inj va) (inj vb) = OV (inj v)
  | EFail f s' => s' = s /\ exists e, bin_op_sem (binop_sym o) (inj va) (inj vb) = OE e /\ err_rel f e
  | _ => False
  end.
Proof.
  intros o va vb s [H1 H2]. change (res_agree s (binop_sem o va vb s) (bin_op_sem (binop_sym o) (inj va) (inj vb))).
  destruct va as [x|x|x| |p1 b1 e1], vb as [y|y|y| |p2 b2 e2].
  1: destruct o; try congruence; first [apply arith_agree | apply div_agree | now apply res_agree_val].
  (* `+` with a string on one side appends what the other side shows as (a boolean: by its value); every other cell is
     a type error on both sides *)
  all: destruct o; try congruence; try (apply res_agree_fail; now left); try now apply res_agree_val.
  - destruct x; now apply res_agree_val.
  - destruct y; now apply res_agree_val.
Qed.

Lemma eqop_agree : forall (n : bool) va vb s,
  match binop_sem (if n then BNeq else BEq) va vb s with
  | EVal v s' => s' = s /\ exists b, v = RBool (if n then negb b else b) /\ val_equals 100 (inj vb) (inj va) = Some b
  | EFail f s' => s' = s /\ val_equals 100 (inj vb) (inj va) = None /\ err_rel f E_invalid_op
  | _ => False end.
Proof.
  intros n va vb s. rewrite val_equals_inj.
  assert (E : binop_sem (if n then BNeq else BEq) va vb s =
              match req va vb with Some r => EVal (RBool (if n then negb r else r)) s | None => EFail (FType 1) s end)
    by (destruct n, va, vb; reflexivity).
  rewrite E. destruct (req va vb) as [r|].
  - split; [reflexivity|]. exists r. auto.
  - split; [reflexivity|]. split; [reflexivity|]. cbn. auto.
Qed.
Lemma eq_agree : forall va vb s,
  match binop_sem BEq va vb s with
  | EVal v s' => s' = s /\ exists b, v = RBool b /\ val_equals 100 (inj vb) (inj va) = Some b
  | EFail f s' => s' = s /\ val_equals 100 (inj vb) (inj va) = None /\ err_rel f E_invalid_op
  | _ => False end.
Proof. exact (eqop_agree false). Qed.
Lemma neq_agree : forall va vb s,
  match binop_sem BNeq va vb s with
  | EVal v s' => s' = s /\ exists b, v = RBool (negb b) /\ val_equals 100 (inj vb) (inj va) = Some b
  | EFail f s' => s' = s /\ val_equals 100 (inj vb) (inj va) = None /\ err_rel f E_invalid_op
  | _ => False end.
Proof. exact (eqop_agree true). Qed.

(* every source variable the reference semantics can see (holding a first-order value) is found by the VM's
   `load` (own frames, then captured cells) in a cell holding the injected value *)
Definition Renv (env : fenv) (s : rstate) (a : act) (g : gstate) : Prop :=
  forall x c v, src_name x -> lookup_scopes x (locals env ++ captured env) = Some c -> sget s c = Some v ->
    first_order v ->
    exists c', lookup_var a g x = Some c' /\ cell_get g c' = Some (inj v).

Definition var_ok (env : fenv) (s : rstate) (x : str) : Prop :=
  src_name x /\ exists c v, lookup_scopes x (locals env ++ captured env) = Some c /\ sget s c = Some v /\ first_order v.

Lemma own_reg_not_src : forall d x, src_name x -> ~ own_reg d x.
Proof. intros d x H (k & _ & _ & E). exact (src_name_not_reg x k H E). Qed.

Lemma Renv_ext : forall env s a g a' g' d lo hi, Renv env s a g -> ext d lo hi g g' -> a_cb a' = a_cb a ->
  Renv env s a' g'.
Proof.
  intros env s a g a' g' d lo hi HR He Hcb x c v Hx Hl Hg Hf.
  destruct (HR x c v Hx Hl Hg Hf) as (c' & H1 & H2). exists c'. split.
  - unfold lookup_var, load_cb in *. rewrite (ext_find _ _ _ _ _ He x (own_reg_not_src d x Hx)), Hcb. exact H1.
  - eapply ext_cell_get; eassumption.
Qed.

Definition code_at (code : list instr) (k : nat) (l : list instr) : Prop :=
  forall j i, nth_error l j = Some i -> nth_error code (k + j) = Some i.

Lemma code_at_app : forall code k l1 l2, code_at code k (l1 ++ l2) ->
  code_at code k l1 /\ code_at code (k + length l1) l2.
Proof.
  intros code k l1 l2 H. split; intros j i Hj.
  - apply H. rewrite nth_error_app1; [exact Hj|]. apply nth_error_Some. congruence.
  - rewrite <- Nat.add_assoc. apply H. rewrite nth_error_app2 by lia.
    replace (length l1 + j - length l1) with j by lia. exact Hj.
Qed.
Lemma code_at_cons : forall code k i l, code_at code k (i :: l) -> nth_error code k = Some i /\ code_at code (S k) l.
Proof.
  intros code k i l H. split.
  - specialize (H 0 i eq_refl). now rewrite Nat.add_0_r in H.
  - intros j i' Hj. specialize (H (S j) i' Hj). now rewrite <- plus_n_Sm in H.
Qed.
Lemma code_at_embed : forall pre mid post, code_at (pre ++ mid ++ post) (length pre) mid.
Proof.
  intros pre mid post j i Hj. rewrite nth_error_app2 by lia.
  replace (length pre + j - length pre) with j by lia.
  rewrite nth_error_app1; [exact Hj|]. apply nth_error_Some. congruence.
Qed.

Lemma eval_EBin : forall fuel e o a b s, eval (S fuel) e (EBin o a b) s =
  match eval fuel e a s with
  | EVal va s => match eval fuel e b s with
                 | EVal vb s => binop_sem o va vb s
                 | ENoVal s => EFail (FType 3) s | r => r end
  | ENoVal s => EFail (FType 3) s | r => r end.
Proof. reflexivity. Qed.
Lemma eval_EAnd : forall fuel e a b s, eval (S fuel) e (EAnd a b) s =
  match eval fuel e a s with
  | EVal (RBool false) s => EVal (RBool false) s
  | EVal (RBool true) s => match eval fuel e b s with
                           | EVal (RBool vb) s => EVal (RBool vb) s
                           | EVal _ s | ENoVal s => EFail (FType 6) s | r => r end
  | EVal _ s | ENoVal s => EFail (FType 6) s | r => r end.
Proof. reflexivity. Qed.
Lemma eval_EOr : forall fuel e a b s, eval (S fuel) e (EOr a b) s =
  match eval fuel e a s with
  | EVal (RBool true) s => EVal (RBool true) s
  | EVal (RBool false) s => match eval fuel e b s with
                            | EVal (RBool vb) s => EVal (RBool vb) s
                            | EVal _ s | ENoVal s => EFail (FType 6) s | r => r end
  | EVal _ s | ENoVal s => EFail (FType 6) s | r => r end.
Proof. reflexivity. Qed.
Lemma eval_ENot : forall fuel e a s, eval (S fuel) e (ENot a) s =
  match eval fuel e a s with
  | EVal (RBool b) s => EVal (RBool (negb b)) s
  | EVal _ s | ENoVal s => EFail (FType 7) s | r => r end.
Proof. reflexivity. Qed.
Lemma eval_ENeg : forall fuel e a s, eval (S fuel) e (ENeg a) s =
  match eval fuel e a s with
  | EVal (RInt z) s => arith_res (- z) s
  | EVal _ s | ENoVal s => EFail (FType 7) s | r => r end.
Proof. reflexivity. Qed.
Lemma eval_ENilOr : forall fuel e a b s, eval (S fuel) e (ENilOr a b) s =
  match eval fuel e a s with
  | EVal RNil s => eval fuel e b s
  | r => r end.
Proof. reflexivity. Qed.
Lemma eval_EGet : forall fuel e a sp s, eval (S fuel) e (EGet a sp) s =
  match eval fuel e a s with
  | EVal RNil s => EFail (FUnwrapNil sp) s
  | r => r end.
Proof. reflexivity. Qed.
Lemma eval_EVar : forall fuel e n s, eval (S fuel) e (EVar n) s =
  match lookup_scopes n (locals e ++ captured e) with
  | Some c => match sget s c with Some v => EVal v s | None => EFail (FUnbound n) s end
  | None => EFail (FUnbound n) s end.
Proof. reflexivity. Qed.

Lemma used_e_bin : forall o a b, used_e (EBin o a b) = used_e a ++ used_e b. Proof. reflexivity. Qed.
Lemma used_e_and : forall a b, used_e (EAnd a b) = used_e a ++ used_e b. Proof. reflexivity. Qed.
Lemma used_e_or : forall a b, used_e (EOr a b) = used_e a ++ used_e b. Proof. reflexivity. Qed.
Lemma used_e_nilor : forall a b, used_e (ENilOr a b) = used_e a ++ used_e b. Proof. reflexivity. Qed.
Lemma used_e_not : forall a, used_e (ENot a) = used_e a. Proof. reflexivity. Qed.
Lemma used_e_neg : forall a, used_e (ENeg a) = used_e a. Proof. reflexivity. Qed.
Lemma used_e_get : forall a sp, used_e (EGet a sp) = used_e a. Proof. reflexivity. Qed.

(* `a && b` and `a || b` differ in one bit: the value p of the left operand that decides the result alone *)
Definition elogic (p : bool) (a b : expr) : expr := if p then EOr a b else EAnd a b.

Lemma eval_logic : forall p fuel e a b s, eval (S fuel) e (elogic p a b) s =
  match eval fuel e a s with
  | EVal (RBool x) s => if (if p then x else negb x) then EVal (RBool x) s
                        else match eval fuel e b s with
                             | EVal (RBool vb) s => EVal (RBool vb) s
                             | EVal _ s | ENoVal s => EFail (FType 6) s | r => r end
  | EVal _ s | ENoVal s => EFail (FType 6) s | r => r end.
Proof.
  intros [|] fuel e a b s; cbn [elogic]; [rewrite eval_EOr|rewrite eval_EAnd];
    destruct (eval fuel e a s) as [[?|[|]|?| |? ? ?] ?|?|? ?|]; reflexivity.
Qed.

Lemma pcode_logic : forall p d a b, pcode d (elogic p a b) =
  pcode (S d) a ++ mkI OP_STORE_SKIP [reg d; if p then s_one else s_zero; sN (length (pcode (S d) b) + 3)]
    :: pcode (S d) b ++ [mkI OP_LOAD_FAST [reg d]; mkI OP_BIN_OP [if p then op_or else op_and]].
Proof. intros [|]; reflexivity. Qed.
Lemma lits_ok_logic : forall p a b, lits_ok (elogic p a b) = lits_ok a && lits_ok b. Proof. intros [|]; reflexivity. Qed.
Lemma used_e_logic : forall p a b, used_e (elogic p a b) = used_e a ++ used_e b. Proof. intros [|]; reflexivity. Qed.

Definition on_value (r : eres) (N : rstate -> eres) (K : rvalue -> rstate -> eres) : eres :=
  match r with EVal v s => K v s | ENoVal s => N s | EFail f s => EFail f s | EFuel => EFuel end.

Definition agrees (s : rstate) (r : eres) (a : act) (g : gstate) (x : sres) : Prop :=
  match r with
  | EVal v s' => s' = s /\ first_order v /\ x = SNext (set_ops a [inj v]) g
  | EFail f s' => s' = s /\ exists e, x = SFail e /\ err_rel f e
  | _ => False
  end.

Lemma agrees_val : forall s v a g x, first_order v -> x = SNext (set_ops a [inj v]) g -> agrees s (EVal v s) a g x.
Proof. intros s v a g x Hf Hx. repeat split; assumption. Qed.
Lemma agrees_fail : forall s f a g x e, x = SFail e -> err_rel f e -> agrees s (EFail f s) a g x.
Proof. intros s f a g x e Hx Hr. split; [reflexivity|]. exists e. split; assumption. Qed.

Lemma set_ops_id : forall a, set_ops a (a_ops a) = a.
Proof. intros []. reflexivity. Qed.

Lemma not_agrees : forall s va a g, a_ops a = [inj va] ->
  agrees s (match va with RBool b => EVal (RBool (negb b)) s | _ => EFail (FType 7) s end) a g (exec_d DNot a g).
Proof.
  intros s va a g H. rewrite (exec_not a g _ H).
  destruct va; first [now apply agrees_val | eapply agrees_fail; [reflexivity|cbn; auto]].
Qed.

Lemma neg_agrees : forall s va a g, a_ops a = [inj va] ->
  agrees s (match va with RInt z => arith_res (- z) s | _ => EFail (FType 7) s end) a g (exec_d DNeg a g).
Proof.
  intros s va a g H. rewrite (exec_neg a g _ H).
  destruct va as [z| | | |]; try (eapply agrees_fail; [reflexivity|cbn; auto]).
  cbn [inj]. unfold arith_res. destruct (i32_ok (- z)); [now apply agrees_val|eapply agrees_fail; [reflexivity|cbn; auto]].
Qed.

Lemma unwrap_agrees : forall s sp va a g r, a_ops a = [inj va] -> first_order va ->
  r = match va with RNil => EFail (FUnwrapNil sp) s | _ => EVal va s end -> agrees s r a g (exec_d (DUnwrap sp) a g).
Proof.
  intros s sp va a g r H Hfo ->. rewrite (exec_unwrap sp a g _ H).
  destruct va; try destruct Hfo;
    first [now eapply agrees_fail | apply agrees_val; [exact Logic.I|]; rewrite <- H, set_ops_id; reflexivity].
Qed.

Lemma logic_agrees : forall s (p x : bool) vb a g, (if p then x else negb x) = false -> a_ops a = [inj vb; VBool x] ->
  agrees s (match vb with RBool y => EVal (RBool y) s | _ => EFail (FType 6) s end) a g
         (exec_d (DBinOp (if p then op_or else op_and)) a g).
Proof.
  intros s p x vb a g Hx H. rewrite (exec_bin_op _ a g _ _ H).
  destruct vb as [|y| | |]; try (destruct p; (eapply agrees_fail; [reflexivity|cbn; auto])).
  apply agrees_val; [exact Logic.I|]. destruct p, x, y; try discriminate; reflexivity.
Qed.

Lemma dec_op_instr_arith : forall o, arith_op o -> decode (op_instr o) = DOk (DBinOp (binop_sym o)).
Proof. intros o [H1 H2]. destruct o; try congruence; reflexivity. Qed.

Lemma arith_op_dec : forall o, o = BEq \/ o = BNeq \/ arith_op o.
Proof. intros o. unfold arith_op. destruct o; auto; right; right; split; discriminate. Qed.

Lemma eqop_agrees : forall (n : bool) va vb s a g, a_ops a = [inj va; inj vb] ->
  agrees s (binop_sem (if n then BNeq else BEq) va vb s) a g (exec_d (if n then DNeq else DEqu) a g).
Proof.
  intros n va vb s a g H.
  assert (E : exec_d (if n then DNeq else DEqu) a g =
              match val_equals 100 (inj vb) (inj va) with
              | Some b => SNext (set_ops a [VBool (if n then negb b else b)]) g | None => SFail E_invalid_op end)
    by (destruct n; [exact (exec_neq a g _ _ H)|exact (exec_equ a g _ _ H)]).
  rewrite E. pose proof (eqop_agree n va vb s) as Hag. destruct (binop_sem _ va vb s); try contradiction.
  - destruct Hag as (-> & b & -> & ->). now apply agrees_val.
  - destruct Hag as (-> & -> & Hr). now eapply agrees_fail.
Qed.

Lemma op_agrees : forall o va vb s, exists dI, decode (op_instr o) = DOk dI /\
  forall a g, a_ops a = [inj va; inj vb] -> agrees s (binop_sem o va vb s) a g (exec_d dI a g).
Proof.
  intros o va vb s. destruct (arith_op_dec o) as [->|[->|Hao]].
  - exists DEqu. split; [reflexivity|]. exact (eqop_agrees false va vb s).
  - exists DNeq. split; [reflexivity|]. exact (eqop_agrees true va vb s).
  - exists (DBinOp (binop_sym o)). split; [exact (dec_op_instr_arith o Hao)|]. intros a g H.
    rewrite (exec_bin_op _ a g _ _ H).
    pose proof (binop_agree o va vb s Hao) as Hag. destruct (binop_sem o va vb s); try contradiction.
    + destruct Hag as (-> & Hfo & ->). now apply agrees_val.
    + destruct Hag as (-> & e & -> & Hr). now eapply agrees_fail.
Qed.

Section Sim.
  Variable name : str.
  Variable code : list instr.

  Definition run_ok (d lo hi : nat) (a : act) (g : gstate) (a' : act) (g' : gstate) : Prop :=
    reaches name code (Running a g) (Running a' g') /\ ext d lo hi g g'.
  Definition run_fail (d lo hi : nat) (a : act) (g : gstate) (f : failure) : Prop :=
    exists e g', reaches name code (Running a g) (Failed e g') /\ err_rel f e /\ ext d lo hi g g'.

  Lemma run_ok_app : forall d k n m a g a1 g1 a2 g2,
    run_ok d k (k + n) a g a1 g1 -> run_ok d (k + n) (k + n + m) a1 g1 a2 g2 -> run_ok d k (k + n + m) a g a2 g2.
  Proof.
    intros d k n m a g a1 g1 a2 g2 [R1 E1] [R2 E2]. split; [eapply reaches_trans|eapply ext_app]; eassumption.
  Qed.
  Lemma run_fail_app : forall d k n m a g a1 g1 f,
    run_ok d k (k + n) a g a1 g1 -> run_fail d (k + n) (k + n + m) a1 g1 f -> run_fail d k (k + n + m) a g f.
  Proof.
    intros d k n m a g a1 g1 f [R1 E1] (e & g' & R2 & Hr & E2). exists e, g'.
    split; [eapply reaches_trans; eassumption|]. split; [exact Hr|eapply ext_app; eassumption].
  Qed.
  Lemma run_ok_weaken : forall d lo hi d1 lo1 hi1 a g a1 g1,
    run_ok d1 lo1 hi1 a g a1 g1 -> d <= d1 -> lo <= lo1 -> hi1 <= hi -> run_ok d lo hi a g a1 g1.
  Proof. intros d lo hi d1 lo1 hi1 a g a1 g1 [R E] H1 H2 H3. split; [exact R|]. eapply ext_weaken; eassumption. Qed.
  Lemma run_fail_weaken : forall d lo hi d1 lo1 hi1 a g f,
    run_fail d1 lo1 hi1 a g f -> d <= d1 -> lo <= lo1 -> hi1 <= hi -> run_fail d lo hi a g f.
  Proof.
    intros d lo hi d1 lo1 hi1 a g f (e & g' & R & Hr & E) H1 H2 H3. exists e, g'.
    split; [exact R|]. split; [exact Hr|]. eapply ext_weaken; eassumption.
  Qed.

  Lemma run_step_next : forall d a g i dI ip ops', nth_error code ip = Some i -> a_ip a = ip -> decode i = DOk dI ->
    exec_d dI a (trc name a g i) = SNext (set_ops a ops') (trc name a g i) ->
    run_ok d ip (S ip) a g (upd a (S ip) ops') (trc name a g i).
  Proof.
    intros d a g i dI ip ops' Hf Hip Hd He. split.
    - apply reaches_step. eapply step_next; eassumption.
    - apply ext_trc. lia.
  Qed.

  Lemma run_step_fail : forall d a g i dI ip e f, nth_error code ip = Some i -> a_ip a = ip -> decode i = DOk dI ->
    exec_d dI a (trc name a g i) = SFail e -> err_rel f e ->
    run_fail d ip (S ip) a g f.
  Proof.
    intros d a g i dI ip e f Hf Hip Hd He Hrel. exists e, (trc name a g i). split; [|split].
    - apply reaches_step. eapply step_fail; eassumption.
    - exact Hrel.
    - apply ext_trc. lia.
  Qed.

  Lemma run_step_goto : forall d a g i dI ip n, nth_error code ip = Some i -> a_ip a = ip -> decode i = DOk dI ->
    exec_d dI a (trc name a g i) = SGoto (Z.of_nat n) a (trc name a g i) -> ip + n < length code ->
    run_ok d ip (S ip) a g (upd a (ip + n) (a_ops a)) (trc name a g i).
  Proof.
    intros d a g i dI ip n Hf Hip Hd He Hlen. unfold upd. rewrite set_ops_id. split.
    - apply reaches_step. eapply step_goto; try eassumption. apply goto_fwd. exact Hlen.
    - apply ext_trc. lia.
  Qed.

  Lemma ext_reg_keep : forall d lo hi g g' k c v, ext d lo hi g g' -> k < d -> small k ->
    find_in_function (reg k) (frames g) = Some c -> cell_get g c = Some v ->
    find_in_function (reg k) (frames g') = Some c /\ cell_get g' c = Some v.
  Proof.
    intros d lo hi g g' k c v He Hk Hs Hf Hc. split.
    - rewrite (ext_find _ _ _ _ _ He); [exact Hf|]. intros (k' & Hle & Hs' & E).
      apply reg_inj in E; [lia|assumption|assumption].
    - eapply ext_cell_get; eassumption.
  Qed.

  (* ENoVal (a call of a function that returns none) does not occur in the fragment *)
  Definition sim_post (d k len : nat) (s : rstate) (a : act) (g : gstate) (r : eres) : Prop :=
    match r with
    | EVal v s' => s' = s /\ first_order v /\ exists g', run_ok d k (k + len) a g (upd a (k + len) [inj v]) g'
    | EFail f s' => s' = s /\ run_fail d k (k + len) a g f
    | EFuel => True
    | ENoVal _ => False
    end.

  Definition sim_spec (e : expr) : Prop :=
    forall d fuel k a g env s,
      lits_ok e = true -> (forall x, In x (used_e e) -> var_ok env s x) ->
      small (d + length (pcode d e) + 3) ->
      code_at code k (pcode d e) -> k + length (pcode d e) < length code ->
      a_ip a = k -> a_ops a = [] -> frames g <> [] -> Renv env s a g ->
      sim_post d k (length (pcode d e)) s a g (eval fuel env e s).

  (* sim_spec with its hypotheses in three bundles *)
  Definition placed (d k : nat) (e : expr) (env : fenv) (s : rstate) : Prop :=
    lits_ok e = true /\ (forall x, In x (used_e e) -> var_ok env s x) /\
    small (d + length (pcode d e) + 3) /\ code_at code k (pcode d e) /\ k + length (pcode d e) < length code.
  Definition live (env : fenv) (s : rstate) (a : act) (g : gstate) : Prop := frames g <> [] /\ Renv env s a g.
  Definition ready (k : nat) (env : fenv) (s : rstate) (a : act) (g : gstate) : Prop :=
    a_ip a = k /\ a_ops a = [] /\ live env s a g.
  Definition simulates (e : expr) : Prop :=
    forall d fuel k a g env s, placed d k e env s -> ready k env s a g ->
      sim_post d k (length (pcode d e)) s a g (eval fuel env e s).

  Lemma live_run : forall env s d lo hi a g a' g', live env s a g -> run_ok d lo hi a g a' g' -> a_cb a' = a_cb a ->
    live env s a' g'.
  Proof.
    intros env s d lo hi a g a' g' [Hf HR] [_ E] Hcb. split; [eapply ext_frames_ne|eapply Renv_ext]; eassumption.
  Qed.

  Lemma live_trc : forall env s a g i ip ops, live env s a g -> live env s (upd a ip ops) (trc name a g i).
  Proof.
    intros env s a g i ip ops [Hf HR]. split; [exact Hf|].
    eapply Renv_ext; [exact HR|apply (ext_trc name 0 (a_ip a) (S (a_ip a))); lia|reflexivity].
  Qed.

  Lemma placed_unary : forall d k e ea i env s,
    pcode d e = pcode (S d) ea ++ [i] -> lits_ok e = lits_ok ea -> used_e e = used_e ea ->
    placed d k e env s ->
    placed (S d) k ea env s /\ nth_error code (k + length (pcode (S d) ea)) = Some i /\
    length (pcode d e) = length (pcode (S d) ea) + 1.
  Proof.
    intros d k e ea i env s Ec El Eu (Hl & Hv & Hsm & Hc & Hend).
    rewrite Ec in *. rewrite app_length in *. cbn [length] in *.
    apply code_at_app in Hc as [Hca Hi]. apply code_at_cons in Hi as [Hi _].
    split; [|split; [exact Hi|reflexivity]]. rewrite El in Hl. rewrite Eu in Hv.
    split; [exact Hl|]. split; [exact Hv|]. split; [eapply small_le; [|exact Hsm]; lia|]. split; [exact Hca|lia].
  Qed.

  Lemma placed_binary : forall d k e ea eb i1 tail env s,
    pcode d e = pcode (S d) ea ++ i1 :: pcode (S d) eb ++ tail ->
    lits_ok e = lits_ok ea && lits_ok eb -> used_e e = used_e ea ++ used_e eb ->
    placed d k e env s ->
    let la := length (pcode (S d) ea) in
    let lb := length (pcode (S d) eb) in
    placed (S d) k ea env s /\ nth_error code (k + la) = Some i1 /\
    placed (S d) (S (k + la)) eb env s /\ code_at code (S (k + la) + lb) tail /\
    small d /\ small (lb + S (length tail)) /\ k + la + (lb + S (length tail)) < length code /\
    length (pcode d e) = la + S (lb + length tail).
  Proof.
    intros d k e ea eb i1 tail env s Ec El Eu (Hl & Hv & Hsm & Hc & Hend) la lb.
    rewrite Ec in *. rewrite app_length in *. cbn [length] in *. rewrite app_length in *. fold la lb in Hsm, Hend |- *.
    apply code_at_app in Hc as [Hca Hc]. apply code_at_cons in Hc as [Hi1 Hc]. apply code_at_app in Hc as [Hcb Ht].
    rewrite El in Hl. apply Bool.andb_true_iff in Hl as [Hla Hlb].
    rewrite Eu in Hv. assert (Hva := fun x H => Hv x (in_or_app _ _ x (or_introl H))).
    assert (Hvb := fun x H => Hv x (in_or_app _ _ x (or_intror H))).
    assert (Hsm' : forall n, n <= d + (la + S (lb + length tail)) + 3 -> small n) by (intros n H; exact (small_le _ _ H Hsm)).
    split; [split; [exact Hla|]; split; [exact Hva|]; split; [apply Hsm'; lia|]; split; [exact Hca|lia]|].
    split; [exact Hi1|].
    split; [split; [exact Hlb|]; split; [exact Hvb|]; split; [apply Hsm'; lia|]; split; [exact Hcb|lia]|].
    split; [exact Ht|]. split; [apply Hsm'; lia|]. split; [apply Hsm'; lia|]. split; [lia|reflexivity].
  Qed.

  Lemma sim_post_run : forall d k n m s a g ops g1 r,
    run_ok d k (k + n) a g (upd a (k + n) ops) g1 ->
    sim_post d (k + n) m s (upd a (k + n) ops) g1 r -> sim_post d k (n + m) s a g r.
  Proof.
    intros d k n m s a g ops g1 r R1 H.
    destruct r as [v s'|s'|f s'|]; cbn [sim_post] in *; try exact H; rewrite Nat.add_assoc.
    - destruct H as (-> & Hfo & g2 & R2). split; [reflexivity|]. split; [exact Hfo|]. exists g2.
      exact (run_ok_app _ _ _ _ _ _ _ _ _ _ R1 R2).
    - destruct H as [-> Hf]. split; [reflexivity|]. exact (run_fail_app _ _ _ _ _ _ _ _ _ R1 Hf).
  Qed.

  Lemma sim_post_step : forall d k m s a g ops g1 r,
    run_ok d k (S k) a g (upd a (S k) ops) g1 ->
    sim_post d (S k) m s (upd a (S k) ops) g1 r -> sim_post d k (S m) s a g r.
  Proof.
    intros d k m s a g ops g1 r. rewrite <- (Nat.add_1_r k). exact (sim_post_run d k 1 m s a g ops g1 r).
  Qed.

  Lemma sim_post_weaken : forall d d' k len s a g r, d <= d' -> sim_post d' k len s a g r -> sim_post d k len s a g r.
  Proof.
    intros d d' k len s a g r Hd H. destruct r as [v s'|s'|f s'|]; cbn [sim_post] in *; try exact H.
    - destruct H as (-> & Hfo & g' & R). split; [reflexivity|]. split; [exact Hfo|]. exists g'.
      eapply run_ok_weaken; [exact R|exact Hd|lia..].
    - destruct H as [-> Hf]. split; [reflexivity|]. eapply run_fail_weaken; [exact Hf|exact Hd|lia..].
  Qed.

  Lemma sim_post_fail : forall d k m s a g f, run_fail d k (S k) a g f -> sim_post d k (S m) s a g (EFail f s).
  Proof. intros d k m s a g f H. split; [reflexivity|]. eapply run_fail_weaken; [exact H|lia..]. Qed.

  Lemma sim_finish : forall d k s a g i dI r,
    nth_error code k = Some i -> a_ip a = k -> decode i = DOk dI ->
    agrees s r a (trc name a g i) (exec_d dI a (trc name a g i)) -> sim_post d k 1 s a g r.
  Proof.
    intros d k s a g i dI r Hi Hip Hd H.
    destruct r as [v s'|s'|f s'|]; cbn [agrees sim_post] in *; try contradiction; rewrite Nat.add_1_r.
    - destruct H as (-> & Hfo & He). split; [reflexivity|]. split; [exact Hfo|]. eexists.
      eapply run_step_next; eassumption.
    - destruct H as (-> & e & He & Hr). split; [reflexivity|]. eapply run_step_fail; eassumption.
  Qed.

  Lemma sim_post_jump : forall d k n m s a g i dI v,
    nth_error code k = Some i -> a_ip a = k -> decode i = DOk dI -> a_ops a = [inj v] -> first_order v ->
    exec_d dI a (trc name a g i) = SGoto (Z.of_nat n) a (trc name a g i) -> n = S m -> k + n < length code ->
    sim_post d k (S m) s a g (EVal v s).
  Proof.
    intros d k n m s a g i dI v Hi Hip Hd Hops Hfo He -> Hlen. split; [reflexivity|]. split; [exact Hfo|]. eexists.
    rewrite <- Hops. eapply run_ok_weaken; [eapply (run_step_goto d); eassumption|lia..].
  Qed.

  (* run an operand and dispatch on its result: only a value lets the rest of the code run *)
  Lemma sim_operand : forall e, simulates e -> forall d fuel k m a g env s N K,
    placed (S d) k e env s -> ready k env s a g ->
    let k' := k + length (pcode (S d) e) in
    (forall v g1, first_order v -> run_ok (S d) k k' a g (upd a k' [inj v]) g1 -> live env s (upd a k' [inj v]) g1 ->
       sim_post d k' m s (upd a k' [inj v]) g1 (K v s)) ->
    sim_post d k (length (pcode (S d) e) + m) s a g (on_value (eval fuel env e s) N K).
  Proof.
    intros e IH d fuel k m a g env s N K Hp Hr k' Hk. pose proof (IH (S d) fuel k a g env s Hp Hr) as H.
    destruct (eval fuel env e s) as [v s'|s'|f s'|]; cbn [sim_post on_value] in *; [|contradiction| |exact Logic.I].
    - destruct H as (-> & Hfo & g1 & R1).
      eapply sim_post_run; [exact (run_ok_weaken d k _ _ _ _ _ _ _ _ R1 (le_S _ _ (le_n d)) (le_n _) (le_n _))|].
      apply Hk; [exact Hfo|exact R1|exact (live_run _ _ _ _ _ _ _ _ _ (proj2 (proj2 Hr)) R1 eq_refl)].
    - destruct H as [-> Hf]. split; [reflexivity|]. eapply run_fail_weaken; [exact Hf|lia..].
  Qed.

  (* i is store_fast, or store_skip when it does not jump: it parks v in #d ... *)
  Lemma sim_park : forall d k m s env a g i dI v e0 r,
    nth_error code k = Some i -> a_ip a = k -> decode i = DOk dI -> small d -> live env s a g ->
    (forall g0, exec_d dI a g0 = match bind_local g0 (reg d) v with
                                 | Some g' => SNext (set_ops a []) g' | None => SFail e0 end) ->
    (forall g1 c, live env s (upd a (S k) []) g1 ->
       find_in_function (reg d) (frames g1) = Some c -> cell_get g1 c = Some v ->
       sim_post d (S k) m s (upd a (S k) []) g1 r) ->
    sim_post d k (S m) s a g r.
  Proof.
    intros d k m s env a g i dI v e0 r Hi Hip Hd Hs Hlv He K.
    destruct (bind_local_ext (trc name a g i) d v (k + 1) (k + 1 + 0) (proj1 Hlv) Hs) as (g1 & c & Hb & Hx & Hf & Hc).
    pose proof (ext_app d k 1 0 g _ g1 (ext_trc name d k (k + 1) a g i ltac:(lia)) Hx) as E.
    rewrite Nat.add_0_r, Nat.add_1_r in E.
    assert (R : run_ok d k (S k) a g (upd a (S k) []) g1).
    { split; [|exact E]. apply reaches_step. eapply step_next; try eassumption. rewrite He, Hb. reflexivity. }
    eapply sim_post_step; [exact R|]. exact (K g1 c (live_run _ _ _ _ _ _ _ _ _ Hlv R eq_refl) Hf Hc).
  Qed.

  (* ... and `load_fast #d` brings it back, whatever code of depth > d has run in between (g0 to g) *)
  Lemma sim_unpark : forall d k m s a g0 g lo hi c v r,
    nth_error code k = Some (mkI OP_LOAD_FAST [reg d]) -> a_ip a = k -> small d ->
    find_in_function (reg d) (frames g0) = Some c -> cell_get g0 c = Some v -> ext (S d) lo hi g0 g ->
    sim_post d (S k) m s (upd a (S k) (a_ops a ++ [v])) (trc name a g (mkI OP_LOAD_FAST [reg d])) r ->
    sim_post d k (S m) s a g r.
  Proof.
    intros d k m s a g0 g lo hi c v r Hi Hip Hs Hf Hc He H.
    destruct (ext_reg_keep _ _ _ _ _ d c v He (le_n _) Hs Hf Hc) as [Hf' Hc'].
    eapply sim_post_step; [|exact H]. eapply run_step_next; [exact Hi|exact Hip|apply dec_load_fast|].
    exact (exec_load_fast (reg d) a (trc name a g _) c v Hf' Hc').
  Qed.

  Lemma sim_literal : forall e v i dI,
    (forall d, pcode d e = [i]) -> (lits_ok e = true -> decode i = DOk dI) ->
    (forall fuel env s, eval (S fuel) env e s = EVal v s) -> first_order v ->
    (forall a g, exec_d dI a g = SNext (set_ops a (a_ops a ++ [inj v])) g) -> simulates e.
  Proof.
    intros e v i dI Ec Hd Ev Hfo Hx d fuel k a g env s (Hl & _ & _ & Hc & _) (Hip & Hops & _).
    destruct fuel as [|fuel]; [exact Logic.I|]. rewrite Ev, Ec in *. apply code_at_cons in Hc as [Hi _].
    eapply sim_finish; [exact Hi|exact Hip|exact (Hd Hl)|]. apply agrees_val; [exact Hfo|].
    rewrite Hx, Hops. reflexivity.
  Qed.

  Lemma sim_EVar : forall x, simulates (EVar x).
  Proof.
    intros x d fuel k a g env s (_ & Hv & _ & Hc & _) (Hip & Hops & _ & HR).
    destruct fuel as [|fuel]; [exact Logic.I|]. rewrite eval_EVar.
    destruct (Hv x (or_introl eq_refl)) as (Hsrc & c & v & Hlk & Hget & Hfo). rewrite Hlk, Hget.
    destruct (HR x c v Hsrc Hlk Hget Hfo) as (c' & Hl1 & Hl2). apply code_at_cons in Hc as [Hi _].
    eapply sim_finish; [exact Hi|exact Hip|apply dec_load|]. apply agrees_val; [exact Hfo|].
    rewrite (exec_load x a (trc name a g _) c' (inj v) Hl1 Hl2), Hops. reflexivity.
  Qed.

  Lemma sim_ENot : forall ea, simulates ea -> simulates (ENot ea).
  Proof.
    intros ea IHa d fuel k a g env s Hp Hr. destruct fuel as [|fuel]; [exact Logic.I|]. rewrite eval_ENot.
    destruct (placed_unary d k (ENot ea) ea _ env s eq_refl eq_refl eq_refl Hp) as (Hpa & Hi & ->).
    eapply (sim_operand ea IHa); [exact Hpa|exact Hr|]. intros va g1 Hfo R1 Hl1.
    eapply sim_finish; [exact Hi|reflexivity|apply dec_not|apply not_agrees; reflexivity].
  Qed.

  Lemma sim_ENeg : forall ea, simulates ea -> simulates (ENeg ea).
  Proof.
    intros ea IHa d fuel k a g env s Hp Hr. destruct fuel as [|fuel]; [exact Logic.I|]. rewrite eval_ENeg.
    destruct (placed_unary d k (ENeg ea) ea _ env s eq_refl eq_refl eq_refl Hp) as (Hpa & Hi & ->).
    eapply (sim_operand ea IHa); [exact Hpa|exact Hr|]. intros va g1 Hfo R1 Hl1.
    eapply sim_finish; [exact Hi|reflexivity|apply dec_neg|apply neg_agrees; reflexivity].
  Qed.

  Lemma sim_EGet : forall ea sp, simulates ea -> simulates (EGet ea sp).
  Proof.
    intros ea sp IHa d fuel k a g env s Hp Hr. destruct fuel as [|fuel]; [exact Logic.I|]. rewrite eval_EGet.
    destruct (placed_unary d k (EGet ea sp) ea _ env s eq_refl eq_refl eq_refl Hp) as (Hpa & Hi & ->).
    eapply (sim_operand ea IHa); [exact Hpa|exact Hr|]. intros va g1 Hfo R1 Hl1.
    eapply sim_finish; [exact Hi|reflexivity|apply dec_unwrap|].
    eapply unwrap_agrees; [reflexivity|exact Hfo|destruct va; reflexivity].
  Qed.

  Lemma sim_EBin : forall o ea eb, simulates ea -> simulates eb -> simulates (EBin o ea eb).
  Proof.
    intros o ea eb IHa IHb d fuel k a g env s Hp Hr. destruct fuel as [|fuel]; [exact Logic.I|]. rewrite eval_EBin.
    destruct (placed_binary d k (EBin o ea eb) ea eb _ _ env s eq_refl eq_refl eq_refl Hp)
      as (Hpa & Hi1 & Hpb & Ht & Hsd & _ & _ & ->).
    apply code_at_cons in Ht as [Hi2 Ht]. apply code_at_cons in Ht as [Hi3 Ht]. apply code_at_cons in Ht as [Hi4 _].
    eapply (sim_operand ea IHa); [exact Hpa|exact Hr|]. intros va g1 Hfoa R1 Hl1.
    eapply (sim_park d _ _ s env _ g1 _ _ (inj va));
      [exact Hi1|reflexivity|apply dec_store_fast|exact Hsd|exact Hl1|intros g0; reflexivity|]. intros g2 c Hl2 Hf2 Hc2.
    eapply (sim_operand eb IHb); [exact Hpb|exact (conj eq_refl (conj eq_refl Hl2))|].
    intros vb g3 Hfob R3 Hl3.
    eapply sim_unpark; [exact Hi2|reflexivity|exact Hsd|exact Hf2|exact Hc2|exact (proj2 R3)|].
    eapply sim_post_step; [eapply run_step_next; [exact Hi3|reflexivity|apply dec_rev2|apply exec_rev2; reflexivity]|].
    destruct (op_agrees o va vb s) as (dI & Hd & Hag).
    eapply sim_finish; [exact Hi4|reflexivity|exact Hd|apply Hag; reflexivity].
  Qed.

  Lemma sim_logic : forall p ea eb, simulates ea -> simulates eb -> simulates (elogic p ea eb).
  Proof.
    intros p ea eb IHa IHb d fuel k a g env s Hp Hr. destruct fuel as [|fuel]; [exact Logic.I|]. rewrite eval_logic.
    destruct (placed_binary d k (elogic p ea eb) ea eb _ _ env s (pcode_logic p d ea eb) (lits_ok_logic p ea eb)
                (used_e_logic p ea eb) Hp) as (Hpa & Hi1 & Hpb & Ht & Hsd & Hsk & Hj & ->).
    apply code_at_cons in Ht as [Hi2 Ht]. apply code_at_cons in Ht as [Hi3 _].
    eapply (sim_operand ea IHa); [exact Hpa|exact Hr|]. intros va g1 Hfoa R1 Hl1.
    pose proof (dec_store_skip (reg d) p _ Hsk) as Hd1.
    pose proof (fun a1 g0 => exec_store_skip (reg d) p (Z.of_nat (length (pcode (S d) eb) + 3)) a1 g0 (inj va)) as He1.
    destruct va as [z|x|t| |p0 bd ev]; cbn [inj] in He1;
      try (apply sim_post_fail; eapply (run_step_fail d); [exact Hi1|reflexivity|exact Hd1|apply He1; reflexivity|cbn; auto]).
    destruct (if p then x else negb x) eqn:Ex.
    - (* it decides: jump over the right operand *)
      eapply sim_post_jump; [exact Hi1|reflexivity|exact Hd1|reflexivity|exact Logic.I|apply He1; reflexivity|apply Nat.add_succ_r|exact Hj].
    - (* it does not: park it in #d *)
      eapply (sim_park d _ _ s env _ g1 _ _ (VBool x)); [exact Hi1|reflexivity|exact Hd1|exact Hsd|exact Hl1|intros g0; apply He1; reflexivity|].
      intros g2 c Hl2 Hf2 Hc2.
      eapply (sim_operand eb IHb); [exact Hpb|exact (conj eq_refl (conj eq_refl Hl2))|]. intros vb g3 Hfob R3 Hl3.
      eapply sim_unpark; [exact Hi2|reflexivity|exact Hsd|exact Hf2|exact Hc2|exact (proj2 R3)|].
      eapply sim_finish; [exact Hi3|reflexivity|apply dec_bin_op|apply (logic_agrees s p x); [exact Ex|reflexivity]].
  Qed.

  Lemma sim_ENilOr : forall ea eb, simulates ea -> simulates eb -> simulates (ENilOr ea eb).
  Proof.
    intros ea eb IHa IHb d fuel k a g env s Hp Hr. destruct fuel as [|fuel]; [exact Logic.I|]. rewrite eval_ENilOr.
    destruct (placed_binary d k (ENilOr ea eb) ea eb _ [] env s ltac:(cbn [pcode]; now rewrite app_nil_r) eq_refl eq_refl Hp)
      as (Hpa & Hi1 & Hpb & _ & _ & Hsk & Hj & ->). rewrite Nat.add_0_r.
    eapply (sim_operand ea IHa); [exact Hpa|exact Hr|]. intros va g1 Hfoa R1 Hl1.
    pose proof (dec_jmp_not_nil _ Hsk) as Hd1.
    pose proof (fun a1 g0 => exec_jmp_not_nil (Z.of_nat (length (pcode (S d) eb) + 1)) a1 g0 (inj va)) as He1.
    destruct va as [z|x|t| |p0 bd ev]; cbn [inj] in He1;
      try (eapply sim_post_jump;
           [exact Hi1|reflexivity|exact Hd1|reflexivity|exact Hfoa|apply He1; reflexivity|apply Nat.add_1_r|exact Hj]).
    eapply sim_post_step; [eapply run_step_next; [exact Hi1|reflexivity|exact Hd1|apply He1; reflexivity]|].
    eapply sim_post_weaken; [|apply (IHb (S d) fuel _ _ _ env s Hpb)]; [lia|].
    exact (conj eq_refl (conj eq_refl (live_trc _ _ _ _ _ _ _ Hl1))).
  Qed.

  Lemma simulates_pure : forall e, pure e = true -> simulates e.
  Proof.
    induction e; intros Hp; cbn [pure] in Hp; try discriminate;
      try (apply Bool.andb_true_iff in Hp as [Hp1 Hp2]).
    - exact (sim_literal (EInt z) (RInt z) _ _ (fun _ => eq_refl) (dec_make_int z) (fun _ _ _ => eq_refl) Logic.I
                         (fun _ _ => eq_refl)).
    - exact (sim_literal (EBool b) (RBool b) _ _ (fun _ => eq_refl) (fun _ => dec_make_bool b) (fun _ _ _ => eq_refl)
                         Logic.I (fun _ _ => eq_refl)).
    - exact (sim_literal (EStr s) (RStr s) _ _ (fun _ => eq_refl) (fun _ => dec_make_str s) (fun _ _ _ => eq_refl)
                         Logic.I (fun _ _ => eq_refl)).
    - exact (sim_literal ENil RNil _ _ (fun _ => eq_refl) (fun _ => dec_reserve) (fun _ _ _ => eq_refl) Logic.I
                         (fun _ _ => eq_refl)).
    - apply sim_EVar.
    - apply sim_EBin; auto.
    - apply (sim_logic false); auto.
    - apply (sim_logic true); auto.
    - apply sim_ENot; auto.
    - apply sim_ENeg; auto.
    - apply sim_ENilOr; auto.
    - apply sim_EGet; auto.
  Qed.

  Theorem sim_pure : forall e, pure e = true -> sim_spec e.
  Proof.
    intros e Hp d fuel k a g env s Hl Hv Hsm Hc Hend Hip Hops Hfr HR.
    exact (simulates_pure e Hp d fuel k a g env s (conj Hl (conj Hv (conj Hsm (conj Hc Hend))))
                          (conj Hip (conj Hops (conj Hfr HR)))).
  Qed.
End Sim.

(* the C15 register invariant: every register below d and every source variable keeps its cell, and the cell its value *)
Definition regs_below_preserved (d : nat) (g g' : gstate) : Prop :=
  forall x c v, (src_name x \/ exists k, k < d /\ x = reg k) ->
    find_in_function x (frames g) = Some c -> cell_get g c = Some v ->
    find_in_function x (frames g') = Some c /\ cell_get g' c = Some v.

Definition frames_same_shape (g g' : gstate) : Prop :=
  map lab (frames g') = map lab (frames g) /\ tl (frames g') = tl (frames g).

Lemma ext_regs_below : forall d lo hi g g', small d -> ext d lo hi g g' -> regs_below_preserved d g g'.
Proof.
  intros d lo hi g g' Hs He x c v Hx Hf Hc. destruct Hx as [Hx|(k & Hk & ->)].
  - split; [|eapply ext_cell_get; eassumption].
    rewrite (ext_find _ _ _ _ _ He); [exact Hf|]. now apply own_reg_not_src.
  - eapply ext_reg_keep; try eassumption. eapply small_le; [|exact Hs]. lia.
Qed.

Lemma ev_sorted_nodup : forall new, ev_sorted new -> NoDup (map ev_ip new).
Proof.
  induction new as [|x l IH]; intros H; [constructor|].
  inversion H as [|? ? Hs Hf]; subst. cbn [map]. constructor; [|now apply IH].
  intros Hin. apply in_map_iff in Hin as (y & Ey & Hy).
  rewrite Forall_forall in Hf. specialize (Hf y Hy). cbn beta in Hf. lia.
Qed.

Theorem ext_once : forall d lo hi g g', ext d lo hi g g' ->
  exists new, trace g' = new ++ trace g /\ Forall (fun ev => lo <= ev_ip ev < hi) new /\
              ev_sorted new /\ NoDup (map ev_ip new).
Proof.
  intros d lo hi g g' H. destruct (ext_trace _ _ _ _ _ H) as (new & E & A & S).
  exists new. repeat split; try assumption. now apply ev_sorted_nodup.
Qed.

Lemma ext_shape : forall d lo hi g g', ext d lo hi g g' -> frames_same_shape g g'.
Proof. intros d lo hi g g' H. split; [eapply ext_labs|eapply ext_tail]; exact H. Qed.

Lemma upd_ip : forall a ip ops, a_ip (upd a ip ops) = ip. Proof. reflexivity. Qed.
Lemma upd_ops : forall a ip ops, a_ops (upd a ip ops) = ops. Proof. reflexivity. Qed.
Lemma upd_rest : forall a ip ops, a_fn (upd a ip ops) = a_fn a /\ a_args (upd a ip ops) = a_args a /\
                                  a_cb (upd a ip ops) = a_cb a /\ a_ss (upd a ip ops) = a_ss a.
Proof. intros. repeat split. Qed.

Lemma embed_length : forall (pre mid post : list instr), post <> [] ->
  length pre + length mid < length (pre ++ mid ++ post).
Proof. intros pre mid post H. rewrite !app_length. destruct post; [congruence|]. cbn [length]. lia. Qed.

Section Top.
Variable path : str.

(* C01/C15 for call-free expressions: value, failure (which one, hence evaluation ORDER), registers, frames.
   No bound on the nesting depth of e. *)
Theorem cexpr_correct : forall e, pure e = true -> lits_ok e = true ->
  forall d st name pre post a g env s fuel,
  post <> [] -> small (d + length (code_of path d e st) + 3) ->
  a_ip a = length pre -> a_ops a = [] -> frames g <> [] ->
  Renv env s a g -> (forall x, In x (used_e e) -> var_ok env s x) ->
  let mid := code_of path d e st in
  let code := pre ++ mid ++ post in
  let fin := length pre + length mid in
  match eval fuel env e s with
  | EVal v s' => s' = s /\ first_order v /\ exists n g',
        steps name code n (Running a g) = Running (upd a fin [inj v]) g' /\
        Renv env s (upd a fin [inj v]) g' /\ regs_below_preserved d g g' /\ out g' = out g /\
        frames_same_shape g g' /\ ext d (length pre) fin g g'
  | EFail f s' => s' = s /\ exists n e g',
        steps name code n (Running a g) = Failed e g' /\ err_rel f e /\ out g' = out g /\
        ext d (length pre) fin g g'
  | EFuel => True
  | ENoVal _ => False
  end.
Proof.
  intros e Hp Hl d st name pre post a g env s fuel Hpost Hsm Hip Hops Hfr HR Hv mid code fin.
  subst mid code fin. rewrite (code_of_pure path e d st Hp) in *.
  pose proof (sim_pure name (pre ++ pcode d e ++ post) e Hp d fuel (length pre) a g env s Hl Hv Hsm
                       (code_at_embed _ _ _) (embed_length _ _ _ Hpost) Hip Hops Hfr HR) as H.
  destruct (eval fuel env e s) as [v s1|s1|f s1|]; cbn [sim_post] in H; [|contradiction| |exact Logic.I].
  - destruct H as (-> & Hfo & g' & [[n Hn] He]). split; [reflexivity|]. split; [exact Hfo|].
    exists n, g'. split; [exact Hn|]. split; [|split; [|split; [|split]]].
    + eapply Renv_ext; [exact HR|exact He|reflexivity].
    + eapply ext_regs_below; [|exact He]. eapply small_le; [|exact Hsm]. lia.
    + eapply ext_out; exact He.
    + eapply ext_shape; exact He.
    + exact He.
  - destruct H as (-> & e0 & g' & [n Hn] & Hr & He). split; [reflexivity|].
    exists n, e0, g'. split; [exact Hn|]. split; [exact Hr|]. split; [eapply ext_out; exact He|exact He].
Qed.

(* the same run, seen by the interpreter loop of run_fn_gen itself (Verify.Sound.loop, tied by run_fn_gen_S) *)
Corollary cexpr_correct_loop : forall e, pure e = true -> lits_ok e = true ->
  forall d st name pre post a g env s fuel rc callee,
  post <> [] -> small (d + length (code_of path d e st) + 3) ->
  a_ip a = length pre -> a_ops a = [] -> frames g <> [] ->
  Renv env s a g -> (forall x, In x (used_e e) -> var_ok env s x) ->
  let mid := code_of path d e st in
  let code := pre ++ mid ++ post in
  let fin := length pre + length mid in
  match eval fuel env e s with
  | EVal v _ => exists n g', (forall k, loop rc callee name code (n + k) a g = loop rc callee name code k (upd a fin [inj v]) g') /\
                             ext d (length pre) fin g g'
  | EFail f _ => exists n e g', (forall k, loop rc callee name code (n + k) a g = RFail e g') /\ err_rel f e /\ out g' = out g
  | EFuel => True
  | ENoVal _ => False
  end.
Proof.
  intros e Hp Hl d st name pre post a g env s fuel rc callee Hpost Hsm Hip Hops Hfr HR Hv mid code fin.
  pose proof (cexpr_correct e Hp Hl d st name pre post a g env s fuel Hpost Hsm Hip Hops Hfr HR Hv) as H.
  cbv zeta in H. fold mid code fin in H.
  destruct (eval fuel env e s) as [v s1|s1|f s1|]; [|exact H| |exact Logic.I].
  - destruct H as (_ & _ & n & g' & Hn & _ & _ & _ & _ & He). exists n, g'. split; [|exact He].
    intros k. eapply loop_steps_running. exact Hn.
  - destruct H as (_ & n & e0 & g' & Hn & Hr & Ho & _). exists n, e0, g'. split; [|split; assumption].
    intros k. eapply loop_steps_failed. exact Hn.
Qed.

(* left to right, first failure wins: whatever the right operand is (it may itself fail, differently) *)
Corollary left_failure_first : forall o ea eb, pure (EBin o ea eb) = true -> lits_ok (EBin o ea eb) = true ->
  forall d st name pre post a g env s fuel f,
  post <> [] -> small (d + length (code_of path d (EBin o ea eb) st) + 3) ->
  a_ip a = length pre -> a_ops a = [] -> frames g <> [] ->
  Renv env s a g -> (forall x, In x (used_e (EBin o ea eb)) -> var_ok env s x) ->
  eval fuel env ea s = EFail f s ->
  exists n e g', steps name (pre ++ code_of path d (EBin o ea eb) st ++ post) n (Running a g) = Failed e g' /\
                 err_rel f e /\ out g' = out g.
Proof.
  intros o ea eb Hp Hl d st name pre post a g env s fuel f Hpost Hsm Hip Hops Hfr HR Hv Hev.
  pose proof (cexpr_correct _ Hp Hl d st name pre post a g env s (S fuel) Hpost Hsm Hip Hops Hfr HR Hv) as H.
  cbv zeta in H. rewrite eval_EBin, Hev in H.
  destruct H as (_ & n & e & g' & Hn & Hr & Ho & _). exists n, e, g'. auto.
Qed.

Corollary right_failure_second : forall o ea eb, pure (EBin o ea eb) = true -> lits_ok (EBin o ea eb) = true ->
  forall d st name pre post a g env s fuel va f,
  post <> [] -> small (d + length (code_of path d (EBin o ea eb) st) + 3) ->
  a_ip a = length pre -> a_ops a = [] -> frames g <> [] ->
  Renv env s a g -> (forall x, In x (used_e (EBin o ea eb)) -> var_ok env s x) ->
  eval fuel env ea s = EVal va s -> eval fuel env eb s = EFail f s ->
  exists n e g', steps name (pre ++ code_of path d (EBin o ea eb) st ++ post) n (Running a g) = Failed e g' /\
                 err_rel f e /\ out g' = out g.
Proof.
  intros o ea eb Hp Hl d st name pre post a g env s fuel va f Hpost Hsm Hip Hops Hfr HR Hv Hev1 Hev2.
  pose proof (cexpr_correct _ Hp Hl d st name pre post a g env s (S fuel) Hpost Hsm Hip Hops Hfr HR Hv) as H.
  cbv zeta in H. rewrite eval_EBin, Hev1, Hev2 in H.
  destruct H as (_ & n & e & g' & Hn & Hr & Ho & _). exists n, e, g'. auto.
Qed.

Lemma code_of_logic_any : forall p ea eb d st, pure ea = true ->
  code_of path d (elogic p ea eb) st =
  pcode (S d) ea ++ [mkI OP_STORE_SKIP [reg d; if p then s_one else s_zero; sN (length (code_of path (S d) eb st) + 3)]]
    ++ (code_of path (S d) eb st ++ [mkI OP_LOAD_FAST [reg d]; mkI OP_BIN_OP [if p then op_or else op_and]]).
Proof.
  intros p ea eb d st Hp. unfold code_of.
  destruct p; cbn [elogic]; [rewrite cexpr_EOr|rewrite cexpr_EAnd]; rewrite !let_pair, (cexpr_pure path ea Hp);
    cbn [fst snd]; rewrite !strip_app, strip_map_CI, strip_CI_length by apply cexpr_only_instructions; reflexivity.
Qed.
Lemma code_of_ENilOr_any : forall ea eb d st, pure ea = true ->
  code_of path d (ENilOr ea eb) st =
  pcode (S d) ea ++ [mkI OP_JMP_NOT_NIL [sN (length (code_of path (S d) eb st) + 1)]] ++ code_of path (S d) eb st.
Proof.
  intros ea eb d st Hp. unfold code_of. rewrite cexpr_ENilOr, !let_pair, (cexpr_pure path ea Hp). cbn [fst snd].
  rewrite !strip_app, strip_map_CI, strip_CI_length by apply cexpr_only_instructions. reflexivity.
Qed.

(* short-circuit: the call-free left operand `ea` of `e` has the value v, which decides e.  The machine reaches the end
   of the code of e with [v], having executed ONLY ea's code and the instruction after it (trace component of `ext`).
   The right operand is ARBITRARY (calls, function literals, ill-scoped, failing ...): none of its instructions runs. *)
Definition skip_stmt (e ea : expr) (v : rvalue) : Prop :=
  forall d st name pre post a g env s fuel,
  pure ea = true -> lits_ok ea = true ->
  post <> [] -> small (d + length (code_of path d e st) + 3) ->
  a_ip a = length pre -> a_ops a = [] -> frames g <> [] ->
  Renv env s a g -> (forall x, In x (used_e ea) -> var_ok env s x) ->
  eval fuel env ea s = EVal v s ->
  exists n g',
    steps name (pre ++ code_of path d e st ++ post) n (Running a g)
      = Running (upd a (length pre + length (code_of path d e st)) [inj v]) g' /\
    ext (S d) (length pre) (length pre + length (code_of path (S d) ea st) + 1) g g'.

Lemma skip_top : forall e ea v,
  (forall d st, pure ea = true -> small (d + length (code_of path d e st) + 3) ->
     exists i1 dI rest, code_of path d e st = pcode (S d) ea ++ [i1] ++ rest /\ decode i1 = DOk dI /\
       forall a0 g0, a_ops a0 = [inj v] -> exec_d dI a0 g0 = SGoto (Z.of_nat (length rest + 1)) a0 g0) ->
  skip_stmt e ea v.
Proof.
  intros e ea v Hshape d st name pre post a g env s fuel Hpa Hla Hpost Hsm Hip Hops Hfr HR Hv Hev.
  destruct (Hshape d st Hpa Hsm) as (i1 & dI & rest & Hlay & Hd1 & He1). rewrite (code_of_pure path _ (S d) st Hpa).
  pose proof (code_at_embed pre (code_of path d e st) post) as Hc.
  pose proof (embed_length pre (code_of path d e st) post Hpost) as Hend.
  rewrite Hlay in Hc, Hend, Hsm |- *. rewrite !app_length in Hend, Hsm |- *. cbn [length] in Hend, Hsm |- *.
  apply code_at_app in Hc as [Hca Hc]. apply code_at_cons in Hc as [Hi1 _].
  pose proof (sim_pure name _ ea Hpa (S d) fuel (length pre) a g env s Hla Hv ltac:(eapply small_le; [|exact Hsm]; lia)
                       Hca ltac:(lia) Hip Hops Hfr HR) as Ha.
  rewrite Hev in Ha. destruct Ha as (_ & _ & g1 & R1). set (a1 := upd a _ [inj v]) in R1.
  pose proof (run_step_goto name _ (S d) a1 g1 i1 dI _ (length rest + 1) Hi1 eq_refl Hd1 (He1 a1 _ eq_refl) ltac:(lia)) as R2.
  rewrite <- (Nat.add_1_r (_ + _)) in R2. destruct (run_ok_app _ _ _ _ _ _ _ _ _ _ _ _ R1 R2) as [[n Hn] He].
  exists n. eexists. split; [|exact He]. rewrite Hn, <- Nat.add_assoc, (Nat.add_comm 1 (length rest)). reflexivity.
Qed.

Lemma logic_skips_right : forall p ea eb, skip_stmt (elogic p ea eb) ea (RBool p).
Proof.
  intros p ea eb. apply skip_top. intros d st Hpa Hsm. pose proof (code_of_logic_any p ea eb d st Hpa) as Hlay.
  eexists _, (DStoreSkip (reg d) p (Z.of_nat (length (code_of path (S d) eb st) + 3))), _.
  split; [exact Hlay|]. split.
  - apply dec_store_skip. eapply small_le; [|exact Hsm]. rewrite Hlay, !app_length. cbn [length]. lia.
  - intros a0 g0 H0. rewrite (exec_store_skip _ _ _ _ _ _ H0). cbn [inj]. rewrite app_length, <- Nat.add_assoc.
    destruct p; reflexivity.
Qed.

Corollary and_false_skips_right : forall ea eb, skip_stmt (EAnd ea eb) ea (RBool false).
Proof. exact (logic_skips_right false). Qed.

Corollary or_true_skips_right : forall ea eb, skip_stmt (EOr ea eb) ea (RBool true).
Proof. exact (logic_skips_right true). Qed.

Corollary nilor_nonnil_skips_right : forall ea eb v, v <> RNil -> skip_stmt (ENilOr ea eb) ea v.
Proof.
  intros ea eb v Hnn. apply skip_top. intros d st Hpa Hsm. pose proof (code_of_ENilOr_any ea eb d st Hpa) as Hlay.
  eexists _, (DJmpNotNil (Z.of_nat (length (code_of path (S d) eb st) + 1))), _. split; [exact Hlay|]. split.
  - apply dec_jmp_not_nil. eapply small_le; [|exact Hsm]. rewrite Hlay, !app_length. cbn [length]. lia.
  - intros a0 g0 H0. rewrite (exec_jmp_not_nil _ _ _ _ H0). destruct v; try reflexivity. congruence.
Qed.

(* register non-interference, the invariant C15 singles out: code compiled at depth d leaves every #k, k < d, in the
   cell it had, with the value it had *)
Corollary regs_noninterference : forall e, pure e = true -> lits_ok e = true ->
  forall d st name pre post a g env s fuel v,
  post <> [] -> small (d + length (code_of path d e st) + 3) ->
  a_ip a = length pre -> a_ops a = [] -> frames g <> [] ->
  Renv env s a g -> (forall x, In x (used_e e) -> var_ok env s x) ->
  eval fuel env e s = EVal v s ->
  exists n g', steps name (pre ++ code_of path d e st ++ post) n (Running a g)
                 = Running (upd a (length pre + length (code_of path d e st)) [inj v]) g' /\
    forall k c w, k < d -> find_in_function (reg k) (frames g) = Some c -> cell_get g c = Some w ->
                  find_in_function (reg k) (frames g') = Some c /\ cell_get g' c = Some w.
Proof.
  intros e Hp Hl d st name pre post a g env s fuel v Hpost Hsm Hip Hops Hfr HR Hv Hev.
  pose proof (cexpr_correct _ Hp Hl d st name pre post a g env s fuel Hpost Hsm Hip Hops Hfr HR Hv) as H.
  cbv zeta in H. rewrite Hev in H. destruct H as (_ & _ & n & g' & Hn & _ & Hreg & _).
  exists n, g'. split; [exact Hn|]. intros k c w Hk Hf Hc. apply (Hreg (reg k) c w); [right; exists k; auto|exact Hf|exact Hc].
Qed.
End Top.

Fixpoint height (e : expr) : nat :=
  match e with
  | EBin _ a b | EAnd a b | EOr a b | ENilOr a b => S (Nat.max (height a) (height b))
  | ENot a | ENeg a | EGet a _ => S (height a)
  | _ => 0
  end.

Lemma binop_sem_not_fuel : forall o a b s, binop_sem o a b s <> EFuel.
Proof.
  intros o a b s E. destruct (arith_op_dec o) as [->|[->|Ho]];
    [pose proof (eq_agree a b s) as H|pose proof (neq_agree a b s) as H|pose proof (binop_agree o a b s Ho) as H];
    rewrite E in H; exact H.
Qed.

Lemma on_value_not_fuel : forall r N K, r <> EFuel -> (forall s, N s <> EFuel) -> (forall v s, K v s <> EFuel) ->
  on_value r N K <> EFuel.
Proof. intros [v s|s|f s|] N K Hr HN HK; cbn [on_value]; auto; discriminate. Qed.

Lemma eval_pure_fuel : forall e, pure e = true -> forall fuel env s0, height e < fuel -> eval fuel env e s0 <> EFuel.
Proof.
  induction e; intros Hp fuel env s0 Hh; cbn [pure] in Hp; try discriminate;
    try (apply Bool.andb_true_iff in Hp as [Hp1 Hp2]);
    (destruct fuel as [|fuel]; [lia|]); cbn [height] in Hh; try discriminate.
  - rewrite eval_EVar. destruct (lookup_scopes _ _); [destruct (sget _ _)|]; discriminate.
  - rewrite eval_EBin. apply on_value_not_fuel; [apply IHe1; [exact Hp1|lia]|discriminate|intros va s1].
    apply on_value_not_fuel; [apply IHe2; [exact Hp2|lia]|discriminate|intros; apply binop_sem_not_fuel].
  - rewrite eval_EAnd. apply on_value_not_fuel; [apply IHe1; [exact Hp1|lia]|discriminate|].
    intros [z|[|]|t| |p b c] s1; try discriminate.
    apply on_value_not_fuel; [apply IHe2; [exact Hp2|lia]|discriminate|intros [] ?; discriminate].
  - rewrite eval_EOr. apply on_value_not_fuel; [apply IHe1; [exact Hp1|lia]|discriminate|].
    intros [z|[|]|t| |p b c] s1; try discriminate.
    apply on_value_not_fuel; [apply IHe2; [exact Hp2|lia]|discriminate|intros [] ?; discriminate].
  - rewrite eval_ENot. apply on_value_not_fuel; [apply IHe; [exact Hp|lia]|discriminate|intros [] ?; discriminate].
  - rewrite eval_ENeg. apply on_value_not_fuel; [apply IHe; [exact Hp|lia]|discriminate|].
    intros [] ?; try discriminate. unfold arith_res. destruct (i32_ok (- z)); discriminate.
  - rewrite eval_ENilOr. apply on_value_not_fuel; [apply IHe1; [exact Hp1|lia]|discriminate|].
    intros [] ?; try discriminate. apply IHe2; [exact Hp2|lia].
  - rewrite eval_EGet. apply on_value_not_fuel; [apply IHe; [exact Hp|lia]|discriminate|intros [] ?; discriminate].
Qed.
