(* C07, static half: the capture list the code generator attaches to `make_function` (Compile.free_vars, the model of
   compiler/src/ast.rs get_net_dependencies & co.) is EXACTLY the set of free variables of the function literal, for a
   declarative definition of "free" (FreeE / FreeS / FreeBlock) written independently of the code of fv_e / fv_s. *)
From MS Require Import Vm.Model Lang.Syntax Compile.Compile Compile.ExprBase.
From Coq Require Import Lia.
Open Scope nat_scope.


(* only a plain assignment `x = e` introduces a name for the statements that FOLLOW it in the same block *)
Definition binds (s : stmt) : list str :=
  match s with SAssign x _ => [x] | _ => [] end.

(* a named loop counter is local inside the loop (body and step expression) *)
Definition counter_scope (name : option str) (bound : list str) : list str :=
  match name with Some c => c :: bound | None => bound end.

(* `FreeE bound e x`: x occurs free in e, where `bound` are the locals of the function being analysed at the point where
   e stands; FreeS for one statement, FreeBlock for a block (a function body: bound = parameters) *)
Inductive FreeE : list str -> expr -> str -> Prop :=
| FE_Var : forall bound x, ~ In x bound -> FreeE bound (EVar x) x
| FE_BinL : forall bound o a b x, FreeE bound a x -> FreeE bound (EBin o a b) x
| FE_BinR : forall bound o a b x, FreeE bound b x -> FreeE bound (EBin o a b) x
| FE_AndL : forall bound a b x, FreeE bound a x -> FreeE bound (EAnd a b) x
| FE_AndR : forall bound a b x, FreeE bound b x -> FreeE bound (EAnd a b) x
| FE_OrL : forall bound a b x, FreeE bound a x -> FreeE bound (EOr a b) x
| FE_OrR : forall bound a b x, FreeE bound b x -> FreeE bound (EOr a b) x
| FE_NilOrL : forall bound a b x, FreeE bound a x -> FreeE bound (ENilOr a b) x
| FE_NilOrR : forall bound a b x, FreeE bound b x -> FreeE bound (ENilOr a b) x
| FE_Not : forall bound a x, FreeE bound a x -> FreeE bound (ENot a) x
| FE_Neg : forall bound a x, FreeE bound a x -> FreeE bound (ENeg a) x
| FE_Get : forall bound a sp x, FreeE bound a x -> FreeE bound (EGet a sp) x
| FE_CallFn : forall bound f args x, FreeE bound f x -> FreeE bound (ECall f args) x
| FE_CallArg : forall bound f args a x, In a args -> FreeE bound a x -> FreeE bound (ECall f args) x
| FE_SelfArg : forall bound args a x, In a args -> FreeE bound a x -> FreeE bound (ESelf args) x
| FE_Fn : forall bound ps body x, FreeBlock ps body x -> ~ In x bound -> FreeE bound (EFn ps body) x

with FreeS : list str -> stmt -> str -> Prop :=
(* x = e : the right-hand side is evaluated BEFORE x is (re)bound *)
| FS_Assign : forall bound y e x, FreeE bound e x -> FreeS bound (SAssign y e) x
(* modify x = e  and  x op= e  USE x *)
| FS_ModifyTarget : forall bound x e, ~ In x bound -> FreeS bound (SModify x e) x
| FS_ModifyRhs : forall bound y e x, FreeE bound e x -> FreeS bound (SModify y e) x
| FS_OpAssignTarget : forall bound x o e, ~ In x bound -> FreeS bound (SOpAssign x o e) x
| FS_OpAssignRhs : forall bound y o e x, FreeE bound e x -> FreeS bound (SOpAssign y o e) x
| FS_Print : forall bound e x, FreeE bound e x -> FreeS bound (SPrint e) x
| FS_Assert : forall bound e sp x, FreeE bound e x -> FreeS bound (SAssert e sp) x
| FS_Expr : forall bound e x, FreeE bound e x -> FreeS bound (SExpr e) x
| FS_Return : forall bound e x, FreeE bound e x -> FreeS bound (SReturn (Some e)) x
| FS_IfCond : forall bound c b x, FreeE bound c x -> FreeS bound (SIf c b) x
| FS_IfBody : forall bound c b x, FreeBlock bound b x -> FreeS bound (SIf c b) x
| FS_IfElseCond : forall bound c b e x, FreeE bound c x -> FreeS bound (SIfElse c b e) x
| FS_IfElseThen : forall bound c b e x, FreeBlock bound b x -> FreeS bound (SIfElse c b e) x
| FS_IfElseElse : forall bound c b e x, FreeBlock bound e x -> FreeS bound (SIfElse c b e) x
| FS_IfElifCond : forall bound c b n x, FreeE bound c x -> FreeS bound (SIfElif c b n) x
| FS_IfElifThen : forall bound c b n x, FreeBlock bound b x -> FreeS bound (SIfElif c b n) x
| FS_IfElifNext : forall bound c b n x, FreeS bound n x -> FreeS bound (SIfElif c b n) x
| FS_WhileCond : forall bound c b x, FreeE bound c x -> FreeS bound (SWhile c b) x
| FS_WhileBody : forall bound c b x, FreeBlock bound b x -> FreeS bound (SWhile c b) x
(* from a to b [step e] [, name] { body }: the range ends are evaluated outside the loop; a counter that collides with
   an existing variable IS that variable (a use) *)
| FS_FromLo : forall bound a b incl step name collide body x,
    FreeE bound a x -> FreeS bound (SFrom a b incl step name collide body) x
| FS_FromHi : forall bound a b incl step name collide body x,
    FreeE bound b x -> FreeS bound (SFrom a b incl step name collide body) x
| FS_FromCounter : forall bound a b incl step c body,
    ~ In c bound -> FreeS bound (SFrom a b incl step (Some c) true body) c
| FS_FromBody : forall bound a b incl step name collide body x,
    FreeBlock (counter_scope name bound) body x -> FreeS bound (SFrom a b incl step name collide body) x
| FS_FromStep : forall bound a b incl e name collide body x,
    FreeE (counter_scope name bound) e x -> FreeS bound (SFrom a b incl (Some e) name collide body) x

with FreeBlock : list str -> list stmt -> str -> Prop :=
| FB_Here : forall bound s l x, FreeS bound s x -> FreeBlock bound (s :: l) x
(* bindings made inside the blocks of an if / while / from do not escape: `binds` of those statements is empty *)
| FB_Later : forall bound s l x, FreeBlock (binds s ++ bound) l x -> FreeBlock bound (s :: l) x.

Definition free_e (bound : list str) (e : expr) (x : str) : Prop :=
  match e with
  | EInt _ | EBool _ | EStr _ | ENil => False
  | EVar y => x = y /\ ~ In y bound
  | EBin _ a b | EAnd a b | EOr a b | ENilOr a b => FreeE bound a x \/ FreeE bound b x
  | ENot a | ENeg a | EGet a _ => FreeE bound a x
  | ECall f args => FreeE bound f x \/ exists a, In a args /\ FreeE bound a x
  | ESelf args => exists a, In a args /\ FreeE bound a x
  | EFn ps body => FreeBlock ps body x /\ ~ In x bound
  end.
Definition free_s (bound : list str) (s : stmt) (x : str) : Prop :=
  match s with
  | SAssign _ e | SPrint e | SAssert e _ | SExpr e | SReturn (Some e) => FreeE bound e x
  | SModify y e | SOpAssign y _ e => (x = y /\ ~ In y bound) \/ FreeE bound e x
  | SIf c b | SWhile c b => FreeE bound c x \/ FreeBlock bound b x
  | SIfElse c b e => FreeE bound c x \/ FreeBlock bound b x \/ FreeBlock bound e x
  | SIfElif c b n => FreeE bound c x \/ FreeBlock bound b x \/ FreeS bound n x
  | SFrom a b _ step name collide body =>
      FreeE bound a x \/ FreeE bound b x
      \/ (name = Some x /\ collide = true /\ ~ In x bound)
      \/ FreeBlock (counter_scope name bound) body x
      \/ (exists e, step = Some e /\ FreeE (counter_scope name bound) e x)
  | SBreak | SContinue | SReturn None => False
  end.

Lemma FreeE_iff : forall bound e x, FreeE bound e x <-> free_e bound e x.
Proof.
  intros bound e x. split.
  - destruct 1; cbn [free_e]; eauto.
  - destruct e; cbn [free_e]; intros H; decompose [or and ex] H; subst; eauto using FreeE; contradiction.
Qed.
Lemma FreeS_iff : forall bound s x, FreeS bound s x <-> free_s bound s x.
Proof.
  intros bound s x. split.
  - destruct 1; cbn [free_s]; eauto 8.
  - destruct s as [| | | | | | | | | | | | |[e|]]; cbn [free_s]; intros H; decompose [or and ex] H; subst;
      eauto using FreeS; contradiction.
Qed.
Lemma FreeBlock_nil : forall bound x, ~ FreeBlock bound [] x.
Proof. intros bound x H. inversion H. Qed.
Lemma FreeBlock_cons_iff : forall bound s l x,
  FreeBlock bound (s :: l) x <-> FreeS bound s x \/ FreeBlock (binds s ++ bound) l x.
Proof. intros. split; [intros H; inversion H; auto|intros [H|H]; [now apply FB_Here|now apply FB_Later]]. Qed.


Lemma mem_str_In : forall x l, mem_str x l = true <-> In x l.
Proof.
  intros x l. induction l as [|y l IH]; cbn [mem_str In].
  - split; [discriminate|intros []].
  - rewrite Bool.orb_true_iff, IH, str_eqb_eq. split; intros [H|H]; auto.
Qed.
Lemma mem_str_false : forall x l, mem_str x l = false <-> ~ In x l.
Proof.
  intros x l. rewrite <- mem_str_In. destruct (mem_str x l); split; intros H; congruence.
Qed.
Lemma In_minus : forall x a b, In x (minus a b) <-> In x a /\ ~ In x b.
Proof.
  intros x a b. unfold minus. rewrite filter_In, Bool.negb_true_iff, mem_str_false. reflexivity.
Qed.
Lemma In_dedup : forall x l, In x (dedup l) <-> In x l.
Proof.
  intros x l. induction l as [|y l IH]; cbn [dedup]; [reflexivity|].
  destruct (mem_str y l) eqn:E.
  - rewrite IH. cbn [In]. split; [auto|]. intros [<-|H]; [now apply mem_str_In|exact H].
  - cbn [In]. rewrite IH. reflexivity.
Qed.
Lemma NoDup_dedup : forall l, NoDup (dedup l).
Proof.
  induction l as [|y l IH]; cbn [dedup]; [constructor|].
  destruct (mem_str y l) eqn:E; [exact IH|].
  constructor; [|exact IH]. rewrite In_dedup. now apply mem_str_false.
Qed.
Lemma In_use : forall y bound x, In x (if mem_str y bound then [] else [y]) <-> x = y /\ ~ In y bound.
Proof.
  intros y bound x. destruct (mem_str y bound) eqn:E.
  - apply mem_str_In in E. split; [intros []|intros [_ H]; contradiction].
  - apply mem_str_false in E. cbn [In]. split; [intros [<-|[]]; auto|intros [-> _]; auto].
Qed.

(* the local loops of fv_e / fv_s as top-level functions *)
Definition fv_args (bound : list str) : list expr -> list str :=
  fix go (l : list expr) : list str := match l with [] => [] | a :: l => fv_e bound a ++ go l end.
Fixpoint fv_block (bd : list str) (l : list stmt) : list str :=
  match l with [] => [] | s :: l => let '(u, bd') := fv_s bd s in u ++ fv_block bd' l end.

Lemma fv_e_Call : forall bound f a, fv_e bound (ECall f a) = fv_e bound f ++ fv_args bound a.
Proof. reflexivity. Qed.
Lemma fv_e_Self : forall bound a, fv_e bound (ESelf a) = fv_args bound a.
Proof. reflexivity. Qed.
Lemma fv_e_Fn : forall bound ps body, fv_e bound (EFn ps body) = minus (fv_block ps body) bound.
Proof. reflexivity. Qed.
Lemma fv_s_If : forall bound c b, fv_s bound (SIf c b) = (fv_e bound c ++ fv_block bound b, bound).
Proof. reflexivity. Qed.
Lemma fv_s_IfElse : forall bound c b e,
  fv_s bound (SIfElse c b e) = (fv_e bound c ++ fv_block bound b ++ fv_block bound e, bound).
Proof. reflexivity. Qed.
Lemma fv_s_IfElif : forall bound c b n,
  fv_s bound (SIfElif c b n) = (fv_e bound c ++ fv_block bound b ++ fst (fv_s bound n), bound).
Proof. reflexivity. Qed.
Lemma fv_s_While : forall bound c b, fv_s bound (SWhile c b) = (fv_e bound c ++ fv_block bound b, bound).
Proof. reflexivity. Qed.
Lemma fv_s_From : forall bound a b incl st name collide body,
  fv_s bound (SFrom a b incl st name collide body) =
  (fv_e bound a ++ fv_e bound b
     ++ (match name, collide with Some x, true => if mem_str x bound then [] else [x] | _, _ => [] end)
     ++ fv_block (counter_scope name bound) body
     ++ (match st with Some e => fv_e (counter_scope name bound) e | None => [] end), bound).
Proof. reflexivity. Qed.

Theorem fv_s_binds : forall s bound, snd (fv_s bound s) = binds s ++ bound.
Proof. intros s bound. destruct s; try reflexivity. destruct e; reflexivity. Qed.

Lemma fv_block_cons : forall bound s l,
  fv_block bound (s :: l) = fst (fv_s bound s) ++ fv_block (binds s ++ bound) l.
Proof.
  intros bound s l. cbn [fv_block]. rewrite <- fv_s_binds. destruct (fv_s bound s) as [u bd']. reflexivity.
Qed.

Definition P_fv (e : expr) : Prop := forall bound x, In x (fv_e bound e) <-> FreeE bound e x.
Definition Q_fv (s : stmt) : Prop := forall bound x, In x (fst (fv_s bound s)) <-> FreeS bound s x.

Lemma fv_args_spec : forall l, Forall P_fv l ->
  forall bound x, In x (fv_args bound l) <-> exists a, In a l /\ FreeE bound a x.
Proof.
  induction l as [|a l IH]; intros HF bound x.
  - cbn. split; [intros []|intros (a & [] & _)].
  - inversion HF as [|? ? Ha Hl]; subst. cbn [fv_args]. rewrite in_app_iff, (Ha bound x), (IH Hl bound x).
    split.
    + intros [H|(a' & Hin & H)]; [exists a; split; [now left|exact H]|exists a'; split; [now right|exact H]].
    + intros (a' & [<-|Hin] & H); [now left|right; eauto].
Qed.

Lemma fv_block_spec : forall l, Forall Q_fv l ->
  forall bound x, In x (fv_block bound l) <-> FreeBlock bound l x.
Proof.
  induction l as [|s l IH]; intros HF bound x.
  - cbn. split; [intros []|intros H; now apply FreeBlock_nil in H].
  - inversion HF as [|? ? Hs Hl]; subst.
    rewrite fv_block_cons, in_app_iff, (Hs bound x), (IH Hl (binds s ++ bound) x), FreeBlock_cons_iff.
    reflexivity.
Qed.

Lemma fv_both : (forall e, P_fv e) /\ (forall s, Q_fv s).
Proof.
  apply expr_stmt_ind'; unfold P_fv, Q_fv.
  1-4: intros; rewrite FreeE_iff; reflexivity.
  - intros y bound x. rewrite FreeE_iff. apply In_use.
  - intros o a b Ha Hb bound x. rewrite FreeE_iff. cbn [fv_e]. rewrite in_app_iff, Ha, Hb. reflexivity.
  - intros a b Ha Hb bound x. rewrite FreeE_iff. cbn [fv_e]. rewrite in_app_iff, Ha, Hb. reflexivity.
  - intros a b Ha Hb bound x. rewrite FreeE_iff. cbn [fv_e]. rewrite in_app_iff, Ha, Hb. reflexivity.
  - intros a Ha bound x. rewrite FreeE_iff. cbn [fv_e]. rewrite Ha. reflexivity.
  - intros a Ha bound x. rewrite FreeE_iff. cbn [fv_e]. rewrite Ha. reflexivity.
  - intros f l Hf Hl bound x. rewrite FreeE_iff, fv_e_Call, in_app_iff, Hf, (fv_args_spec l Hl). reflexivity.
  - intros l Hl bound x. rewrite FreeE_iff, fv_e_Self, (fv_args_spec l Hl). reflexivity.
  - intros ps body Hb bound x. rewrite FreeE_iff, fv_e_Fn, In_minus, (fv_block_spec body Hb). reflexivity.
  - intros a b Ha Hb bound x. rewrite FreeE_iff. cbn [fv_e]. rewrite in_app_iff, Ha, Hb. reflexivity.
  - intros a sp Ha bound x. rewrite FreeE_iff. cbn [fv_e]. rewrite Ha. reflexivity.
  - intros y e He bound x. rewrite FreeS_iff. cbn [fv_s fst]. rewrite He. reflexivity.
  - intros y e He bound x. rewrite FreeS_iff. cbn [fv_s fst]. rewrite in_app_iff, In_use, He. reflexivity.
  - intros y o e He bound x. rewrite FreeS_iff. cbn [fv_s fst]. rewrite in_app_iff, In_use, He. reflexivity.
  - intros e He bound x. rewrite FreeS_iff. cbn [fv_s fst]. rewrite He. reflexivity.
  - intros e sp He bound x. rewrite FreeS_iff. cbn [fv_s fst]. rewrite He. reflexivity.
  - intros e He bound x. rewrite FreeS_iff. cbn [fv_s fst]. rewrite He. reflexivity.
  - intros c b Hc Hb bound x. rewrite FreeS_iff, fv_s_If. cbn [fst].
    rewrite in_app_iff, Hc, (fv_block_spec b Hb). reflexivity.
  - intros c b e Hc Hb He bound x. rewrite FreeS_iff, fv_s_IfElse. cbn [fst].
    rewrite !in_app_iff, Hc, (fv_block_spec b Hb), (fv_block_spec e He). reflexivity.
  - intros c b n Hc Hb Hn bound x. rewrite FreeS_iff, fv_s_IfElif. cbn [fst].
    rewrite !in_app_iff, Hc, (fv_block_spec b Hb), Hn. reflexivity.
  - intros c b Hc Hb bound x. rewrite FreeS_iff, fv_s_While. cbn [fst].
    rewrite in_app_iff, Hc, (fv_block_spec b Hb). reflexivity.
  - intros a b incl step name collide body Ha Hb Hst Hbody bound x. rewrite FreeS_iff, fv_s_From. cbn [fst free_s].
    rewrite !in_app_iff, Ha, Hb, (fv_block_spec body Hbody).
    assert (Hc : In x (match name, collide with
                       | Some y, true => if mem_str y bound then [] else [y] | _, _ => [] end)
                 <-> name = Some x /\ collide = true /\ ~ In x bound).
    { destruct name as [y|]; [destruct collide|].
      - rewrite In_use. split; [intros [-> H]; auto|intros (E & _ & H); inversion E; subst; auto].
      - split; [intros []|intros (_ & E & _); discriminate].
      - split; [intros []|intros (E & _); discriminate]. }
    assert (Hs : In x (match step with Some e => fv_e (counter_scope name bound) e | None => [] end)
                 <-> exists e, step = Some e /\ FreeE (counter_scope name bound) e x).
    { destruct step as [e|].
      - rewrite (Hst e eq_refl). split; [eauto|intros (e' & E & H); inversion E; subst; exact H].
      - split; [intros []|intros (e' & E & _); discriminate]. }
    rewrite Hc, Hs. reflexivity.
  - intros bound x. rewrite FreeS_iff. reflexivity.
  - intros bound x. rewrite FreeS_iff. reflexivity.
  - intros [e|] He bound x; rewrite FreeS_iff; [exact (He e eq_refl bound x)|reflexivity].
Qed.

Theorem fv_sound_complete : forall e bound x, In x (fv_e bound e) <-> FreeE bound e x.
Proof. exact (proj1 fv_both). Qed.

Theorem fv_s_sound_complete : forall s bound x, In x (fst (fv_s bound s)) <-> FreeS bound s x.
Proof. exact (proj2 fv_both). Qed.

Theorem fv_block_sound_complete : forall l bound x, In x (fv_block bound l) <-> FreeBlock bound l x.
Proof.
  intros l. apply fv_block_spec. apply Forall_forall. intros s _. exact (proj2 fv_both s).
Qed.

Lemma free_vars_unfold : forall ps body, free_vars ps body = dedup (minus (fv_block ps body) []).
Proof. reflexivity. Qed.

Theorem free_vars_spec : forall ps body x, In x (free_vars ps body) <-> FreeBlock ps body x.
Proof.
  intros ps body x. unfold free_vars. rewrite In_dedup, fv_sound_complete, FreeE_iff. cbn [free_e].
  split; [intros [H _]; exact H|intros H; split; [exact H|intros []]].
Qed.

Theorem free_vars_NoDup : forall ps body, NoDup (free_vars ps body).
Proof. intros. apply NoDup_dedup. Qed.

Theorem no_free_vars_no_captures : forall ps body,
  free_vars ps body = [] <-> (forall x, ~ FreeBlock ps body x).
Proof.
  intros ps body. split.
  - intros E x H. apply free_vars_spec in H. rewrite E in H. exact H.
  - intros H. destruct (free_vars ps body) as [|y l] eqn:E; [reflexivity|].
    exfalso. apply (H y). apply free_vars_spec. rewrite E. now left.
Qed.

(* the code of a function literal is ONE make_function whose capture arguments are exactly (as a duplicate-free list)
   the free variables of the literal *)
Theorem make_function_captures_spec : forall path d ps body st, exists name l,
  fst (cexpr path d (EFn ps body) st) = [I OP_MAKE_FUNCTION (name :: l)]
  /\ NoDup l
  /\ (forall x, In x l <-> FreeBlock ps body x).
Proof.
  intros path d ps body st. destruct (cexpr_EFn path d ps body st) as (name & st' & E).
  exists name, (free_vars ps body). rewrite E. cbn [fst].
  split; [reflexivity|]. split; [apply free_vars_NoDup|apply free_vars_spec].
Qed.

Theorem make_function_no_captures_iff : forall path d ps body st,
  (exists name, fst (cexpr path d (EFn ps body) st) = [I OP_MAKE_FUNCTION [name]])
  <-> (forall x, ~ FreeBlock ps body x).
Proof.
  intros path d ps body st. destruct (cexpr_EFn path d ps body st) as (name & st' & E). rewrite E. cbn [fst].
  rewrite <- no_free_vars_no_captures. split.
  - intros (name' & H). inversion H. reflexivity.
  - intros ->. exists name. reflexivity.
Qed.

(* with no free variable the VM pushes a plain function value (VFun loc None) *)
Theorem closed_literal_is_not_a_closure : forall path d ps body st,
  (forall x, ~ FreeBlock ps body x) ->
  exists name, strip (fst (cexpr path d (EFn ps body) st)) = [mkI OP_MAKE_FUNCTION [name]]
    /\ decode (mkI OP_MAKE_FUNCTION [name]) = DOk (DMakeFunction name [])
    /\ forall a g, exec_d (DMakeFunction name []) a g = SNext (set_ops a (a_ops a ++ [VFun name None])) g.
Proof.
  intros path d ps body st H. apply (make_function_no_captures_iff path d ps body st) in H as (name & E).
  exists name. rewrite E. split; [reflexivity|]. split; [reflexivity|]. intros a g. reflexivity.
Qed.

(* with a free variable it decodes to a capturing make_function; what the VM then builds is not stated here
   (Vm.ClosureLemmas.capture_shares) *)
Theorem open_literal_captures : forall path d ps body st x,
  FreeBlock ps body x ->
  exists name l, strip (fst (cexpr path d (EFn ps body) st)) = [mkI OP_MAKE_FUNCTION (name :: l)]
    /\ In x l /\ l <> []
    /\ decode (mkI OP_MAKE_FUNCTION (name :: l)) = DOk (DMakeFunction name l).
Proof.
  intros path d ps body st x H.
  destruct (make_function_captures_spec path d ps body st) as (name & l & E & _ & Hl).
  exists name, l. rewrite E. split; [reflexivity|].
  apply Hl in H. split; [exact H|]. split; [intros ->; exact H|reflexivity].
Qed.

Scheme FreeE_mut := Minimality for FreeE Sort Prop
  with FreeS_mut := Minimality for FreeS Sort Prop
  with FreeBlock_mut := Minimality for FreeBlock Sort Prop.
Combined Scheme Free_mutind from FreeE_mut, FreeS_mut, FreeBlock_mut.

Lemma In_app_congr : forall (x : str) l b1 b2, (In x b1 <-> In x b2) -> (In x (l ++ b1) <-> In x (l ++ b2)).
Proof. intros x l b1 b2 H. rewrite !in_app_iff, H. reflexivity. Qed.
Lemma In_scope_congr : forall (x : str) name b1 b2,
  (In x b1 <-> In x b2) -> (In x (counter_scope name b1) <-> In x (counter_scope name b2)).
Proof. intros x [c|] b1 b2 H; [exact (In_app_congr x [c] b1 b2 H)|exact H]. Qed.

Lemma Free_ext_all :
  (forall b1 e x, FreeE b1 e x -> forall b2, (In x b1 <-> In x b2) -> FreeE b2 e x) /\
  (forall b1 s x, FreeS b1 s x -> forall b2, (In x b1 <-> In x b2) -> FreeS b2 s x) /\
  (forall b1 l x, FreeBlock b1 l x -> forall b2, (In x b1 <-> In x b2) -> FreeBlock b2 l x).
Proof.
  apply Free_mutind; intros; try (econstructor; solve [eauto 2 | tauto]).
  (* the three rules that enlarge the set of locals *)
  - apply FS_FromBody, H0. now apply In_scope_congr.
  - apply FS_FromStep, H0. now apply In_scope_congr.
  - apply FB_Later, H0. now apply In_app_congr.
Qed.

Theorem FreeE_ext : forall e b1 b2 x, (In x b1 <-> In x b2) -> (FreeE b1 e x <-> FreeE b2 e x).
Proof. intros e b1 b2 x H. split; intros F; eapply (proj1 Free_ext_all); try exact F; tauto. Qed.
Theorem FreeS_ext : forall s b1 b2 x, (In x b1 <-> In x b2) -> (FreeS b1 s x <-> FreeS b2 s x).
Proof. intros s b1 b2 x H. split; intros F; eapply (proj1 (proj2 Free_ext_all)); try exact F; tauto. Qed.
Theorem FreeBlock_ext : forall l b1 b2 x, (In x b1 <-> In x b2) -> (FreeBlock b1 l x <-> FreeBlock b2 l x).
Proof. intros l b1 b2 x H. split; intros F; eapply (proj2 (proj2 Free_ext_all)); try exact F; tauto. Qed.

Lemma scope_nb : forall name (bound : list str) x, ~ In x (counter_scope name bound) -> ~ In x bound.
Proof. intros [c|] bound x H Hin; apply H; [now right|exact Hin]. Qed.

Lemma Free_nb_all :
  (forall bound e x, FreeE bound e x -> ~ In x bound) /\
  (forall bound s x, FreeS bound s x -> ~ In x bound) /\
  (forall bound l x, FreeBlock bound l x -> ~ In x bound).
Proof.
  apply Free_mutind; intros; eauto using scope_nb. intros Hin. apply H0, in_or_app. now right.
Qed.

Theorem FreeE_not_bound : forall e bound x, FreeE bound e x -> ~ In x bound.
Proof. intros e bound x. apply Free_nb_all. Qed.
Theorem FreeS_not_bound : forall s bound x, FreeS bound s x -> ~ In x bound.
Proof. intros s bound x. apply Free_nb_all. Qed.
Theorem FreeBlock_not_bound : forall l bound x, FreeBlock bound l x -> ~ In x bound.
Proof. intros l bound x. apply Free_nb_all. Qed.
Corollary params_not_captured : forall ps body x, In x ps -> ~ In x (free_vars ps body).
Proof. intros ps body x Hin H. apply free_vars_spec in H. exact (FreeBlock_not_bound _ _ _ H Hin). Qed.

(* the other reading of a COLLIDING counter (it is the existing variable, not a new binding: the body is analysed under
   `bound` itself) describes the same set *)
Theorem colliding_counter_no_new_binding : forall bound a b incl step c body x,
  FreeS bound (SFrom a b incl step (Some c) true body) x <->
    FreeE bound a x \/ FreeE bound b x \/ (x = c /\ ~ In c bound)
    \/ FreeBlock bound body x \/ (exists e, step = Some e /\ FreeE bound e x).
Proof.
  intros bound a b incl step c body x. rewrite FreeS_iff. cbn [free_s counter_scope].
  assert (H3 : Some c = Some x /\ true = true /\ ~ In x bound <-> x = c /\ ~ In c bound).
  { split; [intros (E & _ & H); inversion E; subst; auto|intros [-> H]; auto]. }
  rewrite H3. clear H3.
  (* either x is the counter and the counter rule makes it free on both sides, or c :: bound and bound agree on x *)
  assert (Hx : (x = c /\ ~ In c bound) \/ (In x (c :: bound) <-> In x bound)).
  { destruct (mem_str c bound) eqn:Ec; [apply mem_str_In in Ec|apply mem_str_false in Ec].
    - right. cbn [In]. split; [intros [<-|H]; assumption|auto].
    - destruct (str_eqb x c) eqn:Exc; [apply str_eqb_eq in Exc; auto|].
      right. cbn [In]. split; [intros [<-|H]; [rewrite str_eqb_refl in Exc; discriminate|assumption]|auto]. }
  destruct Hx as [Hx|Hx]; [tauto|]. rewrite (FreeBlock_ext body _ _ x Hx).
  assert (He : (exists e, step = Some e /\ FreeE (c :: bound) e x) <-> (exists e, step = Some e /\ FreeE bound e x)).
  { split; intros (e & E & H); exists e; (split; [exact E|]); now apply (FreeE_ext e _ _ x Hx). }
  rewrite He. reflexivity.
Qed.

Module CaptureExamples.
Definition x_ : str := [120]%N.
Definition y_ : str := [121]%N.
Definition i_ : str := [105]%N.
Definition o_ : str := [111]%N.
Definition d_ : str := [100]%N.

(* fn() { print x; x = 1 } *)
Example read_then_assign : free_vars [] [SPrint (EVar x_); SAssign x_ (EInt 1)] = [x_].
Proof. vm_compute. reflexivity. Qed.
Example read_then_assign_free : FreeBlock [] [SPrint (EVar x_); SAssign x_ (EInt 1)] x_.
Proof. apply free_vars_spec. vm_compute. auto. Qed.
Example read_then_assign_free_by_rules : FreeBlock [] [SPrint (EVar x_); SAssign x_ (EInt 1)] x_.
Proof. apply FB_Here, FS_Print, FE_Var. intros []. Qed.

(* fn() { x = 1; print x } *)
Example assign_then_read : free_vars [] [SAssign x_ (EInt 1); SPrint (EVar x_)] = [].
Proof. vm_compute. reflexivity. Qed.
Example assign_then_read_closed : forall z, ~ FreeBlock [] [SAssign x_ (EInt 1); SPrint (EVar x_)] z.
Proof. apply no_free_vars_no_captures. vm_compute. reflexivity. Qed.

(* fn() { x = x + 1 }: the right-hand side still sees the outer x *)
Example self_increment : free_vars [] [SAssign x_ (EBin BAdd (EVar x_) (EInt 1))] = [x_].
Proof. vm_compute. reflexivity. Qed.

(* fn() { if true { x = 1 } print x } *)
Example if_binding_does_not_escape :
  free_vars [] [SIf (EBool true) [SAssign x_ (EInt 1)]; SPrint (EVar x_)] = [x_].
Proof. vm_compute. reflexivity. Qed.

(* fn() { from 0 to 3, i { print i } }, then with `print i` after the loop *)
Example counter_fresh :
  free_vars [] [SFrom (EInt 0) (EInt 3) false None (Some i_) false [SPrint (EVar i_)]] = []
  /\ free_vars [] [SFrom (EInt 0) (EInt 3) false None (Some i_) false [SPrint (EVar i_)]; SPrint (EVar i_)] = [i_].
Proof. vm_compute. split; reflexivity. Qed.
(* counter named like an outer variable (collide = true): captured *)
Example counter_colliding_outer :
  free_vars [] [SFrom (EInt 0) (EInt 3) false None (Some i_) true [SPrint (EVar i_)]] = [i_].
Proof. vm_compute. reflexivity. Qed.
(* counter colliding with a parameter / earlier local: nothing captured *)
Example counter_colliding_local :
  free_vars [i_] [SFrom (EInt 0) (EInt 3) false None (Some i_) true [SPrint (EVar i_)]] = [].
Proof. vm_compute. reflexivity. Qed.

(* fn(y) { return fn() { return fn() { return x + y } } }: x is captured through two levels, y is a parameter *)
Definition inner2 : expr := EFn [] [SReturn (Some (EBin BAdd (EVar x_) (EVar y_)))].
Definition inner1 : expr := EFn [] [SReturn (Some inner2)].
Example two_levels : free_vars [y_] [SReturn (Some inner1)] = [x_]
  /\ free_vars [] [SReturn (Some inner2)] = [x_; y_]
  /\ FreeE [] inner1 x_ /\ FreeE [] inner1 y_ /\ ~ FreeE [y_] inner1 y_.
Proof.
  split; [vm_compute; reflexivity|]. split; [vm_compute; reflexivity|].
  split; [apply fv_sound_complete; vm_compute; auto|].
  split; [apply fv_sound_complete; vm_compute; auto|].
  rewrite <- fv_sound_complete. vm_compute. intros [H|[]]. discriminate H.
Qed.

(* fn(o) { return (o) or d } *)
Example nil_or_fallback : free_vars [o_] [SReturn (Some (ENilOr (EVar o_) (EVar d_)))] = [d_].
Proof. vm_compute. reflexivity. Qed.

(* fn() { modify x = 1; y += 1 } *)
Example modify_uses : free_vars [] [SModify x_ (EInt 1); SOpAssign y_ BAdd (EInt 1)] = [x_; y_].
Proof. vm_compute. reflexivity. Qed.

Example emitted_closed : forall path,
  strip (fst (cexpr path 0 (EFn [] [SAssign x_ (EInt 1); SPrint (EVar x_)]) {| fid := 0; lreg := 0; fbuf := [] |}))
  = [mkI OP_MAKE_FUNCTION [fn_name path 0]].
Proof. intros path. reflexivity. Qed.
Example emitted_open : forall path,
  strip (fst (cexpr path 0 (EFn [] [SPrint (EVar x_); SAssign x_ (EInt 1)]) {| fid := 0; lreg := 0; fbuf := [] |}))
  = [mkI OP_MAKE_FUNCTION [fn_name path 0; x_]].
Proof. intros path. reflexivity. Qed.
End CaptureExamples.
