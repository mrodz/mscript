(* What the expression simulation (C15 / C01) needs of the output of `cexpr` before any machine runs: `decode` reads its
   numerals back (show_Z / parse_Z round trip, up to 50 digits); on call-free expressions (`pure`) its code is the plain
   list `pcode`; for ALL expressions it binds only registers at or above its own depth. *)
From MS Require Export Base.StrFacts.
From MS Require Import Vm.Model Lang.Syntax Compile.Compile.
From Coq Require Import Lia.
Open Scope nat_scope.

Lemma str_eqb_sym : forall a b : str, str_eqb a b = str_eqb b a.
Proof.
  intros a b. destruct (str_eqb a b) eqn:E.
  - apply str_eqb_eq in E. subst. symmetry. apply str_eqb_refl.
  - symmetry. apply str_eqb_neq. intros ->. rewrite str_eqb_refl in E. discriminate.
Qed.

(* a number that `show_Z` prints in full (its fuel is 50 digits) *)
Definition small (n : nat) : Prop := (Z.of_nat n < 10 ^ 50)%Z.

Lemma digit_char_range : forall d, (0 <= d < 10)%Z -> (48 <= Z.to_N (48 + d) <= 57)%N.
Proof. intros d H. lia. Qed.

Lemma digit_of_char : forall d, (0 <= d < 10)%Z -> digit_of (Z.to_N (48 + d)) = Some d.
Proof.
  intros d H. unfold digit_of. destruct (digit_char_range d H) as [A B]. apply N.leb_le in A, B. rewrite A, B.
  cbn [andb]. f_equal. lia.
Qed.

Lemma show_pos_spec : forall fuel z acc, (0 <= z < 10 ^ Z.of_nat fuel)%Z -> fuel <> 0 ->
  exists ds, show_pos_fuel fuel z acc = ds ++ acc /\ ds <> [] /\
             (forall c, In c ds -> (48 <= c <= 57)%N) /\
             (forall a rest, parse_digits a (ds ++ rest) = parse_digits (a * 10 ^ Z.of_nat (length ds) + z) rest).
Proof.
  induction fuel as [|f IH]; intros z acc Hz Hf.
  - congruence.
  - cbn [show_pos_fuel].
    assert (Hm : (0 <= z mod 10 < 10)%Z) by (apply Z.mod_pos_bound; lia).
    destruct (z <? 10)%Z eqn:E.
    + apply Z.ltb_lt in E.
      exists [Z.to_N (48 + z mod 10)]. split; [reflexivity|]. split; [discriminate|]. split.
      * intros c [<-|[]]. now apply digit_char_range.
      * intros a rest. cbn [app parse_digits length]. rewrite digit_of_char by exact Hm.
        rewrite Z.mod_small by lia. f_equal; change (Z.of_nat 1) with 1%Z; lia.
    + apply Z.ltb_ge in E.
      assert (Hq : (0 <= z / 10 < 10 ^ Z.of_nat f)%Z).
      { split; [apply Z.div_pos; lia|]. apply Z.div_lt_upper_bound; [lia|].
        rewrite Nat2Z.inj_succ, Z.pow_succ_r in Hz by lia. lia. }
      assert (Hf' : f <> 0).
      { intros ->. change (10 ^ Z.of_nat 1)%Z with 10%Z in Hz. lia. }
      destruct (IH (z / 10)%Z (Z.to_N (48 + z mod 10) :: acc) Hq Hf') as (ds & E1 & Hne & Hr & Hp).
      exists (ds ++ [Z.to_N (48 + z mod 10)]). split; [rewrite E1, <- app_assoc; reflexivity|].
      split; [destruct ds; discriminate|]. split.
      * intros c Hc. apply in_app_or in Hc as [Hc|[<-|[]]]; [now apply Hr|now apply digit_char_range].
      * intros a rest. rewrite <- app_assoc. cbn [app]. rewrite Hp. cbn [parse_digits].
        rewrite digit_of_char by exact Hm. f_equal.
        rewrite app_length. cbn [length]. rewrite Nat2Z.inj_add. change (Z.of_nat 1) with 1%Z.
        rewrite Z.pow_add_r by lia. change (10 ^ 1)%Z with 10%Z.
        pose proof (Z.div_mod z 10 ltac:(lia)) as D. lia.
Qed.

Lemma parse_Z_plain : forall c r, c <> 45%N -> c <> 43%N -> parse_Z (c :: r) = parse_digits 0 (c :: r).
Proof.
  intros c r H1 H2. unfold parse_Z.
  destruct c as [|p]; [reflexivity|].
  do 6 (destruct p as [p|p|]; try reflexivity); try congruence; destruct r; reflexivity.
Qed.

Lemma parse_show_nonneg : forall z, (0 <= z < 10 ^ 50)%Z -> parse_Z (show_Z z) = Some z.
Proof.
  intros z Hz. unfold show_Z. destruct (z <? 0)%Z eqn:E; [apply Z.ltb_lt in E; lia|].
  destruct (show_pos_spec 50 z [] Hz ltac:(discriminate)) as (ds & E1 & Hne & Hr & Hp).
  rewrite E1, app_nil_r. destruct ds as [|c r]; [congruence|].
  assert (Hc : (48 <= c <= 57)%N) by (apply Hr; now left).
  rewrite parse_Z_plain by lia.
  specialize (Hp 0%Z []). rewrite app_nil_r in Hp. rewrite Hp. cbn [parse_digits]. f_equal; lia.
Qed.

Lemma parse_show_neg : forall z, (- 10 ^ 50 < z < 0)%Z -> parse_Z (show_Z z) = Some z.
Proof.
  intros z Hz. unfold show_Z. destruct (z <? 0)%Z eqn:E; [|apply Z.ltb_ge in E; lia].
  assert (Hz' : (0 <= - z < 10 ^ Z.of_nat 50)%Z) by (change (Z.of_nat 50) with 50%Z; lia).
  destruct (show_pos_spec 50 (- z) [] Hz' ltac:(discriminate)) as (ds & E1 & Hne & Hr & Hp).
  rewrite E1, app_nil_r. destruct ds as [|c r]; [congruence|].
  change (parse_Z (45%N :: c :: r)) with (option_map Z.opp (parse_digits 0 (c :: r))).
  specialize (Hp 0%Z []). rewrite app_nil_r in Hp. rewrite Hp. cbn [parse_digits option_map]. f_equal; lia.
Qed.

Lemma parse_show_Z : forall z, (- 10 ^ 50 < z < 10 ^ 50)%Z -> parse_Z (show_Z z) = Some z.
Proof.
  intros z Hz. destruct (Z_lt_le_dec z 0); [apply parse_show_neg|apply parse_show_nonneg]; lia.
Qed.

Lemma i32_ok_range : forall z, i32_ok z = true -> (-2147483648 <= z <= 2147483647)%Z.
Proof. intros z H. unfold i32_ok in H. apply Bool.andb_true_iff in H as [A B]. apply Z.leb_le in A, B. lia. Qed.

Lemma parse_sZ : forall z, i32_ok z = true -> parse_Z (sZ z) = Some z.
Proof.
  intros z H. apply i32_ok_range in H. apply parse_show_Z.
  assert (2147483647 < 10 ^ 50)%Z by reflexivity. lia.
Qed.

Lemma parse_sN : forall n, small n -> parse_Z (sN n) = Some (Z.of_nat n).
Proof. intros n H. apply parse_show_nonneg. unfold small in H. lia. Qed.

Lemma sN_inj : forall a b, small a -> small b -> sN a = sN b -> a = b.
Proof.
  intros a b Ha Hb E. apply parse_sN in Ha, Hb. rewrite E in Ha. rewrite Ha in Hb.
  inversion Hb. lia.
Qed.

Lemma reg_inj : forall a b, small a -> small b -> reg a = reg b -> a = b.
Proof. intros a b Ha Hb E. unfold reg in E. inversion E. now apply sN_inj. Qed.

Lemma small_le : forall a b, a <= b -> small b -> small a.
Proof. unfold small. intros. lia. Qed.

(* source names never start with '#' (registers are "#n") *)
Definition src_name (x : str) : Prop := match x with 35%N :: _ => False | _ => True end.
Lemma src_name_not_reg : forall x k, src_name x -> x <> reg k.
Proof. intros x k H E. subst x. exact H. Qed.

Definition mkI (o : N) (a : list str) : instr := {| op := o; args := a |}.

Lemma dec_make_int : forall z, i32_ok z = true -> decode (mkI OP_MAKE_INT [sZ z]) = DOk (DMakeInt z).
Proof.
  intros z H.
  change (decode (mkI OP_MAKE_INT [sZ z])) with
    (match parse_Z (sZ z) with
     | Some z => if i32_ok z then DOk (DMakeInt z) else DErr (E_bad_arg OP_MAKE_INT)
     | None => DErr (E_bad_arg OP_MAKE_INT) end).
  rewrite parse_sZ by exact H. rewrite H. reflexivity.
Qed.
Lemma dec_make_bool : forall b : bool, decode (mkI OP_MAKE_BOOL [if b then s_true else s_false]) = DOk (DMakeBool b).
Proof. intros [|]; reflexivity. Qed.
Lemma dec_make_str : forall s, decode (mkI OP_MAKE_STR [s]) = DOk (DMakeStr s).
Proof. reflexivity. Qed.
Lemma dec_reserve : decode (mkI OP_RESERVE_PRIMITIVE []) = DOk DReserve.
Proof. reflexivity. Qed.
Lemma dec_load : forall x, decode (mkI OP_LOAD [x]) = DOk (DLoad x).
Proof. reflexivity. Qed.
Lemma dec_load_fast : forall x, decode (mkI OP_LOAD_FAST [x]) = DOk (DLoadFast x).
Proof. reflexivity. Qed.
Lemma dec_store_fast : forall x, decode (mkI OP_STORE_FAST [x]) = DOk (DStoreFast x).
Proof. reflexivity. Qed.
Lemma dec_rev2 : decode (mkI OP_FAST_REV2 []) = DOk DRev2.
Proof. reflexivity. Qed.
Lemma dec_bin_op : forall sym, decode (mkI OP_BIN_OP [sym]) = DOk (DBinOp sym).
Proof. reflexivity. Qed.
Lemma dec_not : decode (mkI OP_NOT []) = DOk DNot.
Proof. reflexivity. Qed.
Lemma dec_neg : decode (mkI OP_NEG []) = DOk DNeg.
Proof. reflexivity. Qed.
Lemma dec_unwrap : forall sp, decode (mkI OP_UNWRAP [sp]) = DOk (DUnwrap sp).
Proof. reflexivity. Qed.
Lemma dec_jmp_not_nil : forall n, small n -> decode (mkI OP_JMP_NOT_NIL [sN n]) = DOk (DJmpNotNil (Z.of_nat n)).
Proof.
  intros n H.
  change (decode (mkI OP_JMP_NOT_NIL [sN n])) with
    (match parse_Z (sN n) with Some z => DOk (DJmpNotNil z) | None => DErr (E_bad_arg OP_JMP_NOT_NIL) end).
  rewrite parse_sN by exact H. reflexivity.
Qed.
Lemma dec_store_skip : forall x (p : bool) n, small n ->
  decode (mkI OP_STORE_SKIP [x; if p then s_one else s_zero; sN n]) = DOk (DStoreSkip x p (Z.of_nat n)).
Proof.
  intros x p n H.
  assert (E : decode (mkI OP_STORE_SKIP [x; if p then s_one else s_zero; sN n]) =
              match parse_nat (if p then s_one else s_zero), parse_Z (sN n) with
              | Some pred, Some off => if (off <? 0)%Z then DErr (E_bad_arg OP_STORE_SKIP)
                                       else DOk (DStoreSkip x (Nat.eqb pred 1) off)
              | _, _ => DErr (E_bad_arg OP_STORE_SKIP) end) by reflexivity.
  rewrite E, parse_sN by exact H.
  destruct (Z.of_nat n <? 0)%Z eqn:L; [apply Z.ltb_lt in L; lia|].
  destruct p; reflexivity.
Qed.

Section ExprInd.
  Variable P : expr -> Prop.
  Variable Q : stmt -> Prop.
  Hypothesis HInt : forall z, P (EInt z).
  Hypothesis HBool : forall b, P (EBool b).
  Hypothesis HStr : forall s, P (EStr s).
  Hypothesis HNil : P ENil.
  Hypothesis HVar : forall x, P (EVar x).
  Hypothesis HBin : forall o a b, P a -> P b -> P (EBin o a b).
  Hypothesis HAnd : forall a b, P a -> P b -> P (EAnd a b).
  Hypothesis HOr : forall a b, P a -> P b -> P (EOr a b).
  Hypothesis HNot : forall a, P a -> P (ENot a).
  Hypothesis HNeg : forall a, P a -> P (ENeg a).
  Hypothesis HCall : forall f l, P f -> Forall P l -> P (ECall f l).
  Hypothesis HSelf : forall l, Forall P l -> P (ESelf l).
  Hypothesis HFn : forall ps body, Forall Q body -> P (EFn ps body).
  Hypothesis HNilOr : forall a b, P a -> P b -> P (ENilOr a b).
  Hypothesis HGet : forall a sp, P a -> P (EGet a sp).
  Hypothesis HAssign : forall x e, P e -> Q (SAssign x e).
  Hypothesis HModify : forall x e, P e -> Q (SModify x e).
  Hypothesis HOpAssign : forall x o e, P e -> Q (SOpAssign x o e).
  Hypothesis HPrint : forall e, P e -> Q (SPrint e).
  Hypothesis HAssert : forall e sp, P e -> Q (SAssert e sp).
  Hypothesis HExpr : forall e, P e -> Q (SExpr e).
  Hypothesis HIf : forall c b, P c -> Forall Q b -> Q (SIf c b).
  Hypothesis HIfElse : forall c b e, P c -> Forall Q b -> Forall Q e -> Q (SIfElse c b e).
  Hypothesis HIfElif : forall c b n, P c -> Forall Q b -> Q n -> Q (SIfElif c b n).
  Hypothesis HWhile : forall c b, P c -> Forall Q b -> Q (SWhile c b).
  Hypothesis HFrom : forall a b incl step name collide body,
    P a -> P b -> (forall e, step = Some e -> P e) -> Forall Q body -> Q (SFrom a b incl step name collide body).
  Hypothesis HBreak : Q SBreak.
  Hypothesis HContinue : Q SContinue.
  Hypothesis HReturn : forall e, (forall x, e = Some x -> P x) -> Q (SReturn e).

  Definition opt_P (o : option expr) : Prop := match o with Some e => P e | None => True end.
  Definition opt_ind (o : option expr) (H : opt_P o) : forall e, o = Some e -> P e :=
    fun e E => match E in _ = y return opt_P y with eq_refl => H end.

  Fixpoint expr_ind' (e : expr) : P e :=
    let fix goe (l : list expr) : Forall P l :=
      match l with [] => Forall_nil P | x :: l => Forall_cons x (expr_ind' x) (goe l) end in
    let fix gos (l : list stmt) : Forall Q l :=
      match l with [] => Forall_nil Q | x :: l => Forall_cons x (stmt_ind' x) (gos l) end in
    match e with
    | EInt z => HInt z | EBool b => HBool b | EStr s => HStr s | ENil => HNil | EVar x => HVar x
    | EBin o a b => HBin o a b (expr_ind' a) (expr_ind' b)
    | EAnd a b => HAnd a b (expr_ind' a) (expr_ind' b)
    | EOr a b => HOr a b (expr_ind' a) (expr_ind' b)
    | ENot a => HNot a (expr_ind' a)
    | ENeg a => HNeg a (expr_ind' a)
    | ECall f l => HCall f l (expr_ind' f) (goe l)
    | ESelf l => HSelf l (goe l)
    | EFn ps body => HFn ps body (gos body)
    | ENilOr a b => HNilOr a b (expr_ind' a) (expr_ind' b)
    | EGet a sp => HGet a sp (expr_ind' a)
    end
  with stmt_ind' (s : stmt) : Q s :=
    let fix gos (l : list stmt) : Forall Q l :=
      match l with [] => Forall_nil Q | x :: l => Forall_cons x (stmt_ind' x) (gos l) end in
    let goo (o : option expr) : forall e, o = Some e -> P e :=
      opt_ind o (match o return opt_P o with Some e => expr_ind' e | None => Logic.I end) in
    match s with
    | SAssign x e => HAssign x e (expr_ind' e)
    | SModify x e => HModify x e (expr_ind' e)
    | SOpAssign x o e => HOpAssign x o e (expr_ind' e)
    | SPrint e => HPrint e (expr_ind' e)
    | SAssert e sp => HAssert e sp (expr_ind' e)
    | SExpr e => HExpr e (expr_ind' e)
    | SIf c b => HIf c b (expr_ind' c) (gos b)
    | SIfElse c b e => HIfElse c b e (expr_ind' c) (gos b) (gos e)
    | SIfElif c b n => HIfElif c b n (expr_ind' c) (gos b) (stmt_ind' n)
    | SWhile c b => HWhile c b (expr_ind' c) (gos b)
    | SFrom a b incl step name collide body =>
      HFrom a b incl step name collide body (expr_ind' a) (expr_ind' b) (goo step) (gos body)
    | SBreak => HBreak
    | SContinue => HContinue
    | SReturn e => HReturn e (goo e)
    end.

  Lemma expr_stmt_ind' : (forall e, P e) /\ (forall s, Q s).
  Proof. split; [exact expr_ind'|exact stmt_ind']. Qed.
End ExprInd.

Fixpoint pure (e : expr) : bool :=
  match e with
  | EInt _ | EBool _ | EStr _ | ENil | EVar _ => true
  | EBin _ a b | EAnd a b | EOr a b | ENilOr a b => pure a && pure b
  | ENot a | ENeg a | EGet a _ => pure a
  | ECall _ _ | ESelf _ | EFn _ _ => false
  end.

(* integer literals are i32 (anything else is not a `make_int`) *)
Fixpoint lits_ok (e : expr) : bool :=
  match e with
  | EInt z => i32_ok z
  | EBin _ a b | EAnd a b | EOr a b | ENilOr a b => lits_ok a && lits_ok b
  | ENot a | ENeg a | EGet a _ => lits_ok a
  | _ => true
  end.

Definition op_instr (o : binop) : instr :=
  match o with BEq => mkI OP_EQU [] | BNeq => mkI OP_NEQ [] | _ => mkI OP_BIN_OP [binop_sym o] end.

Fixpoint pcode (d : nat) (e : expr) : list instr :=
  match e with
  | EInt z => [mkI OP_MAKE_INT [sZ z]]
  | EBool b => [mkI OP_MAKE_BOOL [if b then s_true else s_false]]
  | EStr s => [mkI OP_MAKE_STR [s]]
  | ENil => [mkI OP_RESERVE_PRIMITIVE []]
  | EVar x => [mkI OP_LOAD [x]]
  | EBin o a b => pcode (S d) a ++ [mkI OP_STORE_FAST [reg d]] ++ pcode (S d) b
                    ++ [mkI OP_LOAD_FAST [reg d]; mkI OP_FAST_REV2 []] ++ [op_instr o]
  | EAnd a b => pcode (S d) a ++ [mkI OP_STORE_SKIP [reg d; s_zero; sN (length (pcode (S d) b) + 3)]]
                  ++ pcode (S d) b ++ [mkI OP_LOAD_FAST [reg d]; mkI OP_BIN_OP [op_and]]
  | EOr a b => pcode (S d) a ++ [mkI OP_STORE_SKIP [reg d; s_one; sN (length (pcode (S d) b) + 3)]]
                 ++ pcode (S d) b ++ [mkI OP_LOAD_FAST [reg d]; mkI OP_BIN_OP [op_or]]
  | ENot a => pcode (S d) a ++ [mkI OP_NOT []]
  | ENeg a => pcode (S d) a ++ [mkI OP_NEG []]
  | ENilOr a b => pcode (S d) a ++ [mkI OP_JMP_NOT_NIL [sN (length (pcode (S d) b) + 1)]] ++ pcode (S d) b
  | EGet a sp => pcode (S d) a ++ [mkI OP_UNWRAP [sp]]
  | ECall _ _ | ESelf _ | EFn _ _ => []
  end.

Lemma let_pair : forall A B C (p : A * B) (f : A -> B -> C), (let '(x, y) := p in f x y) = f (fst p) (snd p).
Proof. intros A B C [x y] f. reflexivity. Qed.

Definition is_CI (c : citem) : Prop := match c with CI _ => True | _ => False end.

Lemma strip_map_CI : forall l, strip (map CI l) = l.
Proof. induction l as [|i l IH]; [reflexivity|]. cbn [map strip]. now rewrite IH. Qed.
Lemma strip_app : forall a b, strip (a ++ b) = strip a ++ strip b.
Proof.
  induction a as [|x a IH]; intros b; [reflexivity|]. destruct x; cbn [app strip]; rewrite IH; reflexivity.
Qed.
Lemma strip_CI_length : forall l, Forall is_CI l -> length (strip l) = length l.
Proof.
  induction l as [|x l IH]; intros H; [reflexivity|]. inversion H as [|? ? Hx Hl]; subst.
  destruct x; try contradiction. cbn [strip length]. now rewrite IH.
Qed.

Section WithPath.
Variable path : str.

(* the local `cargs` of cexpr *)
Fixpoint cargs (k : nat) (l : list expr) (st : cst) : list citem * list citem * cst :=
  match l with
  | [] => ([], [], st)
  | a :: l => let '(ca, st) := cexpr path k a st in
              let '(ci, cl, st) := cargs (S k) l st in
              (ca ++ [I OP_STORE_FAST [reg k]] ++ ci, I OP_LOAD_FAST [reg k] :: cl, st)
  end.

Lemma cexpr_EBin : forall d o a b st, cexpr path d (EBin o a b) st =
  let '(ca, st) := cexpr path (S d) a st in
  let '(cb, st) := cexpr path (S d) b st in
  (ca ++ [I OP_STORE_FAST [reg d]] ++ cb ++ [I OP_LOAD_FAST [reg d]; I OP_FAST_REV2 []]
      ++ [match o with BEq => I OP_EQU [] | BNeq => I OP_NEQ [] | _ => I OP_BIN_OP [binop_sym o] end], st).
Proof. reflexivity. Qed.
Lemma cexpr_EAnd : forall d a b st, cexpr path d (EAnd a b) st =
  let '(ca, st) := cexpr path (S d) a st in
  let '(cb, st) := cexpr path (S d) b st in
  (ca ++ [I OP_STORE_SKIP [reg d; s_zero; sN (length cb + 3)]] ++ cb
      ++ [I OP_LOAD_FAST [reg d]; I OP_BIN_OP [op_and]], st).
Proof. reflexivity. Qed.
Lemma cexpr_EOr : forall d a b st, cexpr path d (EOr a b) st =
  let '(ca, st) := cexpr path (S d) a st in
  let '(cb, st) := cexpr path (S d) b st in
  (ca ++ [I OP_STORE_SKIP [reg d; s_one; sN (length cb + 3)]] ++ cb
      ++ [I OP_LOAD_FAST [reg d]; I OP_BIN_OP [op_or]], st).
Proof. reflexivity. Qed.
Lemma cexpr_ENot : forall d a st, cexpr path d (ENot a) st =
  let '(ca, st) := cexpr path (S d) a st in (ca ++ [I OP_NOT []], st).
Proof. reflexivity. Qed.
Lemma cexpr_ENeg : forall d a st, cexpr path d (ENeg a) st =
  let '(ca, st) := cexpr path (S d) a st in (ca ++ [I OP_NEG []], st).
Proof. reflexivity. Qed.
Lemma cexpr_ENilOr : forall d a b st, cexpr path d (ENilOr a b) st =
  let '(ca, st) := cexpr path (S d) a st in
  let '(cb, st) := cexpr path (S d) b st in
  (ca ++ [I OP_JMP_NOT_NIL [sN (length cb + 1)]] ++ cb, st).
Proof. reflexivity. Qed.
Lemma cexpr_EGet : forall d a sp st, cexpr path d (EGet a sp) st =
  let '(ca, st) := cexpr path (S d) a st in (ca ++ [I OP_UNWRAP [sp]], st).
Proof. reflexivity. Qed.
Lemma cexpr_ECall : forall d f l st, cexpr path d (ECall f l) st =
  let '(cf, st) := cexpr path (S d) f st in
  let '(ci, cl, st) := cargs (S (S d)) l st in
  (cf ++ [I OP_STORE_FAST [reg (S d)]] ++ ci ++ cl ++ [I OP_LOAD_FAST [reg (S d)]; I OP_CALL []], st).
Proof. reflexivity. Qed.
Lemma cexpr_ESelf : forall d l st, cexpr path d (ESelf l) st =
  let '(ci, cl, st) := cargs (S d) l st in (ci ++ cl ++ [I OP_CALL_SELF []], st).
Proof. reflexivity. Qed.
Lemma cexpr_EFn : forall d ps body st, exists name st', cexpr path d (EFn ps body) st =
  ([I OP_MAKE_FUNCTION (name :: free_vars ps body)], st').
Proof.
  intros d ps body st. cbn [cexpr].
  (* a rewrite by let_pair here is slow to check *)
  match goal with |- context [match ?p with pair _ _ => _ end] => destruct p end.
  eexists. eexists. reflexivity.
Qed.

Lemma cexpr_pure : forall e, pure e = true -> forall d st, cexpr path d e st = (map CI (pcode d e), st).
Proof.
  induction e; intros Hp d st; cbn [pure] in Hp; try discriminate;
    try (apply Bool.andb_true_iff in Hp as [Hp1 Hp2]); try reflexivity.
  - rewrite cexpr_EBin, IHe1, IHe2 by assumption. cbn [pcode]. rewrite !map_app. cbn [map].
    destruct o; reflexivity.
  - rewrite cexpr_EAnd, IHe1, IHe2 by assumption. cbn [pcode]. rewrite !map_app, map_length. reflexivity.
  - rewrite cexpr_EOr, IHe1, IHe2 by assumption. cbn [pcode]. rewrite !map_app, map_length. reflexivity.
  - rewrite cexpr_ENot, IHe by assumption. cbn [pcode]. rewrite !map_app. reflexivity.
  - rewrite cexpr_ENeg, IHe by assumption. cbn [pcode]. rewrite !map_app. reflexivity.
  - rewrite cexpr_ENilOr, IHe1, IHe2 by assumption. cbn [pcode]. rewrite !map_app, map_length. reflexivity.
  - rewrite cexpr_EGet, IHe by assumption. cbn [pcode]. rewrite !map_app. reflexivity.
Qed.

Definition code_of (d : nat) (e : expr) (st : cst) : list instr := strip (fst (cexpr path d e st)).

Lemma code_of_pure : forall e d st, pure e = true -> code_of d e st = pcode d e.
Proof. intros e d st H. unfold code_of. rewrite cexpr_pure by exact H. cbn [fst]. apply strip_map_CI. Qed.

Lemma cexpr_pure_state : forall e d st, pure e = true -> snd (cexpr path d e st) = st.
Proof. intros e d st H. rewrite cexpr_pure by exact H. reflexivity. Qed.

Definition writes_reg (i : instr) : option str :=
  if ((op i =? OP_STORE_FAST) || (op i =? OP_STORE_SKIP))%N then hd_error (args i) else None.

Ltac Forall_parts := repeat first [apply Forall_nil | apply Forall_cons | (apply Forall_app; split)].

(* for any k >= d: operands are compiled at depth k + 1, calls park the callee and the arguments in #k+1, #k+2, ... *)
Theorem cexpr_Forall : forall P : nat -> citem -> Prop,
  (forall d k o a, d <= k -> P d (I o (reg k :: a))) ->
  (forall d o a, writes_reg (mkI o a) = None -> P d (I o a)) ->
  forall e d k st, d <= k -> Forall (P d) (fst (cexpr path k e st)).
Proof.
  intros P Hw Hn.
  set (ok := fun e => forall d k st, d <= k -> Forall (P d) (fst (cexpr path k e st))).
  assert (Hargs : forall l, Forall ok l -> forall d k st, d <= k ->
            Forall (P d) (fst (fst (cargs k l st))) /\ Forall (P d) (snd (fst (cargs k l st)))).
  { induction l as [|a l IH]; intros HF d k st Hk; [split; constructor|].
    inversion HF as [|? ? Ha Hl]; subst. destruct (IH Hl d (S k) (snd (cexpr path k a st)) (le_S _ _ Hk)) as [H1 H2].
    cbn [cargs]. rewrite !let_pair. cbn [fst snd]. split; Forall_parts; auto. }
  intros e. apply (expr_ind' ok (fun _ => True)); try (intros; exact Logic.I); unfold ok.
  1-5: intros; cbn; Forall_parts; auto.
  - intros o a b Ha Hb d k st Hk. rewrite cexpr_EBin, !let_pair. cbn [fst]. Forall_parts; auto. destruct o; auto.
  - intros a b Ha Hb d k st Hk. rewrite cexpr_EAnd, !let_pair. cbn [fst]. Forall_parts; auto.
  - intros a b Ha Hb d k st Hk. rewrite cexpr_EOr, !let_pair. cbn [fst]. Forall_parts; auto.
  - intros a Ha d k st Hk. rewrite cexpr_ENot, !let_pair. cbn [fst]. Forall_parts; auto.
  - intros a Ha d k st Hk. rewrite cexpr_ENeg, !let_pair. cbn [fst]. Forall_parts; auto.
  - intros f l Hf Hl d k st Hk. rewrite cexpr_ECall, !let_pair. cbn [fst].
    destruct (Hargs l Hl d (S (S k)) (snd (cexpr path (S k) f st))); Forall_parts; auto.
  - intros l Hl d k st Hk. rewrite cexpr_ESelf, !let_pair. cbn [fst].
    destruct (Hargs l Hl d (S k) st); Forall_parts; auto.
  - intros ps body _ d k st Hk. destruct (cexpr_EFn k ps body st) as (name & st' & ->). cbn [fst]. Forall_parts; auto.
  - intros a b Ha Hb d k st Hk. rewrite cexpr_ENilOr, !let_pair. cbn [fst]. Forall_parts; auto.
  - intros a sp Ha d k st Hk. rewrite cexpr_EGet, !let_pair. cbn [fst]. Forall_parts; auto.
Qed.

Theorem cexpr_only_instructions : forall e d st, Forall is_CI (fst (cexpr path d e st)).
Proof. intros e d st. now apply (cexpr_Forall (fun _ => is_CI)) with (d := d). Qed.

Definition regs_ge (d : nat) (l : list citem) : Prop :=
  forall i n, In (CI i) l -> writes_reg i = Some n -> exists k, n = reg k /\ d <= k.

(* C15, static half: every register bound by the code of `cexpr d e` is #k with k >= d *)
Theorem cexpr_regs_ge_d : forall e d st, regs_ge d (fst (cexpr path d e st)).
Proof.
  intros e d st i n Hin Hn.
  set (P := fun d c => forall i n, c = CI i -> writes_reg i = Some n -> exists k, n = reg k /\ d <= k).
  assert (H : Forall (P d) (fst (cexpr path d e st))).
  { apply cexpr_Forall; [| |exact (le_n d)]; unfold P.
    - intros d0 k o a Hk i0 n0 E H0. inversion E; subst i0. unfold writes_reg in H0. cbn [op args mkI hd_error] in H0.
      destruct ((o =? OP_STORE_FAST) || (o =? OP_STORE_SKIP))%N; [|discriminate]. inversion H0. exists k. now split.
    - intros d0 o a Ho i0 n0 E H0. inversion E; subst i0. fold (mkI o a) in H0. congruence. }
  rewrite Forall_forall in H. exact (H _ Hin i n eq_refl Hn).
Qed.

End WithPath.
