(* C01 / C07: the code that ec / sc / bc (ClosFrag) give for expressions, statements and blocks with first-class functions does
   what the reference semantics does.  Every call goes through `call_sim`: ANY closure related to a VFun (whatever created
   it, wherever it has been stored or passed) does what call_clos does, the injection of cells growing by those the callee
   allocates, related cells holding related values afterwards (`modify` writes through).  The theorems here (espec_all,
   sspec_all, bspec_all) assume it for less fuel than their bound FU; ClosTop.call_sim_all closes the induction. *)
From Coq Require Import List Arith ZArith Lia Bool.
Import ListNotations.
From MS Require Import Base.Str Vm.Model Lang.Syntax Lang.Eval Compile.Compile Compile.ExprBase Compile.ExprSim.
From MS Require Import Compile.StmtMach Compile.StmtRel Compile.StmtFrag Compile.StmtSim Compile.StmtFun.
From MS Require Import Compile.ClosFrag Compile.ClosRel Compile.ClosEval.
From MS Require Vm.ClosureLemmas Verify.Sound.
Open Scope nat_scope.

(* a fact about the code at position p closes a goal about position q when lia shows p = q *)
Ltac atp H := first [exact H | match type of H with
  | nth_error _ ?p = _ => match goal with |- nth_error _ ?q = _ => replace q with p by lia; exact H end
  | code_at _ ?p _ => match goal with |- code_at _ ?q _ => replace q with p by lia; exact H end
  | items_at _ _ _ ?p _ => match goal with |- items_at _ _ _ ?q _ => replace q with p by lia; exact H end end].

Lemma err_s_not_bool : forall n, err_rel_s (FType n) E_not_bool.
Proof. intros n. left. right. left. reflexivity. Qed.
Lemma err_s_invalid_op : forall n, err_rel_s (FType n) E_invalid_op.
Proof. intros n. left. right. right. reflexivity. Qed.

Section Sim.
Variable path : str.
Variable prog : program.

Local Notation vrel := (ClosRel.vrel path prog).
Local Notation heap_ok := (ClosRel.heap_ok path prog).
Local Notation clos_ok := (ClosRel.clos_ok path prog).
Local Notation installed := (ClosRel.installed prog).

Fixpoint vrels (b : cinj) (ks : list kind) (vs : list rvalue) (ws : list value) : Prop :=
  match ks, vs, ws with
  | [], [], [] => True
  | k :: ks, v :: vs, w :: ws => vrel b k v w /\ vrels b ks vs ws
  | _, _, _ => False
  end.
Lemma vrels_mono : forall b b' ks vs ws, cinj_le b b' -> vrels b ks vs ws -> vrels b' ks vs ws.
Proof.
  intros b b' ks. induction ks as [|k ks IH]; intros [|v vs] [|w ws] Hle H; cbn [vrels] in *; try contradiction; [exact Logic.I|].
  destruct H as [H1 H2]. split; [eapply vrel_mono; eassumption|now apply IH].
Qed.
Lemma vrels_length : forall b ks vs ws, vrels b ks vs ws -> length vs = length ks /\ length ws = length ks.
Proof.
  intros b ks. induction ks as [|k ks IH]; intros [|v vs] [|w ws] H; cbn [vrels] in *; try contradiction; [split; reflexivity|].
  destruct (IH _ _ (proj2 H)). cbn [length]. split; congruence.
Qed.

Definition lens (s s' : rstate) (g g' : gstate) : Prop :=
  length (store s) <= length (store s') /\ length (cells g) <= length (cells g').
Lemma lens_trans : forall s s1 s2 g g1 g2, lens s s1 g g1 -> lens s1 s2 g1 g2 -> lens s s2 g g2.
Proof. intros s s1 s2 g g1 g2 [A1 A2] [B1 B2]. split; lia. Qed.

(* what a run does to the two heaps: the injection grows by cells that are new on both sides, the VM cells outside it
   keep their values, no cell disappears *)
Definition adv (b : cinj) (s : rstate) (g : gstate) (b' : cinj) (s' : rstate) (g' : gstate) : Prop :=
  bext b b' s g /\ keep b g g' /\ lens s s' g g'.
Lemma adv_trans : forall {b s g b1 s1 g1 b2 s2 g2}, adv b s g b1 s1 g1 -> adv b1 s1 g1 b2 s2 g2 -> adv b s g b2 s2 g2.
Proof.
  intros b s g b1 s1 g1 b2 s2 g2 (E1 & K1 & L1) (E2 & K2 & L2).
  split; [exact (bext_trans _ _ _ _ _ _ _ E1 E2 (proj1 L1) (proj2 L1))|]. split; [eapply keep_trans; eassumption|eapply lens_trans; eassumption].
Qed.
Lemma adv_cells : forall {b s g b' s' g'} g0 g0', adv b s g b' s' g' -> cells g0 = cells g -> cells g0' = cells g' -> adv b s g0 b' s' g0'.
Proof. unfold adv, bext, keep, lens, cell_get. intros b s g b' s' g' g0 g0' H E0 E0'. rewrite E0, E0'. exact H. Qed.
Lemma adv_app : forall {b s g g' extra}, cells g' = cells g ++ extra -> adv b s g b s g'.
Proof.
  intros b s g g' extra E. split; [apply bext_refl|]. split; [eapply keep_cells_app; exact E|]. split; [lia|rewrite E, app_length; lia].
Qed.
Lemma adv_same : forall {b s s' g g'}, store s' = store s -> cells g' = cells g -> adv b s g b s' g'.
Proof.
  intros b s s' g g' Es Eg. split; [apply bext_refl|]. split; [apply (keep_cells_app b g g' []); now rewrite app_nil_r|].
  split; [rewrite Es|rewrite Eg]; apply le_n.
Qed.
Lemma adv_refl : forall b s g, adv b s g b s g.
Proof. intros. exact (adv_same eq_refl eq_refl). Qed.
Lemma adv_set : forall {b : cinj} {s g c c' k v w}, b c c' k -> adv b s g b (sset s c v) (cell_set g c' w).
Proof.
  intros b s g c c' k v w Hb. split; [apply bext_refl|]. split; [eapply keep_cell_set; exact Hb|].
  split; cbn [sset cell_set store cells]; rewrite set_nth_length; lia.
Qed.
Lemma adv_alloc : forall {b b' s s' g g' v w}, bext b b' s g -> store s' = store s ++ [v] -> cells g' = cells g ++ [w] -> adv b s g b' s' g'.
Proof.
  intros b b' s s' g g' v w E Es Eg. split; [exact E|]. split; [eapply keep_cells_app; exact Eg|]. split; [rewrite Es|rewrite Eg]; rewrite app_length; lia.
Qed.

(* what the callee (run_fn on the code of the literal) does for a call the reference semantics makes with `fuel` *)
Definition call_sim (fuel : nat) : Prop :=
  forall b s g1 pk r ps body cenv loc cb vs ws,
    heap_ok b s g1 -> out g1 = rout s -> frames_nd (frames g1) ->
    clos_ok b pk r ps body cenv loc cb -> vrels b pk vs ws ->
    match call_clos_ fuel (RClos ps body cenv) vs s with
    | EVal v s' => exists fuel' g2 b' w,
          run_fn fuel' prog loc ws cb g1 = RDone (Some w) g2 /\ bext b b' s g1 /\ heap_ok b' s' g2 /\ vrel b' r v w /\
          frames g2 = frames g1 /\ out g2 = rout s' /\ keep b g1 g2 /\ lens s s' g1 g2
    | ENoVal s' => r = KN /\ exists fuel' g2 b',
          run_fn fuel' prog loc ws cb g1 = RDone None g2 /\ bext b b' s g1 /\ heap_ok b' s' g2 /\
          frames g2 = frames g1 /\ out g2 = rout s' /\ keep b g1 g2 /\ lens s s' g1 g2
    | EFail fl s' => fail_post fl (exists fuel' e g2,
          run_fn fuel' prog loc ws cb g1 = RFail e g2 /\ err_rel_s fl e /\ out g2 = rout s')
    | EFuel => True
    end.

Section Act.
Variable name : str.
Variable code : list instr.
Variable cb : option (list (str * N)).
Variable CD : kctx.
Variable base : list frame.
Variable SF : sfk.
Variable c0 : nat.
Hypothesis Hsmall : small (c0 + 2 * length code + 8).
Variable FU : nat.
Hypothesis Hcall : forall fuel', fuel' < FU -> call_sim fuel'.

(* the names the VM binds only if the reference semantics does: all of them between statements (HPall below), at least
   the captured ones inside expressions *)
Variable P : str -> Prop.
Hypothesis HPcd : forall x, assoc x CD <> None -> P x.

Local Notation ClA := (Cl path prog P cb CD base name SF).

Definition fkeep (d : nat) (g g' : gstate) : Prop :=
  forall y, ~ own_reg d y -> find_in_function y (frames g') = find_in_function y (frames g) /\
                             assoc y (top_vars (frames g')) = assoc y (top_vars (frames g)).
Lemma fkeep_trans : forall d g1 g2 g3, fkeep d g1 g2 -> fkeep d g2 g3 -> fkeep d g1 g3.
Proof. intros d g1 g2 g3 H1 H2 y Hy. destruct (H1 y Hy) as [A1 B1], (H2 y Hy) as [A2 B2]. split; congruence. Qed.
Lemma fkeep_same : forall d g g', frames g' = frames g -> fkeep d g g'.
Proof. intros d g g' E y _. now rewrite E. Qed.
Lemma fkeep_mono : forall d d' g g', d <= d' -> fkeep d' g g' -> fkeep d g g'.
Proof. intros d d' g g' Hle H y Hy. apply H. intros Ho. apply Hy. eapply own_reg_mono; eassumption. Qed.

Definition rest (b : cinj) (d : nat) (s s' : rstate) (a : act) (g : gstate) (a' : act) (g' : gstate) : Prop :=
  tl (frames g') = tl (frames g) /\ act_same a a' /\ a_ss a' = a_ss a /\ keep b g g' /\ fkeep d g g' /\ lens s s' g g'.

(* the machine fails where the reference semantics does (no claim about the failures a typed program cannot have) *)
Definition failed (a : act) (g : gstate) (f : failure) (s' : rstate) : Prop :=
  fail_post f (exists e0 g', xfail prog name code a g e0 g' /\ err_rel_s f e0 /\ out g' = rout s').
Lemma failed_run : forall {a g a1 g1 f s'}, xrun prog name code a g a1 g1 -> failed a1 g1 f s' -> failed a g f s'.
Proof.
  intros a g a1 g1 f s' R H. eapply fail_post_map; [|exact H]. intros (e0 & g' & Hf & Hr). exists e0, g'.
  split; [eapply xrun_fail; eassumption|exact Hr].
Qed.
Lemma failed_step : forall {a g i dI e0 f s'}, nth_error code (a_ip a) = Some i -> decode i = DOk dI ->
  exec_d dI a (trc name a g i) = SFail e0 -> err_rel_s f e0 -> out g = rout s' -> failed a g f s'.
Proof.
  intros a g i dI e0 f s' Hi Hd Hx Hr Ho. apply fail_post_intro. exists e0, (trc name a g i).
  split; [eapply xstep_fail; [reflexivity|exact Hi|exact Hd|exact Hx]|]. split; [exact Hr|exact Ho].
Qed.

Definition eres_ok (b : cinj) (B : kctx) (env : fenv) (s : rstate) (d fin : nat) (a : act) (g : gstate) (k : kind) (r : eres) : Prop :=
  match r with
  | EVal v s' => exists a' g' b' w, xrun prog name code a g a' g' /\ a_ip a' = fin /\ a_ops a' = [w] /\
        bext b b' s g /\ ClA b' B env s' g' /\ vrel b' k v w /\ rest b d s s' a g a' g'
  | ENoVal s' => k = KN /\ exists a' g' b', xrun prog name code a g a' g' /\ a_ip a' = fin /\ a_ops a' = [] /\
        bext b b' s g /\ ClA b' B env s' g' /\ rest b d s s' a g a' g'
  | EFail f s' => fail_post f (exists e0 g', xfail prog name code a g e0 g' /\ err_rel_s f e0 /\ out g' = rout s')
  | EFuel => True
  end.

Lemma Cl_ext : forall {b B env s g g' d lo hi}, ClA b B env s g -> ExprSim.ext d lo hi g g' -> frames_nd (frames g') ->
  ClA b B env s g'.
Proof.
  intros b B env s g g' d lo hi H He Hnd'. destruct (ext_cells _ _ _ _ _ He) as [extra Ec]. destruct (Cl_frames H) as (f & fs & Ef).
  pose proof (ext_labs _ _ _ _ _ He) as Hl. pose proof (ext_tail _ _ _ _ _ He) as Ht. rewrite Ef in Hl, Ht.
  destruct (frames g') as [|f' fs'] eqn:Ef'; [discriminate Hl|]. cbn [map tl] in Hl, Ht. subst fs'. injection Hl as Hl.
  apply (Cl_vm path prog P cb CD base name SF b B env s g g' extra f f' fs H Ec (ext_out _ _ _ _ _ He) Ef Ef' Hl); [|rewrite Ef'; exact Hnd'].
  intros x Hx. rewrite <- Ef, <- Ef'. apply (ext_find _ _ _ _ _ He). apply own_reg_not_src. exact (proj1 Hx).
Qed.

Lemma Cl_trc : forall {b B env s g nm a i}, ClA b B env s g -> ClA b B env s (trc nm a g i).
Proof. intros b B env s g nm a i H. eapply Cl_same; [exact H|reflexivity|reflexivity|reflexivity]. Qed.

Lemma var_cell : forall {b B env s g x k}, ClA b B env s g -> bound2 B env -> kvar B CD x = Some k ->
  uname0 x /\ exists c c' v w, lookup_scopes x (locals env ++ captured env) = Some c /\
     (forall a, a_cb a = cb -> lookup_var a g x = Some c') /\ b c c' k /\ sget s c = Some v /\ cell_get g c' = Some w /\ vrel b k v w.
Proof.
  intros b B env s g x k H Hb Hk. unfold kvar in Hk. destruct (assoc x B) as [k1|] eqn:EB.
  - injection Hk as ->. destruct (cl_B H x k EB) as (Hx & c & c' & A1 & A2 & A3). split; [exact Hx|].
    destruct (Cl_val H A3) as (v & w & E1 & E2 & E3).
    exists c, c', v, w. split; [now apply lookup_app_some|]. split; [intros a _; unfold lookup_var; now rewrite A2|]. auto.
  - destruct (cl_cap H x k Hk) as (Hx & c & c' & A1 & A2 & A3). split; [exact Hx|].
    destruct (Cl_val H A3) as (v & w & E1 & E2 & E3).
    pose proof (bound2_none B env x Hb (proj2 (proj2 Hx)) EB) as Hn.
    exists c, c', v, w. split; [rewrite lookup_app_split, Hn; exact A1|]. split; [|auto].
    intros a Ha. unfold lookup_var, load_cb. rewrite (Cl_unbound H Hx (HPcd x ltac:(congruence)) Hn), Ha. exact A2.
Qed.

Lemma ok_dexpr_parts : forall B e, ok_dexpr B CD e = true ->
  pure e = true /\ lits_ok e = true /\ forall x, In x (used_e e) -> uname0 x /\ kvar B CD x = Some KD.
Proof.
  intros B e H. unfold ok_dexpr in H. rewrite !andb_true_iff in H. destruct H as [[Hp Hl] Hu]. split; [exact Hp|]. split; [exact Hl|].
  intros x Hx. rewrite forallb_forall in Hu. specialize (Hu x Hx). apply andb_true_iff in Hu as [H1 H2].
  split; [exact (src_nameb_ok x H1)|exact (is_KD_eq _ H2)].
Qed.

(* a call-free expression over data variables (locals of B, captured
   ones that no local shadows): ExprSim.sim_pure.  The reference semantics may evaluate it in another environment envE that
   finds the same cells for them (the step of a from loop: the VM is still inside the frame of the body, the reference
   semantics has left its scope) *)
Definition capsc (env : fenv) : scope :=
  map (fun p => (fst p, match lookup_scopes (fst p) (captured env) with Some c => c | None => 0%N end)) CD.
Definition lsc (env : fenv) (B : kctx) : scope :=
  map (fun p => (fst p, match lookup_scopes (fst p) (locals env) with Some c => c | None => 0%N end)) B.
Lemma assoc_map_key : forall (f : str -> N) (B : kctx) x, assoc x (map (fun p => (fst p, f (fst p))) B) =
  match assoc x B with Some _ => Some (f x) | None => None end.
Proof.
  intros f B x. induction B as [|[y ky] t IH]; [reflexivity|]. cbn [map fst assoc].
  destruct (str_eqb y x) eqn:E; [apply str_eqb_eq in E; subst y; reflexivity|exact IH].
Qed.
Definition cfree (env : fenv) : scope :=
  filter (fun p => match lookup_scopes (fst p) (locals env) with None => true | Some _ => false end) (capsc env).
Lemma assoc_filter_key : forall (f : str -> bool) (l : scope) x, assoc x (filter (fun p => f (fst p)) l) = if f x then assoc x l else None.
Proof.
  intros f l x. induction l as [|[y cy] t IH]; [now destruct (f x)|]. cbn [filter fst]. destruct (f y) eqn:Ey; cbn [assoc].
  - destruct (str_eqb y x) eqn:E; [apply str_eqb_eq in E; subst y; now rewrite Ey|exact IH].
  - rewrite IH. destruct (str_eqb y x) eqn:E; [apply str_eqb_eq in E; subst y; now rewrite Ey|reflexivity].
Qed.
(* the environment sim_pure is given: exactly the data variables of B and the unshadowed captured ones, with their cells *)
Definition denv (env : fenv) (B : kctx) : fenv := {| locals := [lsc env B]; captured := [cfree env]; cur := cur env |}.
Lemma lookup_denv : forall env B x, lookup_scopes x (locals (denv env B) ++ captured (denv env B)) =
  match assoc x B with
  | Some _ => Some (match lookup_scopes x (locals env) with Some c => c | None => 0%N end)
  | None => match lookup_scopes x (locals env), assoc x CD with
            | None, Some _ => Some (match lookup_scopes x (captured env) with Some c => c | None => 0%N end)
            | _, _ => None end
  end.
Proof.
  intros env B x. cbn [denv locals captured app lookup_scopes]. unfold lsc, cfree, capsc.
  rewrite (assoc_map_key (fun y => match lookup_scopes y (locals env) with Some c => c | None => 0%N end)).
  destruct (assoc x B); [reflexivity|].
  rewrite (assoc_filter_key (fun y => match lookup_scopes y (locals env) with None => true | Some _ => false end)).
  destruct (lookup_scopes x (locals env)); [reflexivity|].
  rewrite (assoc_map_key (fun y => match lookup_scopes y (captured env) with Some c => c | None => 0%N end)). now destruct (assoc x CD).
Qed.
Lemma denv_cell : forall {b B env s a g x c}, ClA b B env s g -> a_cb a = cb ->
  lookup_scopes x (locals (denv env B) ++ captured (denv env B)) = Some c ->
  exists k c', b c c' k /\ lookup_var a g x = Some c'.
Proof.
  intros b B env s a g x c H Ha Hl. rewrite lookup_denv in Hl. destruct (assoc x B) as [kx|] eqn:EB.
  - destruct (cl_B H x kx EB) as (_ & c1 & c' & A1 & A2 & A3). rewrite A1 in Hl. injection Hl as <-.
    exists kx, c'. split; [exact A3|]. unfold lookup_var. now rewrite A2.
  - destruct (lookup_scopes x (locals env)) eqn:E1; [discriminate|]. destruct (assoc x CD) as [kx|] eqn:Ek; [|discriminate].
    destruct (cl_cap H x kx Ek) as (Hx & c1 & c' & A1 & A2 & A3). rewrite A1 in Hl. injection Hl as <-.
    exists kx, c'. split; [exact A3|]. unfold lookup_var, load_cb. rewrite (Cl_unbound H Hx (HPcd x ltac:(congruence)) E1), Ha. exact A2.
Qed.

Lemma lexpr_run : forall {b B e d} fuel {k a g env envE s},
  ok_dexpr B CD e = true ->
  (forall x c, assoc x B <> None -> lookup_scopes x (locals env) = Some c -> lookup_scopes x (locals envE ++ captured envE) = Some c) ->
  (forall x, In x (used_e e) -> assoc x B = None -> lookup_scopes x (locals env) = None /\ lookup_scopes x (locals envE) = None) ->
  captured envE = captured env ->
  d <= c0 + length code + 2 ->
  code_at code k (pcode d e) -> k + length (pcode d e) < length code ->
  a_ip a = k -> a_ops a = [] -> a_cb a = cb -> ClA b B env s g ->
  match eval fuel envE e s with
  | EVal v s' => s' = s /\ first_order v /\
                 exists g', xrun prog name code a g (upd a (k + length (pcode d e)) [inj v]) g' /\ ClA b B env s g' /\
                            ExprSim.ext d k (k + length (pcode d e)) g g'
  | EFail f s' => s' = s /\ exists e0 g', xfail prog name code a g e0 g' /\ err_rel f e0 /\ out g' = rout s
  | EFuel => True
  | ENoVal _ => False
  end.
Proof.
  intros b B e d fuel k a g env envE s Hok HE HN Hcap Hd Hc Hend Hip Hops Hacb HR.
  destruct (ok_dexpr_parts B e Hok) as (Hp & Hl & Hu).
  set (env0 := denv env B).
  assert (Hvc : forall x, In x (used_e e) -> exists c v, lookup_scopes x (locals env0 ++ captured env0) = Some c /\ sget s c = Some v /\ first_order v /\
                  lookup_scopes x (locals envE ++ captured envE) = Some c).
  { intros x Hx. destruct (Hu x Hx) as [Hux Hk]. unfold env0. rewrite lookup_denv. unfold kvar in Hk. destruct (assoc x B) as [kx|] eqn:EB.
    - injection Hk as ->. destruct (cl_B HR x KD EB) as (_ & c & c' & A1 & _ & A3). destruct (Cl_val HR A3) as (v & w & E1 & _ & [Hfo _]).
      exists c, v. rewrite A1. split; [reflexivity|]. split; [exact E1|]. split; [exact Hfo|]. apply (HE x c); [congruence|exact A1].
    - destruct (HN x Hx EB) as [N1 N2]. destruct (cl_cap HR x KD Hk) as (_ & c & c' & A1 & _ & A3). destruct (Cl_val HR A3) as (v & w & E1 & _ & [Hfo _]).
      exists c, v. rewrite N1, Hk, A1. split; [reflexivity|]. split; [exact E1|]. split; [exact Hfo|]. rewrite lookup_app_split, N2, Hcap. exact A1. }
  assert (Hv : forall x, In x (used_e e) -> var_ok env0 s x).
  { intros x Hx. destruct (Hvc x Hx) as (c & v & E1 & E2 & Hfo & _). split; [exact (proj1 (proj1 (Hu x Hx)))|]. exists c, v. auto. }
  assert (Hag : forall x, In x (used_e e) -> agree env0 s envE s x).
  { intros x Hx. destruct (Hvc x Hx) as (c & v & E1 & E2 & _ & E4). exists c, c, v. auto. }
  destruct (eval_pure_congr e Hp fuel env0 s envE s Hag) as [_ Ecg]. rewrite Ecg.
  assert (HRenv : Renv env0 s a g).
  { intros x c v _ Hlk Hg Hfo. destruct (denv_cell HR Hacb Hlk) as (kx & c' & Hbc & Hlv).
    destruct (Cl_val HR Hbc) as (v0 & w & E1 & E2 & E3). exists c'. split; [exact Hlv|]. rewrite E2. f_equal.
    rewrite Hg in E1. injection E1 as <-. exact (vrel_fo path prog _ _ _ _ E3 Hfo). }
  assert (Hsm : small (d + length (pcode d e) + 3)) by (eapply small_le; [|exact Hsmall]; lia).
  destruct (Cl_frames HR) as (f0 & fs0 & Ef0).
  pose proof (sim_pure name code e Hp d fuel k a g env0 s Hl Hv Hsm Hc Hend Hip Hops ltac:(rewrite Ef0; discriminate) HRenv) as H.
  destruct (eval fuel env0 e s) as [v s1|s1|f s1|]; cbn [sim_post res_to] in H |- *; [|contradiction| |exact Logic.I].
  - destruct H as (-> & Hfo & g' & R). split; [reflexivity|]. split; [exact Hfo|]. exists g'. split; [eapply run_ok_xrun; exact R|].
    split; [|exact (proj2 R)]. eapply Cl_ext; [exact HR|exact (proj2 R)|].
    eapply xreach_nd; [apply reaches_xreach_running; exact (proj1 R)|exact (cl_nd HR)].
  - destruct H as (-> & e0 & g' & R & Hr & He). split; [reflexivity|]. exists e0, g'. split; [now apply reaches_xfail|]. split; [exact Hr|].
    rewrite (ext_out _ _ _ _ _ He). exact (cl_out HR).
Qed.

Record mid (b0 : cinj) (d : nat) (s0 : rstate) (a0 : act) (g0 : gstate) (b : cinj) (s : rstate) (a : act) (g : gstate) : Prop := {
  mid_run : xrun prog name code a0 g0 a g;
  mid_adv : adv b0 s0 g0 b s g;
  mid_tl : tl (frames g) = tl (frames g0);
  mid_act : act_same a0 a;
  mid_ss : a_ss a = a_ss a0;
  mid_fk : fkeep d g0 g
}.
Arguments mid_run {b0 d s0 a0 g0 b s a g}.
Arguments mid_adv {b0 d s0 a0 g0 b s a g}.
Arguments mid_tl {b0 d s0 a0 g0 b s a g}.
Arguments mid_act {b0 d s0 a0 g0 b s a g}.
Arguments mid_ss {b0 d s0 a0 g0 b s a g}.
Arguments mid_fk {b0 d s0 a0 g0 b s a g}.

Lemma mid_trans : forall {b0 d s0 a0 g0 b1 s1 a1 g1 b2 s2 a2 g2},
  mid b0 d s0 a0 g0 b1 s1 a1 g1 -> mid b1 d s1 a1 g1 b2 s2 a2 g2 -> mid b0 d s0 a0 g0 b2 s2 a2 g2.
Proof.
  intros b0 d s0 a0 g0 b1 s1 a1 g1 b2 s2 a2 g2 [R1 V1 T1 A1 S1 F1] [R2 V2 T2 A2 S2 F2].
  constructor; [eapply xrun_trans; eassumption|eapply adv_trans; eassumption|congruence|eapply act_same_trans; eassumption|congruence|
                eapply fkeep_trans; eassumption].
Qed.
Lemma mid_mono : forall {b0 d d' s0 a0 g0 b s a g}, d <= d' -> mid b0 d' s0 a0 g0 b s a g -> mid b0 d s0 a0 g0 b s a g.
Proof. intros b0 d d' s0 a0 g0 b s a g Hle [R V T A S F]. constructor; try assumption. eapply fkeep_mono; eassumption. Qed.
Lemma mid_le : forall {b0 d s0 a0 g0 b s a g}, mid b0 d s0 a0 g0 b s a g -> cinj_le b0 b.
Proof. intros b0 d s0 a0 g0 b s a g M. exact (proj1 (proj1 (mid_adv M))). Qed.
Lemma mid_cb : forall {b0 d s0 a0 g0 b s a g}, mid b0 d s0 a0 g0 b s a g -> a_cb a0 = cb -> a_cb a = cb.
Proof. intros b0 d s0 a0 g0 b s a g M H. rewrite (proj2 (proj2 (mid_act M))). exact H. Qed.

Lemma mid_same : forall {b d s a g a' g'}, xrun prog name code a g a' g' -> frames g' = frames g -> cells g' = cells g ->
  act_same a a' -> a_ss a' = a_ss a -> mid b d s a g b s a' g'.
Proof.
  intros b d s a g a' g' R Hf Hc Ha Hs. constructor; [exact R|apply adv_same; [reflexivity|exact Hc]|now rewrite Hf|exact Ha|exact Hs|apply fkeep_same; exact Hf].
Qed.
Lemma mid_refl : forall b d s a g, mid b d s a g b s a g.
Proof. intros. exact (mid_same (xrun_refl _ _ _ _ _) eq_refl eq_refl (act_same_refl _) eq_refl). Qed.
Lemma mid_next : forall {b d s a g i dI a1}, nth_error code (a_ip a) = Some i -> decode i = DOk dI ->
  exec_d dI a (trc name a g i) = SNext a1 (trc name a g i) -> act_same a a1 -> a_ss a1 = a_ss a ->
  mid b d s a g b s (set_ip a1 (S (a_ip a1))) (trc name a g i).
Proof.
  intros b d s a g i dI a1 Hi Hd Hx Ha Hs. apply mid_same; [|reflexivity|reflexivity|exact Ha|exact Hs].
  exact (xstep_next prog name code a g i dI (a_ip a) a1 _ eq_refl Hi Hd Hx).
Qed.
Lemma mid_goto : forall {b d s a g i dI off a1 t}, nth_error code (a_ip a) = Some i -> decode i = DOk dI ->
  exec_d dI a (trc name a g i) = SGoto off a1 (trc name a g i) -> goto (length code) (a_ip a1) off = Some t ->
  act_same a a1 -> a_ss a1 = a_ss a ->
  mid b d s a g b s (set_ip a1 t) (trc name a g i).
Proof.
  intros b d s a g i dI off a1 t Hi Hd Hx Hg Ha Hs. apply mid_same; [|reflexivity|reflexivity|exact Ha|exact Hs].
  exact (xstep_goto prog name code a g i dI (a_ip a) off a1 _ t eq_refl Hi Hd Hx Hg).
Qed.

Lemma eres_val : forall {b B env s d fin a g k v s' a' g' b' w},
  mid b d s a g b' s' a' g' -> a_ip a' = fin -> a_ops a' = [w] -> ClA b' B env s' g' -> vrel b' k v w ->
  eres_ok b B env s d fin a g k (EVal v s').
Proof.
  intros b B env s d fin a g k v s' a' g' b' w [R (E & K & L) T A S F] Hip Hops HC Hv. exists a', g', b', w. unfold rest. auto 12.
Qed.
Lemma eres_noval : forall {b B env s d fin a g s' a' g' b'},
  mid b d s a g b' s' a' g' -> a_ip a' = fin -> a_ops a' = [] -> ClA b' B env s' g' ->
  eres_ok b B env s d fin a g KN (ENoVal s').
Proof.
  intros b B env s d fin a g s' a' g' b' [R (E & K & L) T A S F] Hip Hops HC. split; [reflexivity|]. exists a', g', b'. unfold rest. auto 12.
Qed.
Lemma eres_val_inv : forall {b B env s d fin a g k v s'}, eres_ok b B env s d fin a g k (EVal v s') ->
  exists a' g' b' w, mid b d s a g b' s' a' g' /\ a_ip a' = fin /\ a_ops a' = [w] /\ ClA b' B env s' g' /\ vrel b' k v w.
Proof.
  intros b B env s d fin a g k v s' (a' & g' & b' & w & R & Hip & Hops & E & HC & Hv & T & A & S & K & F & L).
  exists a', g', b', w. split; [constructor; [exact R|exact (conj E (conj K L))|exact T|exact A|exact S|exact F]|auto].
Qed.
Lemma eres_noval_inv : forall {b B env s d fin a g k s'}, eres_ok b B env s d fin a g k (ENoVal s') ->
  k = KN /\ exists a' g' b', mid b d s a g b' s' a' g' /\ a_ip a' = fin /\ a_ops a' = [] /\ ClA b' B env s' g'.
Proof.
  intros b B env s d fin a g k s' (Hk & a' & g' & b' & R & Hip & Hops & E & HC & T & A & S & K & F & L). split; [exact Hk|].
  exists a', g', b'. split; [constructor; [exact R|exact (conj E (conj K L))|exact T|exact A|exact S|exact F]|auto].
Qed.

Lemma eres_mono : forall b B env s d d' fin a g k r, d <= d' -> eres_ok b B env s d' fin a g k r -> eres_ok b B env s d fin a g k r.
Proof.
  intros b B env s d d' fin a g k r Hle H. destruct r as [v s2|s2|f s2|]; [| |exact H|exact Logic.I].
  - apply eres_val_inv in H. destruct H as (a' & g' & b' & w & M & Hip & Hops & HC & Hv).
    exact (eres_val (mid_mono Hle M) Hip Hops HC Hv).
  - apply eres_noval_inv in H. destruct H as (-> & a' & g' & b' & M & Hip & Hops & HC).
    exact (eres_noval (mid_mono Hle M) Hip Hops HC).
Qed.
Lemma eres_seq : forall b B env s d d' fin a g b1 s1 a1 g1 k r,
  mid b d' s a g b1 s1 a1 g1 -> d <= d' -> eres_ok b1 B env s1 d fin a1 g1 k r -> eres_ok b B env s d fin a g k r.
Proof.
  intros b B env s d d' fin a g b1 s1 a1 g1 k r M' Hle H. pose proof (mid_mono Hle M') as M.
  destruct r as [v s2|s2|f s2|]; [| | |exact Logic.I].
  - apply eres_val_inv in H. destruct H as (a' & g' & b' & w & M2 & Hip & Hops & HC & Hv).
    exact (eres_val (mid_trans M M2) Hip Hops HC Hv).
  - apply eres_noval_inv in H. destruct H as (-> & a' & g' & b' & M2 & Hip & Hops & HC).
    exact (eres_noval (mid_trans M M2) Hip Hops HC).
  - exact (failed_run (mid_run M) H).
Qed.
Arguments eres_seq {b B env s d d' fin a g b1 s1 a1 g1 k r}.

Definition rvk (b : cinj) (g : gstate) (d : nat) (w : value) : Prop :=
  exists cj, find_in_function (reg d) (frames g) = Some cj /\ cell_get g cj = Some w /\ forall c k, ~ b c cj k.

Lemma not_own_reg_lt : forall d r, r < d -> small r -> ~ own_reg d (reg r).
Proof. intros d r Hr Hs (k & K1 & K2 & K3). apply reg_inj in K3; [lia|exact Hs|exact K2]. Qed.

Lemma rvk_keep : forall {b0 d s0 a0 g0 b s a g r w}, mid b0 d s0 a0 g0 b s a g -> rvk b0 g0 r w -> r < d -> small r ->
  rvk b g r w.
Proof.
  intros b0 d s0 a0 g0 b s a g r w M (cj & F1 & F2 & F3) Hr Hs. destruct (mid_adv M) as (E & K & _).
  exists cj. split; [rewrite (proj1 (mid_fk M _ (not_own_reg_lt d r Hr Hs))); exact F1|]. split; [exact (K _ _ F2 F3)|].
  exact (bext_unpaired _ _ _ _ _ _ E F2 F3).
Qed.

Lemma bind_step : forall {b B env s a g i dI y w}, nth_error code (a_ip a) = Some i -> decode i = DOk dI -> ~ uname0 y ->
  (forall g', bind_local (trc name a g i) y w = Some g' -> exec_d dI a (trc name a g i) = SNext (set_ops a []) g') ->
  ClA b B env s g ->
  exists f fs g2, frames g = f :: fs /\
    xrun prog name code a g (upd a (S (a_ip a)) []) g2 /\ ClA b B env s g2 /\
    frames g2 = {| lab := lab f; vars := assoc_set y (N.of_nat (length (cells g))) (vars f) |} :: fs /\
    cells g2 = cells g ++ [w] /\ out g2 = out g /\ (forall c k, ~ b c (N.of_nat (length (cells g))) k).
Proof.
  intros b B env s a g i dI y w Hi Hd Hy Hx HC.
  destruct (Cl_bind_reg path prog P cb CD base name SF b B env s (trc name a g i) y w (Cl_trc HC) Hy)
    as (f & fs & Ef & Hb & HC2). exists f, fs. eexists. split; [exact Ef|].
  split; [exact (xstep_next prog name code a g i dI (a_ip a) _ _ eq_refl Hi Hd (Hx _ Hb))|].
  split; [exact HC2|]. split; [reflexivity|]. split; [reflexivity|]. split; [reflexivity|].
  intros c k Hb0. destruct (heap_valid path prog _ _ _ _ _ _ (cl_heap HC) Hb0) as [_ Hc']. rewrite Nnat.Nat2N.id in Hc'. lia.
Qed.

Lemma park_gen : forall {b B env s a g i dI d w}, nth_error code (a_ip a) = Some i -> decode i = DOk dI -> small d ->
  (forall g', bind_local (trc name a g i) (reg d) w = Some g' -> exec_d dI a (trc name a g i) = SNext (set_ops a []) g') ->
  ClA b B env s g ->
  exists g2, mid b d s a g b s (upd a (S (a_ip a)) []) g2 /\ ClA b B env s g2 /\ rvk b g2 d w.
Proof.
  intros b B env s a g i dI d w Hi Hd Hsd Hx HC.
  destruct (bind_step Hi Hd (reg_not_uname0 d) Hx HC) as (f & fs & g2 & Ef & R & HC2 & Ef2 & Ec2 & _ & Hn).
  exists g2. split; [|split; [exact HC2|]].
  - constructor; [exact R|exact (adv_app Ec2)|now rewrite Ef, Ef2|repeat split|reflexivity|].
    intros y Hy. rewrite Ef, Ef2. cbn [find_in_function top_vars vars lab]. rewrite assoc_set_other; [split; reflexivity|].
    intros ->. apply Hy. exists d. split; [lia|]. split; [exact Hsd|reflexivity].
  - exists (N.of_nat (length (cells g))). rewrite Ef2. cbn [find_in_function vars]. rewrite assoc_set_same.
    split; [reflexivity|]. split; [exact (cell_get_new _ _ _ Ec2)|exact Hn].
Qed.
Lemma park2 : forall {b B env s a1 g1 k1 d w}, nth_error code k1 = Some (mkI OP_STORE_FAST [reg d]) ->
  a_ip a1 = k1 -> a_ops a1 = [w] -> ClA b B env s g1 -> small d ->
  exists g2, mid b d s a1 g1 b s (upd a1 (S k1) []) g2 /\ ClA b B env s g2 /\ rvk b g2 d w.
Proof.
  intros b B env s a1 g1 k1 d w Hi Hip Hops HC Hsd. subst k1.
  exact (park_gen Hi (dec_store_fast (reg d)) Hsd (fun g' Hb => exec_store_fast (reg d) a1 _ w g' Hops Hb) HC).
Qed.

Lemma unpark2 : forall {b d0 s a g kk d w}, nth_error code kk = Some (mkI OP_LOAD_FAST [reg d]) -> a_ip a = kk -> rvk b g d w ->
  mid b d0 s a g b s (upd a (S kk) (a_ops a ++ [w])) (trc name a g (mkI OP_LOAD_FAST [reg d])).
Proof.
  intros b d0 s a g kk d w Hi Hip (cj & F1 & F2 & _). subst kk.
  apply (mid_next (a1 := set_ops a (a_ops a ++ [w])) Hi (dec_load_fast (reg d))); [|repeat split|reflexivity].
  exact (exec_load_fast (reg d) a (trc name a g (mkI OP_LOAD_FAST [reg d])) cj w F1 F2).
Qed.

Definition espec (e : expr) : Prop :=
  forall b B d lr k0 fuel kp a g env s kd,
    fuel <= FU -> kexpr SF B CD e = Some kd -> bound2 B env ->
    installed (snd (ec path d lr k0 e)) ->
    d + length (fst (ec path d lr k0 e)) <= c0 + length code + 2 ->
    code_at code kp (fst (ec path d lr k0 e)) -> kp + length (fst (ec path d lr k0 e)) < length code ->
    a_ip a = kp -> a_cb a = cb -> a_ops a = [] -> ClA b B env s g ->
    eres_ok b B env s d (kp + length (fst (ec path d lr k0 e))) a g kd (eval fuel env e s).

(* a call-free expression over data variables is evaluated as ExprSim.sim_pure says; so the other cases only meet contexts in
   which the expression is not of that kind: the checker looked at its parts *)
Lemma espec_nodata : forall e,
  (forall B, ok_dexpr B CD e = false -> forall b d lr k0 fuel kp a g env s kd,
    fuel <= FU -> kexpr SF B CD e = Some kd -> bound2 B env ->
    installed (snd (ec path d lr k0 e)) ->
    d + length (fst (ec path d lr k0 e)) <= c0 + length code + 2 ->
    code_at code kp (fst (ec path d lr k0 e)) -> kp + length (fst (ec path d lr k0 e)) < length code ->
    a_ip a = kp -> a_cb a = cb -> a_ops a = [] -> ClA b B env s g ->
    eres_ok b B env s d (kp + length (fst (ec path d lr k0 e))) a g kd (eval fuel env e s)) ->
  espec e.
Proof.
  intros e H b B d lr k0 fuel kp a g env s kd Hfu Hk Hb Hinst Hd Hc Hend Hip Hcb Hops HC.
  destruct (ok_dexpr B CD e) eqn:Ho; [|exact (H B Ho b d lr k0 fuel kp a g env s kd Hfu Hk Hb Hinst Hd Hc Hend Hip Hcb Hops HC)].
  rewrite kexpr_eq, Ho in Hk. injection Hk as <-. destruct (ok_dexpr_parts B e Ho) as (Hp & _ & Hu).
  rewrite (ec_pure path e Hp) in *. cbn [fst] in *.
  assert (H1 := lexpr_run (d := d) (envE := env) fuel Ho (fun x c _ Hl => lookup_app_some _ _ _ _ Hl)
                  (fun x Hx EB => let Hn := bound2_none B env x Hb (proj2 (proj2 (proj1 (Hu x Hx)))) EB in conj Hn Hn)
                  eq_refl ltac:(lia) Hc Hend Hip Hops Hcb HC).
  destruct (eval fuel env e s) as [v s1|s1|f s1|]; [|contradiction| |exact Logic.I].
  - destruct H1 as (-> & Hfo & g' & R & HC' & He). destruct (ext_cells _ _ _ _ _ He) as [extra Ec].
    apply (eres_val (b' := b) (a' := upd a (kp + length (pcode d e)) [inj v]) (g' := g') (w := inj v));
      [|reflexivity|reflexivity|exact HC'|split; [exact Hfo|reflexivity]].
    constructor; [exact R|exact (adv_app Ec)|exact (ext_tail _ _ _ _ _ He)|repeat split|reflexivity|].
    intros y Hy. split; [exact (ext_find _ _ _ _ _ He y Hy)|exact (ext_top _ _ _ _ _ He y Hy)].
  - destruct H1 as (-> & e0 & g' & Hf & Hr & Ho'). apply fail_post_intro. exists e0, g'.
    split; [exact Hf|]. split; [now apply err_rel_s_of|exact Ho'].
Qed.

(* an operand e of kind "data" never yields "no value": only a call does, and its kind would be KN *)
Lemma espec_then : forall {e}, espec e -> forall d fuel {b B d' lr k0 kp fin a g env s c f k r},
  ec path d' lr k0 e = (c, f) -> fuel <= FU -> kexpr SF B CD e = Some KD -> bound2 B env -> installed f ->
  d <= d' -> d' + length c <= c0 + length code + 2 -> code_at code kp c -> kp + length c < length code ->
  a_ip a = kp -> a_cb a = cb -> a_ops a = [] -> ClA b B env s g ->
  match eval fuel env e s with
  | EVal v s1 => forall a1 g1 b1, mid b d' s a g b1 s1 a1 g1 -> a_ip a1 = kp + length c -> a_ops a1 = [inj v] -> a_cb a1 = cb ->
                  first_order v -> ClA b1 B env s1 g1 -> eres_ok b1 B env s1 d fin a1 g1 k r
  | ENoVal _ => True
  | EFail fl s1 => r = EFail fl s1
  | EFuel => r = EFuel end ->
  eres_ok b B env s d fin a g k r.
Proof.
  intros e IH d fuel b B d' lr k0 kp fin a g env s c f k r Eec Hfu Hk Hb Hinst Hdd Hd Hc Hend Hip Hcb Hops HC Hr.
  pose proof (IH b B d' lr k0 fuel kp a g env s KD Hfu Hk Hb) as He. rewrite Eec in He. cbn [fst snd] in He.
  specialize (He Hinst Hd Hc Hend Hip Hcb Hops HC).
  destruct (eval fuel env e s) as [v s1|s1|fl s1|].
  - apply eres_val_inv in He. destruct He as (a1 & g1 & b1 & w & M1 & Hip1 & Hops1 & HC1 & [Hfo ->]).
    apply (eres_seq M1 Hdd).
    exact (Hr a1 g1 b1 M1 Hip1 Hops1 (mid_cb M1 Hcb) Hfo HC1).
  - destruct He as [He _]. discriminate He.
  - subst r. exact He.
  - subst r. exact Logic.I.
Qed.

Lemma eres_instr : forall {b B env s d fin a g i dI k r}, nth_error code (a_ip a) = Some i -> decode i = DOk dI -> ClA b B env s g ->
  fin = S (a_ip a) ->
  match r with
  | EVal v s' => s' = s /\ exists a1 w, exec_d dI a (trc name a g i) = SNext a1 (trc name a g i) /\ a_ops a1 = [w] /\ a_ip a1 = a_ip a /\
                                        act_same a a1 /\ a_ss a1 = a_ss a /\ vrel b k v w
  | EFail f s' => s' = s /\ exists e0, exec_d dI a (trc name a g i) = SFail e0 /\ err_rel_s f e0
  | _ => False end ->
  eres_ok b B env s d fin a g k r.
Proof.
  intros b B env s d fin a g i dI k r Hi Hd HC -> H. destruct r as [v s'|s'|f s'|]; [|contradiction| |contradiction].
  - destruct H as (-> & a1 & w & Hx & Hops & Hip & Ha & Hs & Hv).
    eapply (eres_val (mid_next Hi Hd Hx Ha Hs)); [|exact Hops|apply Cl_trc; exact HC|exact Hv].
    cbn [set_ip a_ip]. now rewrite Hip.
  - destruct H as (-> & e0 & Hx & Hr). exact (failed_step Hi Hd Hx Hr (cl_out HC)).
Qed.

Lemma capture_ok : forall a g ns, (forall n, In n ns -> lookup_var a g n <> None) -> exists m, capture a g ns = Some m.
Proof.
  intros a g. induction ns as [|n ns IH]; intros H; [exists []; reflexivity|]. cbn [capture].
  destruct (lookup_var a g n) as [c|] eqn:E; [|exfalso; exact (H n (or_introl eq_refl) E)].
  destruct (IH (fun m Hm => H m (or_intror Hm))) as [m Em]. rewrite Em. eexists. reflexivity.
Qed.

Lemma capctx_spec : forall B ns G, capctx B CD ns = Some G -> map fst G = ns /\ forall x k, In (x, k) G -> kvar B CD x = Some k.
Proof.
  intros B. induction ns as [|n ns IH]; intros G H; cbn [capctx] in H.
  - injection H as <-. split; [reflexivity|intros x k []].
  - destruct (kvar B CD n) as [k1|] eqn:E1; [|discriminate]. destruct (capctx B CD ns) as [G1|]; [|discriminate].
    injection H as <-. destruct (IH G1 eq_refl) as [A1 A2]. split; [cbn [map fst]; now rewrite A1|].
    intros x k [Hin|Hin]; [injection Hin as <- <-; exact E1|exact (A2 x k Hin)].
Qed.

Lemma kfn_sound : forall B ps body G pk r, kfn B CD ps body = Some (G, pk, r) ->
  kfn_ok G ps body pk r /\ forall x k, In (x, k) G -> kvar B CD x = Some k.
Proof.
  intros B ps body G pk r H. unfold kfn in H.
  destruct (capctx B CD (free_vars ps body)) as [G0|] eqn:EG; [|discriminate].
  set (pk0 := map (pkind body) ps) in *. set (B0 := rev (combine ps pk0)) in *.
  destruct (kblock (Some (pk0, KD)) false B0 G0 body) as [[B1 rets0]|] eqn:Eb0; [|discriminate].
  set (r0 := rkind body rets0) in *.
  assert (Hx : exists B' rets, kblock (Some (pk0, r0)) false B0 G0 body = Some (B', rets) /\
                 (if nodupb ps && forallb src_nameb ps && forallb (ret_ok r0) rets then Some (G0, pk0, r0) else None) = Some (G, pk, r)).
  { destruct (kind_eqb r0 KD) eqn:Er.
    - apply kind_eqb_eq in Er. rewrite Er in *. exists B1, rets0. split; [exact Eb0|exact H].
    - destruct (kblock (Some (pk0, r0)) false B0 G0 body) as [[B2 rets]|] eqn:Eb; [|discriminate]. exists B2, rets. split; [reflexivity|exact H]. }
  destruct Hx as (B' & rets & Eb & Hc).
  destruct (nodupb ps && forallb src_nameb ps && forallb (ret_ok r0) rets) eqn:Ec; [|discriminate].
  injection Hc as <- <- <-. rewrite !andb_true_iff in Ec. destruct Ec as [[Hn Hs] Hr].
  destruct (capctx_spec B _ _ EG) as [A1 A2]. split; [|exact A2].
  split; [reflexivity|]. split; [now apply nodupb_sound2|]. split; [exact Hs|]. split; [exact A1|].
  split; [unfold r0, rkind; destruct (last_ret body); [now right|now left]|].
  exists B', rets. split; [exact Eb|]. intros k Hk. rewrite forallb_forall in Hr. specialize (Hr k Hk). unfold ret_ok in Hr.
  apply orb_true_iff in Hr as [Hr|Hr]; [left; symmetry; now apply kind_eqb_eq|right].
  apply andb_true_iff in Hr as [H1 H2]. apply kind_eqb_eq in H1. apply kind_eqb_eq in H2. auto.
Qed.

Lemma espec_var : forall d fuel {x b B kp a g env s k},
  kvar B CD x = Some k -> bound2 B env -> nth_error code kp = Some (mkI OP_LOAD [x]) ->
  a_ip a = kp -> a_cb a = cb -> a_ops a = [] -> ClA b B env s g ->
  eres_ok b B env s d (kp + 1) a g k (eval fuel env (EVar x) s).
Proof.
  intros d fuel x b B kp a g env s k Hk Hb Hi Hip Hcb Hops HC. subst kp.
  destruct fuel as [|fuel]; [exact Logic.I|]. rewrite eval_EVar.
  destruct (var_cell HC Hb Hk) as (Hx & c & c' & v & w & E1 & E3 & Hbc & E4 & E5 & Hv).
  rewrite E1, E4. apply (eres_instr Hi (dec_load x) HC); [lia|]. split; [reflexivity|].
  exists (set_ops a [w]), w. rewrite (exec_load x a (trc name a g (mkI OP_LOAD [x])) c' w (E3 a Hcb) E5), Hops. repeat split. exact Hv.
Qed.

Lemma exec_make_function : forall loc ns a g m, capture a g ns = Some m ->
  exec_d (DMakeFunction loc ns) a g = SNext (set_ops a (a_ops a ++ [VFun loc (match ns with [] => None | _ => Some m end)])) g.
Proof. intros loc ns a g m H. unfold exec_d. destruct ns as [|n ns]; [reflexivity|]. now rewrite H. Qed.

Lemma espec_fn : forall ps body, espec (EFn ps body).
Proof.
  intros ps body. apply espec_nodata. intros B _ b d lr k0 fuel kp a g env s kd _ Hk Hb Hinst _ Hc _ Hip Hcb Hops HC. subst kp.
  destruct fuel as [|fuel]; [exact Logic.I|].
  change (eval (S fuel) env (EFn ps body) s) with (EVal (RClos ps body (locals env ++ captured env)) s).
  rewrite kexpr_eq in Hk. destruct (ok_dexpr B CD (EFn ps body)) eqn:Ho; [apply ok_dexpr_pure in Ho; discriminate|].
  destruct (kfn B CD ps body) as [[[G pk] r]|] eqn:Ef; [|discriminate]. injection Hk as <-.
  destruct (kfn_sound B ps body G pk r Ef) as [Hkf HG]. pose proof Hkf as (_ & _ & _ & EG & _).
  rewrite ec_EFn in Hc |- *. cbv zeta in *. cbn [fst length] in *.
  set (fb := snd (bc path (S d) lr None k0 body)) in *. set (loc := fn_name path (k0 + length fb)) in *.
  apply code_at_cons in Hc as [Hi _].
  set (caps := free_vars ps body) in *. set (i1 := mkI OP_MAKE_FUNCTION (loc :: caps)) in *. set (g1 := trc name a g i1).
  assert (Hcaps : forall n kx, In (n, kx) G -> exists c c', lookup_scopes n (locals env ++ captured env) = Some c /\
                    lookup_var a g1 n = Some c' /\ b c c' kx /\ uname0 n).
  { intros n kx Hin. destruct (var_cell (g := g1) (Cl_trc HC) Hb (HG n kx Hin)) as (Hun & c & c' & v & w & E1 & E3 & Hbc & _).
    exists c, c'. split; [exact E1|]. split; [exact (E3 a Hcb)|]. split; [exact Hbc|exact Hun]. }
  destruct (capture_ok a g1 caps) as [m Em].
  { intros n Hn. rewrite <- EG in Hn. apply in_map_iff in Hn as ([n' kx] & <- & Hin). destruct (Hcaps _ _ Hin) as (c & c' & _ & E & _). cbn [fst]. congruence. }
  set (cbv := match caps with [] => None | _ => Some m end).
  apply (eres_instr Hi (dec_make_function loc caps) HC); [lia|]. split; [reflexivity|].
  exists (set_ops a [VFun loc cbv]), (VFun loc cbv). fold g1. rewrite (exec_make_function loc caps a g1 m Em), Hops. repeat split.
  exists ps, body, (locals env ++ captured env), loc, cbv. split; [reflexivity|]. split; [reflexivity|].
  exists G, d, lr, k0. split; [exact Hkf|]. split; [reflexivity|]. split; [exact Hinst|].
  intros x kx Hin. destruct (Hcaps x kx Hin) as (c & c' & E1 & E2 & Hbc & Hun).
  assert (Hxc : In x caps) by (rewrite <- EG; apply in_map_iff; exists (x, kx); auto).
  split; [exact Hun|]. exists c, c'. split; [exact E1|]. split; [|exact Hbc].
  unfold cbv, cbget. destruct caps as [|n0 ns0] eqn:Ec; [destruct Hxc|]. rewrite <- Ec in *.
  rewrite (ClosureLemmas.capture_shares a g1 caps m Em x Hxc). exact E2.
Qed.

Definition ares_ok (b : cinj) (B : kctx) (env : fenv) (s : rstate) (j fin : nat) (a : act) (g : gstate) (ks : list kind)
           (acc : list rvalue) (r : (list rvalue * rstate) + eres) : Prop :=
  match r with
  | inl (vs, s') => exists vs' ws a' g' b', vs = rev acc ++ vs' /\ mid b j s a g b' s' a' g' /\ a_ip a' = fin /\ a_ops a' = [] /\
        ClA b' B env s' g' /\ vrels b' ks vs' ws /\ (forall i w, nth_error ws i = Some w -> rvk b' g' (j + i) w)
  | inr (EFail f s') => failed a g f s'
  | inr EFuel => True
  | inr _ => False
  end.

Lemma eargs_loads : forall {lr l j k ci cl fl}, eargs path lr j k l = (ci, cl, fl) -> cl = argloads j l.
Proof.
  intros lr. induction l as [|a l IH]; intros j k ci cl fl E; [injection E as _ <- _; reflexivity|]. rewrite eargs_cons in E.
  destruct (ec path j lr k a) as [ca fa]. destruct (eargs path lr (S j) (k + length fa) l) as [[ci' cl'] fl'] eqn:E'.
  injection E as _ <- _. cbn [argloads]. now rewrite (IH _ _ _ _ _ E').
Qed.
Lemma argloads_length : forall j l, length (argloads j l) = length l.
Proof. intros j l. revert j. induction l as [|a l IH]; intros j; cbn [argloads length]; [reflexivity|now rewrite IH]. Qed.
Lemma kargs_length : forall B l ks, kargs SF B CD l = Some ks -> length l = length ks.
Proof.
  intros B. induction l as [|e l IH]; intros ks H; cbn [kargs] in H; [injection H as <-; reflexivity|].
  destruct (kexpr SF B CD e); [|discriminate]. destruct (kargs SF B CD l) as [ks'|]; [|discriminate]. injection H as <-. cbn [length]. now rewrite (IH ks').
Qed.

Lemma args_sim : forall {l}, Forall espec l -> forall {b B j lr k0 fuel kp a g env s ks} acc {ci cl fl},
  eargs path lr j k0 l = (ci, cl, fl) -> fuel <= FU -> kargs SF B CD l = Some ks -> bound2 B env -> installed fl ->
  j + length ci <= c0 + length code + 2 -> code_at code kp ci -> kp + length ci < length code ->
  a_ip a = kp -> a_cb a = cb -> a_ops a = [] -> ClA b B env s g ->
  ares_ok b B env s j (kp + length ci) a g ks acc (evals_ fuel env l s acc).
Proof.
  induction l as [|e l IH]; intros HF b B j lr k0 fuel kp a g env s ks acc ci cl fl Eea Hfu Hk Hb Hinst Hj Hc Hend Hip Hcb Hops HC.
  - cbn [kargs] in Hk. injection Hk as <-. injection Eea as <- _ _. cbn [evals_ length ares_ok]. exists [], [], a, g, b.
    rewrite app_nil_r, Nat.add_0_r. split; [reflexivity|]. split; [apply mid_refl|]. split; [exact Hip|]. split; [exact Hops|].
    split; [exact HC|]. split; [exact Logic.I|]. intros i w Hi. destruct i; discriminate.
  - pose proof (Forall_inv HF) as He0. pose proof (Forall_inv_tail HF) as Hl0.
    cbn [kargs] in Hk. destruct (kexpr SF B CD e) as [kd|] eqn:Ee; [|discriminate].
    destruct (kargs SF B CD l) as [ks'|] eqn:El; [|discriminate]. injection Hk as <-.
    rewrite eargs_cons in Eea. destruct (ec path j lr k0 e) as [ca fa] eqn:Eec.
    destruct (eargs path lr (S j) (k0 + length fa) l) as [[ci' cl'] fl'] eqn:Eea'. injection Eea as <- _ <-.
    rewrite !app_length in *. cbn [length] in *.
    apply (installed_app prog) in Hinst as [Hi1 Hi2].
    apply code_at_app in Hc as [Hce Hc]. apply code_at_cons in Hc as [Hi Hcl].
    assert (Hsj : small j) by (eapply small_le; [|exact Hsmall]; lia).
    pose proof (He0 b B j lr k0 fuel kp a g env s kd Hfu Ee Hb) as He. rewrite Eec in He. cbn [fst snd] in He.
    specialize (He Hi1 ltac:(lia) Hce ltac:(lia) Hip Hcb Hops HC).
    cbn [evals_].
    destruct (eval fuel env e s) as [v s1|s1|f s1|]; cbn [ares_ok]; [|exact Logic.I|exact He|exact Logic.I].
    apply eres_val_inv in He. destruct He as (a1 & g1 & b1 & w & M1 & Hip1 & Hops1 & HC1 & Hv1).
    destruct (park2 Hi Hip1 Hops1 HC1 Hsj) as (g2 & M2 & HC2 & Hrv2).
    pose proof (mid_trans M1 M2) as M12.
    pose proof (IH Hl0 _ _ _ _ _ _ _ (upd a1 (S (kp + length ca)) []) _ _ _ _ (v :: acc) _ _ _ Eea' Hfu El Hb Hi2 ltac:(lia) Hcl ltac:(lia) eq_refl (mid_cb M12 Hcb) eq_refl HC2) as H2.
    destruct (evals_ fuel env l s1 (v :: acc)) as [[vs s2]|r]; cbn [ares_ok] in H2 |- *.
    + destruct H2 as (vs' & ws & a3 & g3 & b2 & -> & M3 & Hip3 & Hops3 & HC3 & Hvs & Hreg).
      exists (v :: vs'), (w :: ws), a3, g3, b2. split; [cbn [rev]; now rewrite <- app_assoc|].
      split; [eapply mid_trans; [exact M12|]; eapply mid_mono; [|exact M3]; lia|].
      split; [rewrite Hip3; lia|]. split; [exact Hops3|]. split; [exact HC3|]. split.
      * cbn [vrels]. split; [|exact Hvs]. eapply vrel_mono; [exact (mid_le M3)|exact Hv1].
      * intros i w0 Hi0. destruct i as [|i]; cbn [nth_error] in Hi0.
        -- injection Hi0 as <-. rewrite Nat.add_0_r. eapply rvk_keep; [exact M3|exact Hrv2|lia|exact Hsj].
        -- replace (j + S i) with (S j + i) by lia. now apply Hreg.
    + destruct r as [? ?|?|f s2|]; try exact H2. exact (failed_run (mid_run M12) H2).
Qed.

Lemma loads_sim : forall (l : list expr) ws d0 s {j pos b a g},
  length l = length ws -> (forall i w, nth_error ws i = Some w -> rvk b g (j + i) w) ->
  code_at code pos (argloads j l) -> a_ip a = pos ->
  exists g', mid b d0 s a g b s (upd a (pos + length l) (a_ops a ++ ws)) g' /\ frames g' = frames g /\ cells g' = cells g /\
             out g' = out g.
Proof.
  induction l as [|e l IH]; intros ws d0 s j pos b a g Hlen Hrv Hc Hip; subst pos.
  - destruct ws; [|discriminate]. exists g. rewrite Nat.add_0_r, app_nil_r, act_eta. split; [apply mid_refl|auto].
  - destruct ws as [|w ws]; [discriminate|]. cbn [length] in Hlen. cbn [argloads] in Hc. apply code_at_cons in Hc as [Hi Hc].
    pose proof (Hrv 0 w eq_refl) as Hr0. rewrite Nat.add_0_r in Hr0.
    pose proof (unpark2 (d0 := d0) (s := s) Hi eq_refl Hr0) as M1.
    set (a1 := upd a (S (a_ip a)) (a_ops a ++ [w])) in *. set (g1 := trc name a g (mkI OP_LOAD_FAST [reg j])) in *.
    destruct (IH ws d0 s (S j) (S (a_ip a)) b a1 g1 ltac:(lia)) as (g2 & M2 & Hf2 & Hc2 & Ho2).
    + intros i w0 Hi0. replace (S j + i) with (j + S i) by lia. exact (Hrv (S i) w0 Hi0).
    + exact Hc.
    + reflexivity.
    + exists g2. cbn [length]. replace (a_ip a + S (length l)) with (S (a_ip a) + length l) by lia.
      replace (a_ops a ++ w :: ws) with (a_ops a1 ++ ws) by (cbn [a1 upd set_ops set_ip a_ops]; now rewrite <- app_assoc).
      split; [eapply mid_trans; [exact M1|exact M2]|]. auto.
Qed.

Lemma espec_bin : forall o ea eb, espec ea -> espec eb -> espec (EBin o ea eb).
Proof.
  intros o ea eb IHa IHb. apply espec_nodata. intros B Ho b d lr k0 fuel kp a g env s kd Hfu Hk Hb Hinst Hd Hc Hend Hip Hcb Hops HC.
  rewrite kexpr_eq, Ho in Hk.
  destruct (kexpr SF B CD ea) as [[|? ?|]|] eqn:Ea; try discriminate.
  destruct (kexpr SF B CD eb) as [[|? ?|]|] eqn:Eb; try discriminate. injection Hk as <-.
  destruct fuel as [|fuel]; [exact Logic.I|]. rewrite eval_EBin.
  rewrite ec_EBin in Hinst, Hd, Hc, Hend |- *. destruct (ec path (S d) lr k0 ea) as [ca fa] eqn:Eca.
  destruct (ec path (S d) lr (k0 + length fa) eb) as [cb2 fb] eqn:Ecb. cbn [fst snd] in Hinst, Hd, Hc, Hend |- *.
  rewrite !app_length in Hd, Hend |- *. cbn [length] in Hd, Hend |- *.
  apply (installed_app prog) in Hinst as [Hin1 Hin2].
  apply code_at_app in Hc as [Hca Hc]. apply code_at_cons in Hc as [Hi1 Hc].
  apply code_at_app in Hc as [Hcb2 Hc]. apply code_at_cons in Hc as [Hi2 Hc]. apply code_at_cons in Hc as [Hi3 Hc].
  apply code_at_cons in Hc as [Hi4 _].
  set (la := length ca) in *. set (lb := length cb2) in *.
  assert (Hsd : small d) by (eapply small_le; [|exact Hsmall]; lia).
  apply (espec_then IHa d fuel Eca ltac:(lia) Ea Hb Hin1 ltac:(lia) ltac:(fold la; lia) Hca ltac:(fold la; lia) Hip Hcb Hops HC).
  destruct (eval fuel env ea s) as [va s1|s1|f s1|]; [|exact Logic.I|reflexivity|reflexivity].
  intros a1 g1 b1 _ Hip1 Hops1 Hcb1 Hfoa HC1.
  destruct (park2 Hi1 Hip1 Hops1 HC1 Hsd) as (g2 & M2 & HC2 & Hrv2).
  eapply (eres_seq M2); [lia|].
  apply (espec_then IHb d fuel (a := upd a1 (S (kp + la)) []) Ecb ltac:(lia) Eb Hb Hin2
           ltac:(lia) ltac:(fold lb; lia) ltac:(atp Hcb2) ltac:(fold lb; lia) eq_refl Hcb1 eq_refl HC2).
  destruct (eval fuel env eb s1) as [vb s2|s2|f s2|]; [|exact Logic.I|reflexivity|reflexivity].
  intros a3 g3 b2 M3 Hip3 Hops3 Hcb3 Hfob HC3.
  pose proof (unpark2 (d0 := d) (s := s2) (kk := S (kp + la) + lb) ltac:(atp Hi2) Hip3 (rvk_keep M3 Hrv2 ltac:(lia) Hsd)) as M4.
  rewrite Hops3 in M4. cbn [app] in M4. eapply (eres_seq M4); [lia|].
  set (a4 := upd a3 (S (S (kp + la) + lb)) [inj vb; inj va]). set (g4 := trc name a3 g3 (mkI OP_LOAD_FAST [reg d])).
  assert (Hi3' : nth_error code (a_ip a4) = Some (mkI OP_FAST_REV2 [])) by (cbn [a4 upd set_ip a_ip]; atp Hi3).
  eapply (eres_seq (mid_next (d := d) Hi3' dec_rev2 (exec_rev2 a4 _ (inj vb) (inj va) eq_refl) ltac:(repeat split) eq_refl)); [lia|].
  set (a5 := set_ip (set_ops a4 [inj va; inj vb]) (S (a_ip (set_ops a4 [inj va; inj vb])))). set (g5 := trc name a4 g4 (mkI OP_FAST_REV2 [])).
  pose proof (binop_run prog name code o va vb s2 a5 g5 (a_ip a5) ltac:(cbn [a5 a4 upd set_ip set_ops a_ip]; atp Hi4) eq_refl eq_refl) as Hop.
  destruct (binop_sem o va vb s2) as [v s3|s3|f s3|]; [|contradiction| |contradiction].
  - destruct Hop as (-> & Hfov & Rop).
    apply (eres_val (w := inj v) (mid_same Rop eq_refl eq_refl ltac:(repeat split) eq_refl));
      [cbn [a5 a4 upd set_ip set_ops a_ip]; lia|reflexivity|do 3 apply Cl_trc; exact HC3|split; [exact Hfov|reflexivity]].
  - destruct Hop as (-> & e0 & Hf & Hrel). apply fail_post_intro. exists e0, (trc name a5 g5 (op_instr o)).
    split; [exact Hf|]. split; [now apply err_rel_s_of|exact (cl_out HC3)].
Qed.

Lemma call_step : forall {b B env s d fin a g i dI loc cbf ws pk r ps body cenv vs fuel},
  nth_error code (a_ip a) = Some i -> decode i = DOk dI ->
  exec_d dI a (trc name a g i) = SCall loc cbf ws (set_ops a []) (trc name a g i) ->
  fuel < FU -> ClA b B env s g -> clos_ok b pk r ps body cenv loc cbf -> vrels b pk vs ws -> fin = S (a_ip a) ->
  eres_ok b B env s d fin a g r (call_clos_ fuel (RClos ps body cenv) vs s).
Proof.
  intros b B env s d fin a g i dI loc cbf ws pk r ps body cenv vs fuel Hi Hd Hx Hfu HC Hclos Hvs ->.
  set (gt := trc name a g i) in *. assert (HCt : ClA b B env s gt) by (apply Cl_trc; exact HC).
  pose proof (Hcall fuel Hfu b s gt pk r ps body cenv loc cbf vs ws (cl_heap HCt) (cl_out HCt) (cl_nd HCt) Hclos Hvs) as Hcal.
  assert (Hmid : forall rv g6 b3 s3 fuel', run_fn fuel' prog loc ws cbf gt = RDone rv g6 -> bext b b3 s gt -> frames g6 = frames gt ->
            keep b gt g6 -> lens s s3 gt g6 -> mid b d s a g b3 s3 (next_act (set_ops a []) rv) g6).
  { intros rv g6 b3 s3 fuel' Hrun He Hf Hk Hl.
    constructor; [eapply xr_call; [exact Hi|exact Hd|exact Hx|exact Hrun|apply xr_refl]|exact (conj He (conj Hk Hl))|now rewrite Hf|
                  destruct rv; repeat split|destruct rv; reflexivity|apply fkeep_same; exact Hf]. }
  destruct (call_clos_ fuel (RClos ps body cenv) vs s) as [v s3|s3|flr s3|]; [| | |exact Logic.I].
  - destruct Hcal as (fuel' & g6 & b3 & w & Hrun & He3 & Hh3 & Hv3 & Hf6 & Ho6 & Hk6 & Hl6).
    eapply (eres_val (Hmid _ _ _ _ _ Hrun He3 Hf6 Hk6 Hl6)); [reflexivity|reflexivity| |exact Hv3].
    exact (Cl_after path prog P cb CD base name SF b b3 B env s gt s3 g6 HCt (proj1 He3) Hh3 Hf6 Ho6).
  - destruct Hcal as (-> & fuel' & g6 & b3 & Hrun & He3 & Hh3 & Hf6 & Ho6 & Hk6 & Hl6).
    apply (eres_noval (Hmid _ _ _ _ _ Hrun He3 Hf6 Hk6 Hl6)); [reflexivity|reflexivity|].
    exact (Cl_after path prog P cb CD base name SF b b3 B env s gt s3 g6 HCt (proj1 He3) Hh3 Hf6 Ho6).
  - eapply fail_post_map; [|exact Hcal]. intros (fuel' & e0 & g6 & Hrun & Hr & Ho6). exists e0, g6. split; [|split; assumption].
    exists a, g. split; [apply xrun_refl|]. right. exists i, dI, loc, cbf, ws, (set_ops a []), gt, fuel'. auto.
Qed.

Lemma espec_call : forall g0 l, Forall espec l -> espec (ECall (EVar g0) l).
Proof.
  intros g0 l IHl. apply espec_nodata. intros B Ho b d lr k0 fuel kp a g env s kd Hfu Hk Hb Hinst Hd Hc Hend Hip Hcb Hops HC.
  rewrite kexpr_eq, Ho in Hk. destruct (src_nameb g0) eqn:Hsn; [|discriminate].
  destruct (kvar B CD g0) as [[|pk r|]|] eqn:Eg; try discriminate.
  destruct (kargs SF B CD l) as [ks|] eqn:El; [|discriminate].
  destruct (kinds_eqb ks pk) eqn:Eks; [|discriminate]. apply kinds_eqb_eq in Eks. subst ks. injection Hk as <-.
  destruct fuel as [|fuel]; [exact Logic.I|]. rewrite eval_ECall.
  rewrite ec_ECall in Hinst, Hd, Hc, Hend |- *. destruct (eargs path lr (S (S d)) k0 l) as [[ci cl] fl] eqn:Eea. cbn [fst snd] in Hinst, Hd, Hc, Hend |- *.
  pose proof (eargs_loads Eea) as ->.
  rewrite !app_length, argloads_length in Hd, Hend |- *. cbn [length] in Hd, Hend |- *. set (la := length ci) in *.
  apply code_at_cons in Hc as [Hi1 Hc]. apply code_at_cons in Hc as [Hi2 Hc].
  apply code_at_app in Hc as [Hca Hc]. apply code_at_app in Hc as [Hcl Hc]. rewrite argloads_length in Hc. fold la in Hcl, Hc.
  apply code_at_cons in Hc as [Hi3 Hc]. apply code_at_cons in Hc as [Hi4 _].
  assert (Hsd1 : small (S d)) by (eapply small_le; [|exact Hsmall]; lia).
  pose proof (espec_var (S d) fuel Eg Hb Hi1 Hip Hcb Hops HC) as Hf.
  destruct (eval fuel env (EVar g0) s) as [vf s1|s1|f s1|]; [|exact Logic.I|exact Hf|exact Logic.I].
  apply eres_val_inv in Hf. destruct Hf as (a1 & g1 & b1 & wf & M1 & Hip1 & Hops1 & HC1 & (ps & body & cenv & loc & cbf & -> & -> & Hclos)).
  eapply (eres_seq M1); [lia|].
  destruct (park2 (k1 := kp + 1) ltac:(atp Hi2) Hip1 Hops1 HC1 Hsd1) as (g2 & M2 & HC2 & Hrf2).
  eapply (eres_seq M2); [lia|].
  pose proof (args_sim IHl (fuel := fuel) (kp := S (kp + 1)) (a := upd a1 (S (kp + 1)) []) [] Eea ltac:(lia) El Hb Hinst ltac:(fold la; lia) ltac:(atp Hca) ltac:(fold la; lia) eq_refl (mid_cb M1 Hcb) eq_refl HC2) as Hargs.
  fold la in Hargs.
  destruct (evals_ fuel env l s1 []) as [[vs s2]|r0]; cbn [ares_ok] in Hargs.
  2:{ destruct r0 as [? ?|?|fl0 s2|]; try contradiction; [exact Hargs|exact Logic.I]. }
  destruct Hargs as (vs' & ws & a3 & g3 & b2 & Evs & M3 & Hip3 & Hops3 & HC3 & Hvs & Hreg). cbn [rev app] in Evs. subst vs'.
  eapply (eres_seq M3); [lia|].
  destruct (vrels_length _ _ _ _ Hvs) as [Hlv Hlw]. pose proof (kargs_length B l pk El) as Hlk.
  destruct (loads_sim l ws (S (S d)) s2 (pos := S (kp + 1) + la) ltac:(congruence) Hreg ltac:(atp Hcl) Hip3) as (g4 & M4 & Hf4 & Hc4 & Ho4).
  rewrite Hops3 in M4. cbn [app] in M4. eapply (eres_seq M4); [lia|].
  set (a4 := upd a3 (S (kp + 1) + la + length l) ws) in *.
  assert (Hrf4 : rvk b2 g4 (S d) (VFun loc cbf)).
  { eapply rvk_keep; [exact M4|eapply rvk_keep; [exact M3|exact Hrf2|lia|exact Hsd1]|lia|exact Hsd1]. }
  pose proof (unpark2 (d0 := d) (s := s2) (a := a4) (kk := S (kp + 1) + la + length l) ltac:(atp Hi3) eq_refl Hrf4) as M5.
  eapply (eres_seq M5); [lia|].
  set (a5 := upd a4 (S (S (kp + 1) + la + length l)) (a_ops a4 ++ [VFun loc cbf])). set (g5 := trc name a4 g4 (mkI OP_LOAD_FAST [reg (S d)])).
  assert (HC5 : ClA b2 B env s2 g5) by (apply Cl_trc; eapply Cl_same; [exact HC3|exact Hc4|exact Hf4|exact Ho4]).
  eapply (call_step (a := a5) (i := mkI OP_CALL []) (fuel := fuel) ltac:(cbn [a5 upd set_ip a_ip]; atp Hi4) dec_call
           (exec_call a5 _ ws loc cbf eq_refl) ltac:(lia) HC5); [|exact Hvs|cbn [a5 upd set_ip a_ip]; lia].
  eapply (clos_ok_mono path prog); [|exact Hclos]. exact (mid_le M3).
Qed.

Lemma logic_not_bool : forall (p : bool) v bv, (forall b0, v <> VBool b0) ->
  bin_op_sem (if p then op_or else op_and) v (VBool bv) = OE (E_unsupported OP_BIN_OP).
Proof. intros [|] v bv H; destruct v; try reflexivity; destruct (H _ eq_refl). Qed.

(* and / or share everything but the constant: store_skip #d jumps over the right operand when the left one decides *)
Lemma espec_logic : forall (p : bool) ea eb, espec ea -> espec eb -> espec (if p then EOr ea eb else EAnd ea eb).
Proof.
  intros p ea eb IHa IHb. set (e := if p then EOr ea eb else EAnd ea eb).
  apply espec_nodata. intros B Ho b d lr k0 fuel kp a g env s kd Hfu Hk Hb Hinst Hd Hc Hend Hip Hcb Hops HC.
  assert (Hkk : kexpr SF B CD e = match kexpr SF B CD ea, kexpr SF B CD eb with Some KD, Some KD => Some KD | _, _ => None end)
    by (rewrite kexpr_eq, Ho; unfold e; destruct p; reflexivity).
  rewrite Hkk in Hk. clear Hkk Ho.
  destruct (kexpr SF B CD ea) as [[|? ?|]|] eqn:Ea; try discriminate.
  destruct (kexpr SF B CD eb) as [[|? ?|]|] eqn:Eb; try discriminate. injection Hk as <-.
  destruct fuel as [|fuel]; [exact Logic.I|].
  assert (Hcode : ec path d lr k0 e =
     let '(ca, fa) := ec path (S d) lr k0 ea in
     let '(cb2, fb) := ec path (S d) lr (k0 + length fa) eb in
     (ca ++ [mkI OP_STORE_SKIP [reg d; if p then s_one else s_zero; sN (length cb2 + 3)]] ++ cb2
         ++ [mkI OP_LOAD_FAST [reg d]; mkI OP_BIN_OP [if p then op_or else op_and]], fa ++ fb))
    by (unfold e; destruct p; [apply ec_EOr|apply ec_EAnd]).
  assert (Eev : eval (S fuel) env e s =
                match eval fuel env ea s with
                | EVal (RBool bv) s1 =>
                  if (if p then bv else negb bv) then EVal (RBool bv) s1
                  else match eval fuel env eb s1 with
                       | EVal (RBool vb) s2 => EVal (RBool vb) s2
                       | EVal _ s2 | ENoVal s2 => EFail (FType 6) s2 | r => r end
                | EVal _ s1 | ENoVal s1 => EFail (FType 6) s1 | r => r end).
  { unfold e. destruct p; [rewrite eval_EOr|rewrite eval_EAnd]; destruct (eval fuel env ea s) as [[?|[|]|?| |? ? ?] s1|s1|f s1|]; reflexivity. }
  rewrite Eev. clear Eev. rewrite Hcode in Hinst, Hd, Hc, Hend |- *. clear Hcode. clearbody e. clear e.
  destruct (ec path (S d) lr k0 ea) as [ca fa] eqn:Eca.
  destruct (ec path (S d) lr (k0 + length fa) eb) as [cb2 fb] eqn:Ecb. cbn [fst snd] in Hinst, Hd, Hc, Hend |- *.
  rewrite !app_length in Hd, Hend |- *. cbn [length] in Hd, Hend |- *.
  apply (installed_app prog) in Hinst as [Hin1 Hin2].
  apply code_at_app in Hc as [Hca Hc]. apply code_at_cons in Hc as [Hi1 Hc].
  apply code_at_app in Hc as [Hcb2 Hc]. apply code_at_cons in Hc as [Hi2 Hc]. apply code_at_cons in Hc as [Hi3 _].
  set (la := length ca) in *. set (lb := length cb2) in *.
  assert (Hsd : small d) by (eapply small_le; [|exact Hsmall]; lia).
  assert (Hsk : small (lb + 3)) by (eapply small_le; [|exact Hsmall]; lia).
  apply (espec_then IHa d fuel Eca ltac:(lia) Ea Hb Hin1 ltac:(lia) ltac:(fold la; lia) Hca ltac:(fold la; lia) Hip Hcb Hops HC).
  destruct (eval fuel env ea s) as [va s1|s1|f s1|]; [|exact Logic.I|reflexivity|reflexivity].
  intros a1 g1 b1 _ Hip1 Hops1 Hcb1 Hfoa HC1.
  set (i1 := mkI OP_STORE_SKIP [reg d; if p then s_one else s_zero; sN (lb + 3)]) in *.
  assert (Hi1' : nth_error code (a_ip a1) = Some i1) by (rewrite Hip1; exact Hi1).
  pose proof (dec_store_skip (reg d) p (lb + 3) Hsk) as Hd1.
  pose proof (exec_store_skip (reg d) p (Z.of_nat (lb + 3)) a1 (trc name a1 g1 i1) (inj va) Hops1) as He1.
  destruct va as [z|bv|t| |p0 bd ev]; [| | | |destruct Hfoa];
    try exact (failed_step Hi1' Hd1 He1 (err_s_not_bool 6) (cl_out HC1)).
  cbn [inj] in He1, Hops1. destruct (if p then bv else negb bv) eqn:Epb.
  { apply (eres_val (w := VBool bv) (mid_goto (t := a_ip a1 + (lb + 3)) Hi1' Hd1 He1 ltac:(apply goto_fwd; lia) (act_same_refl a1) eq_refl));
      [cbn [set_ip a_ip]; lia|exact Hops1|apply Cl_trc; exact HC1|split; [exact Logic.I|reflexivity]]. }
  destruct (park_gen Hi1' Hd1 Hsd (fun g' Hb => eq_trans He1 ltac:(rewrite Hb; reflexivity)) HC1) as (g2 & M2 & HC2 & Hrv2). rewrite Hip1 in M2.
  eapply (eres_seq M2); [lia|].
  apply (espec_then IHb d fuel (a := upd a1 (S (kp + la)) []) Ecb ltac:(lia) Eb Hb Hin2
           ltac:(lia) ltac:(fold lb; lia) ltac:(atp Hcb2) ltac:(fold lb; lia) eq_refl Hcb1 eq_refl HC2).
  destruct (eval fuel env eb s1) as [vb s2|s2|f s2|]; [|exact Logic.I|reflexivity|reflexivity].
  intros a3 g3 b2 M3 Hip3 Hops3 Hcb3 Hfob HC3.
  pose proof (unpark2 (d0 := d) (s := s2) (kk := S (kp + la) + lb) ltac:(atp Hi2) Hip3 (rvk_keep M3 Hrv2 ltac:(lia) Hsd)) as M4.
  rewrite Hops3 in M4. cbn [app] in M4. eapply (eres_seq M4); [lia|].
  set (a4 := upd a3 (S (S (kp + la) + lb)) [inj vb; VBool bv]). set (g4 := trc name a3 g3 (mkI OP_LOAD_FAST [reg d])).
  set (i3 := mkI OP_BIN_OP [if p then op_or else op_and]) in *.
  apply (eres_instr (a := a4) (g := g4) (i := i3) ltac:(cbn [a4 upd set_ip a_ip]; atp Hi3) (dec_bin_op _) ltac:(apply Cl_trc; exact HC3));
    [cbn [a4 upd set_ip a_ip]; lia|].
  rewrite (exec_bin_op (if p then op_or else op_and) a4 (trc name a4 g4 i3) (inj vb) (VBool bv) eq_refl).
  destruct vb as [z|b2v|t| |p0 bd ev]; [| | | |destruct Hfob];
    try (rewrite logic_not_bool by discriminate; split; [reflexivity|]; exists (E_unsupported OP_BIN_OP); split; [reflexivity|left; left; reflexivity]).
  replace (bin_op_sem (if p then op_or else op_and) (inj (RBool b2v)) (VBool bv)) with (OV (VBool b2v))
    by (destruct p, bv, b2v; try discriminate Epb; reflexivity).
  split; [reflexivity|]. exists (set_ops a4 [VBool b2v]), (VBool b2v). repeat split.
Qed.

Definition after (r1 : eres) (sem : rvalue -> rstate -> eres) (r : eres) : Prop :=
  match r1 with EVal v s1 => r = sem v s1 | ENoVal _ => True | EFail f s1 => r = EFail f s1 | EFuel => r = EFuel end.
Definition unop_ok (dI : dinstr) (sem : rvalue -> rstate -> eres) : Prop :=
  forall v s a g, first_order v -> a_ops a = [inj v] ->
  match sem v s with
  | EVal v' s' => s' = s /\ first_order v' /\ exists a1, exec_d dI a g = SNext a1 g /\ a_ops a1 = [inj v'] /\ a_ip a1 = a_ip a /\
                                                         act_same a a1 /\ a_ss a1 = a_ss a
  | EFail f s' => s' = s /\ exists e0, exec_d dI a g = SFail e0 /\ err_rel_s f e0
  | _ => False end.

Lemma espec_unop : forall e ea i1 dI sem, espec ea ->
  (forall d lr k, ec path d lr k e = let '(ca, fa) := ec path (S d) lr k ea in (ca ++ [i1], fa)) ->
  (forall B, kexpr SF B CD e = if ok_dexpr B CD e then Some KD else match kexpr SF B CD ea with Some KD => Some KD | _ => None end) ->
  (forall fuel env s, after (eval fuel env ea s) sem (eval (S fuel) env e s)) ->
  decode i1 = DOk dI -> unop_ok dI sem -> espec e.
Proof.
  intros e ea i1 dI sem IHa Hec Hke Hev Hdec Hop. apply espec_nodata.
  intros B Ho b d lr k0 fuel kp a g env s kd Hfu Hk Hb Hinst Hd Hc Hend Hip Hcb Hops HC.
  rewrite Hke, Ho in Hk. destruct (kexpr SF B CD ea) as [[|? ?|]|] eqn:Ea; try discriminate. injection Hk as <-.
  destruct fuel as [|fuel]; [exact Logic.I|]. specialize (Hev fuel env s). unfold after in Hev.
  rewrite Hec in Hinst, Hd, Hc, Hend |- *. destruct (ec path (S d) lr k0 ea) as [ca fa] eqn:Eca. cbn [fst snd] in Hinst, Hd, Hc, Hend |- *.
  rewrite app_length in Hd, Hend |- *. cbn [length] in Hd, Hend |- *. apply code_at_app in Hc as [Hca Hc]. apply code_at_cons in Hc as [Hi1 _].
  apply (espec_then IHa d fuel Eca ltac:(lia) Ea Hb Hinst ltac:(lia) ltac:(lia) Hca ltac:(lia) Hip Hcb Hops HC).
  destruct (eval fuel env ea s) as [va s1|s1|f s1|]; [|exact Logic.I|exact Hev|exact Hev].
  intros a1 g1 b1 _ Hip1 Hops1 _ Hfoa HC1. rewrite Hev.
  apply (eres_instr (i := i1) ltac:(rewrite Hip1; exact Hi1) Hdec HC1); [lia|].
  pose proof (Hop va s1 a1 (trc name a1 g1 i1) Hfoa Hops1) as H. destruct (sem va s1) as [v' s'|s'|f s'|]; try contradiction; [|exact H].
  destruct H as (-> & Hfo & a2 & Hx & Ho2 & Hi2 & Ha2 & Hs2). split; [reflexivity|]. exists a2, (inj v').
  repeat (split; [assumption|]). reflexivity.
Qed.

Lemma espec_not : forall ea, espec ea -> espec (ENot ea).
Proof.
  intros ea IHa.
  apply (espec_unop (ENot ea) ea (mkI OP_NOT []) DNot (fun v s => match v with RBool bv => EVal (RBool (negb bv)) s | _ => EFail (FType 7) s end) IHa
           (fun d lr k => ec_ENot path d lr k ea) (fun B => kexpr_eq SF B CD (ENot ea))); [|reflexivity|].
  - intros fuel env s. rewrite eval_ENot. unfold after. destruct (eval fuel env ea s) as [[?|?|?| |? ? ?] s1|s1|f s1|]; reflexivity.
  - intros v s a g Hfo Hops. rewrite (exec_not a g (inj v) Hops).
    destruct v as [z|bv|t| |p0 bd ev]; [| | | |destruct Hfo]; cbn [inj];
      try (split; [reflexivity|]; exists E_not_bool; split; [reflexivity|apply err_s_not_bool]).
    split; [reflexivity|]. split; [exact Logic.I|]. exists (set_ops a [VBool (negb bv)]). repeat split.
Qed.

Lemma espec_neg : forall ea, espec ea -> espec (ENeg ea).
Proof.
  intros ea IHa.
  apply (espec_unop (ENeg ea) ea (mkI OP_NEG []) DNeg (fun v s => match v with RInt z => arith_res (- z) s | _ => EFail (FType 7) s end) IHa
           (fun d lr k => ec_ENeg path d lr k ea) (fun B => kexpr_eq SF B CD (ENeg ea))); [|reflexivity|].
  - intros fuel env s. rewrite eval_ENeg. unfold after. destruct (eval fuel env ea s) as [[?|?|?| |? ? ?] s1|s1|f s1|]; reflexivity.
  - intros v s a g Hfo Hops. rewrite (exec_neg a g (inj v) Hops).
    destruct v as [z|bv|t| |p0 bd ev]; [| | | |destruct Hfo]; cbn [inj];
      try (split; [reflexivity|]; exists E_invalid_op; split; [reflexivity|apply err_s_invalid_op]).
    unfold arith_res. destruct (i32_ok (- z)).
    + split; [reflexivity|]. split; [exact Logic.I|]. exists (set_ops a [VInt (- z)]). repeat split.
    + split; [reflexivity|]. exists (E_overflow OP_NEG). split; [reflexivity|right; reflexivity].
Qed.

Lemma espec_get : forall ea sp, espec ea -> espec (EGet ea sp).
Proof.
  intros ea sp IHa.
  apply (espec_unop (EGet ea sp) ea (mkI OP_UNWRAP [sp]) (DUnwrap sp) (fun v s => match v with RNil => EFail (FUnwrapNil sp) s | _ => EVal v s end) IHa
           (fun d lr k => ec_EGet path d lr k ea sp) (fun B => kexpr_eq SF B CD (EGet ea sp))); [|reflexivity|].
  - intros fuel env s. rewrite eval_EGet. unfold after. destruct (eval fuel env ea s) as [[?|?|?| |? ? ?] s1|s1|f s1|]; reflexivity.
  - intros v s a g Hfo Hops. rewrite (exec_unwrap sp a g (inj v) Hops).
    destruct v as [z|bv|t| |p0 bd ev]; [| | | |destruct Hfo]; cbn [inj];
      try (split; [reflexivity|]; split; [exact Logic.I|]; exists a; repeat split; exact Hops).
    split; [reflexivity|]. exists (E_unwrap_nil sp). split; reflexivity.
Qed.

Lemma espec_nilor : forall ea eb, espec ea -> espec eb -> espec (ENilOr ea eb).
Proof.
  intros ea eb IHa IHb. apply espec_nodata. intros B Ho b d lr k0 fuel kp a g env s kd Hfu Hk Hb Hinst Hd Hc Hend Hip Hcb Hops HC.
  rewrite kexpr_eq, Ho in Hk.
  destruct (kexpr SF B CD ea) as [[|? ?|]|] eqn:Ea; try discriminate.
  destruct (kexpr SF B CD eb) as [[|? ?|]|] eqn:Eb; try discriminate. injection Hk as <-.
  destruct fuel as [|fuel]; [exact Logic.I|]. rewrite eval_ENilOr.
  rewrite ec_ENilOr in Hinst, Hd, Hc, Hend |- *. destruct (ec path (S d) lr k0 ea) as [ca fa] eqn:Eca.
  destruct (ec path (S d) lr (k0 + length fa) eb) as [cb2 fb] eqn:Ecb. cbn [fst snd] in Hinst, Hd, Hc, Hend |- *.
  rewrite !app_length in Hd, Hend |- *. cbn [length] in Hd, Hend |- *.
  apply (installed_app prog) in Hinst as [Hin1 Hin2].
  apply code_at_app in Hc as [Hca Hc]. apply code_at_cons in Hc as [Hi1 Hcb2].
  set (la := length ca) in *. set (lb := length cb2) in *.
  assert (Hsk : small (lb + 1)) by (eapply small_le; [|exact Hsmall]; lia).
  apply (espec_then IHa d fuel Eca ltac:(lia) Ea Hb Hin1 ltac:(lia) ltac:(fold la; lia) Hca ltac:(fold la; lia) Hip Hcb Hops HC).
  destruct (eval fuel env ea s) as [va s1|s1|f s1|]; [|exact Logic.I|reflexivity|reflexivity].
  intros a1 g1 b1 _ Hip1 Hops1 Hcb1 Hfoa HC1.
  set (i1 := mkI OP_JMP_NOT_NIL [sN (lb + 1)]) in *.
  assert (Hi1' : nth_error code (a_ip a1) = Some i1) by (rewrite Hip1; exact Hi1).
  pose proof (dec_jmp_not_nil (lb + 1) Hsk) as Hd1.
  pose proof (exec_jmp_not_nil (Z.of_nat (lb + 1)) a1 (trc name a1 g1 i1) (inj va) Hops1) as Hx.
  assert (Hjump : exec_d (DJmpNotNil (Z.of_nat (lb + 1))) a1 (trc name a1 g1 i1) = SGoto (Z.of_nat (lb + 1)) a1 (trc name a1 g1 i1) ->
            eres_ok b1 B env s1 d (kp + (la + (1 + lb))) a1 g1 KD (EVal va s1)).
  { intros Hx'.
    apply (eres_val (w := inj va) (mid_goto (t := a_ip a1 + (lb + 1)) Hi1' Hd1 Hx' ltac:(apply goto_fwd; lia) (act_same_refl a1) eq_refl));
      [cbn [set_ip a_ip]; lia|exact Hops1|apply Cl_trc; exact HC1|split; [exact Hfoa|reflexivity]]. }
  destruct va as [z|bv|t| |p0 bd ev]; cbn [inj] in Hx; [exact (Hjump Hx)|exact (Hjump Hx)|exact (Hjump Hx)| |destruct Hfoa].
  eapply (eres_seq (mid_next (d := d) (a1 := set_ops a1 []) Hi1' Hd1 Hx ltac:(repeat split) eq_refl)); [lia|].
  apply (eres_mono _ _ _ _ d (S d)); [lia|].
  pose proof (IHb b1 B (S d) lr (k0 + length fa) fuel (S (kp + la)) (set_ip (set_ops a1 []) (S (a_ip (set_ops a1 [])))) (trc name a1 g1 i1) env s1 KD ltac:(lia) Eb Hb) as Hbr.
  rewrite Ecb in Hbr. cbn [fst snd] in Hbr. fold lb in Hbr.
  replace (kp + (la + (1 + lb))) with (S (kp + la) + lb) by lia.
  exact (Hbr Hin2 ltac:(lia) ltac:(atp Hcb2) ltac:(lia) ltac:(cbn [set_ip set_ops a_ip]; lia) Hcb1 eq_refl (Cl_trc HC1)).
Qed.

Lemma kself_inv : forall B l kd,
  match SF with
  | Some (pk, r) => match kargs SF B CD l with Some ks => if kinds_eqb ks pk then Some r else None | None => None end
  | None => None end = Some kd ->
  exists pk, SF = Some (pk, kd) /\ kargs SF B CD l = Some pk.
Proof.
  intros B l kd. generalize (kargs SF B CD l). intros o. case SF; [intros [pk r]|discriminate].
  destruct o as [ks|]; [|discriminate]. destruct (kinds_eqb ks pk) eqn:E; [|discriminate].
  intros H. injection H as <-. apply kinds_eqb_eq in E. subst ks. exists pk. auto.
Qed.

Lemma espec_self : forall l, Forall espec l -> espec (ESelf l).
Proof.
  intros l IHl. apply espec_nodata. intros B Ho b d lr k0 fuel kp a g env s kd Hfu Hk Hb Hinst Hd Hc Hend Hip Hcb Hops HC.
  rewrite kexpr_eq, Ho in Hk. destruct (kself_inv B l kd Hk) as (pk & ESF & El). clear Hk.
  destruct fuel as [|fuel]; [exact Logic.I|]. rewrite eval_ESelf.
  rewrite ec_ESelf in Hinst, Hd, Hc, Hend |- *. destruct (eargs path lr (S d) k0 l) as [[ci cl] fl] eqn:Eea. cbn [fst snd] in Hinst, Hd, Hc, Hend |- *.
  pose proof (eargs_loads Eea) as ->.
  rewrite !app_length, argloads_length in Hd, Hend |- *. cbn [length] in Hd, Hend |- *. set (la := length ci) in *.
  apply code_at_app in Hc as [Hca Hc]. apply code_at_app in Hc as [Hcl Hc]. rewrite argloads_length in Hc. fold la in Hcl, Hc.
  apply code_at_cons in Hc as [Hi4 _].
  pose proof (args_sim IHl (fuel := fuel) [] Eea ltac:(lia) El Hb Hinst ltac:(fold la; lia) Hca ltac:(fold la; lia) Hip Hcb Hops HC) as Hargs. fold la in Hargs.
  destruct (evals_ fuel env l s []) as [[vs s2]|r0]; cbn [ares_ok] in Hargs.
  2:{ destruct r0 as [? ?|?|fl0 s2|]; try contradiction; [exact Hargs|exact Logic.I]. }
  destruct Hargs as (vs' & ws & a3 & g3 & b2 & Evs & M3 & Hip3 & Hops3 & HC3 & Hvs & Hreg). cbn [rev app] in Evs. subst vs'.
  eapply (eres_seq M3); [lia|].
  destruct (vrels_length _ _ _ _ Hvs) as [Hlv Hlw]. pose proof (kargs_length B l pk El) as Hlk.
  pose proof (cl_cur HC3) as Hcur. unfold cur_ok in Hcur. rewrite ESF in Hcur.
  destruct Hcur as (ps & body & cenv & Ecur & Hclos). rewrite Ecur.
  destruct (loads_sim l ws d s2 ltac:(congruence) Hreg ltac:(atp Hcl) Hip3) as (g4 & M4 & Hf4 & Hc4 & Ho4).
  rewrite Hops3 in M4. cbn [app] in M4. eapply (eres_seq M4); [lia|].
  set (a4 := upd a3 (kp + la + length l) ws) in *.
  assert (HC4 : ClA b2 B env s2 g4) by (eapply Cl_same; [exact HC3|exact Hc4|exact Hf4|exact Ho4]).
  assert (Hcb4 : a_cb a4 = cb) by exact (mid_cb M3 Hcb).
  eapply (call_step (a := a4) (g := g4) (i := mkI OP_CALL_SELF []) (dI := DCallSelf) (loc := name) (cbf := cb) (ws := ws)
           ltac:(cbn [a4 upd set_ip a_ip]; atp Hi4) eq_refl); [|lia|exact HC4|exact Hclos|exact Hvs|cbn [a4 upd set_ip a_ip]; lia].
  unfold exec_d. rewrite (cl_cf (Cl_trc HC4)), <- Hcb4. reflexivity.
Qed.

Lemma espec_leaf : forall e, (forall B, kexpr SF B CD e = if ok_dexpr B CD e then Some KD else None) -> espec e.
Proof. intros e H. apply espec_nodata. intros B Ho b d lr k0 fuel kp a g env s kd _ Hk. rewrite H, Ho in Hk. discriminate Hk. Qed.

Theorem espec_all : forall e, espec e.
Proof.
  apply (expr_ind' espec (fun _ => True)); try (intros; exact Logic.I);
    try (intros; apply espec_leaf; intros B; apply kexpr_eq).
  - intros x. apply espec_nodata. intros B Ho b d lr k0 fuel kp a g env s kd Hfu Hk Hb Hinst Hd Hc Hend Hip Hcb Hops HC.
    rewrite kexpr_eq, Ho in Hk. destruct (src_nameb x); [|discriminate]. apply code_at_cons in Hc as [Hi _].
    exact (espec_var d fuel Hk Hb Hi Hip Hcb Hops HC).
  - exact espec_bin.
  - intros ea eb IHa IHb. exact (espec_logic false ea eb IHa IHb).
  - intros ea eb IHa IHb. exact (espec_logic true ea eb IHa IHb).
  - exact espec_not.
  - exact espec_neg.
  - intros f l _ IHl. destruct f; try (apply espec_leaf; intros B; apply kexpr_eq). exact (espec_call _ l IHl).
  - exact espec_self.
  - intros ps body _. exact (espec_fn ps body).
  - exact espec_nilor.
  - exact espec_get.
Qed.

Hypothesis HPall : forall x, P x.
(* espec_all for the relation that leaves one name x out, over any captured context CD' that does not list x (the VM may have
   bound x while the reference semantics has not yet) *)
Definition ghost_spec : Prop :=
  forall CD' x eb, assoc x CD' = None -> uname0 x ->
  forall b B d lr k0 fuel kp a g env s,
    fuel <= FU -> kexpr SF B CD' eb = Some KD -> bound2 B env ->
    installed (snd (ec path d lr k0 eb)) ->
    d + length (fst (ec path d lr k0 eb)) <= c0 + length code + 2 ->
    code_at code kp (fst (ec path d lr k0 eb)) -> kp + length (fst (ec path d lr k0 eb)) < length code ->
    a_ip a = kp -> a_cb a = cb -> a_ops a = [] -> Cl path prog (fun y => y <> x) cb CD' base name SF b B env s g ->
    match eval fuel env eb s with
    | EVal v s' => exists a' g' b' w, xrun prog name code a g a' g' /\ a_ip a' = kp + length (fst (ec path d lr k0 eb)) /\ a_ops a' = [w] /\
          bext b b' s g /\ Cl path prog (fun y => y <> x) cb CD' base name SF b' B env s' g' /\ vrel b' KD v w /\ rest b d s s' a g a' g'
    | ENoVal s' => False
    | EFail f s' => fail_post f (exists e0 g', xfail prog name code a g e0 g' /\ err_rel_s f e0 /\ out g' = rout s')
    | EFuel => True
    end.

(* progress between statements: the block depth may have grown (it shrinks again before the statement ends) *)
Record smid (b0 : cinj) (s0 : rstate) (a0 : act) (g0 : gstate) (b : cinj) (s : rstate) (a : act) (g : gstate) : Prop := {
  smid_run : xrun prog name code a0 g0 a g;
  smid_adv : adv b0 s0 g0 b s g;
  smid_tl : tl (frames g) = tl (frames g0);
  smid_act : act_same a0 a;
  smid_ss : a_ss a0 <= a_ss a
}.
Arguments smid_run {b0 s0 a0 g0 b s a g}.
Arguments smid_adv {b0 s0 a0 g0 b s a g}.
Arguments smid_tl {b0 s0 a0 g0 b s a g}.
Arguments smid_act {b0 s0 a0 g0 b s a g}.
Arguments smid_ss {b0 s0 a0 g0 b s a g}.

Lemma smid_of_mid : forall {b0 d s0 a0 g0 b s a g}, mid b0 d s0 a0 g0 b s a g -> smid b0 s0 a0 g0 b s a g.
Proof. intros b0 d s0 a0 g0 b s a g [R V T A S F]. constructor; try assumption. rewrite S. apply le_n. Qed.
Lemma smid_refl : forall b s a g, smid b s a g b s a g.
Proof. intros. exact (smid_of_mid (mid_refl b 0 s a g)). Qed.
Lemma smid_trans : forall {b0 s0 a0 g0 b1 s1 a1 g1 b2 s2 a2 g2},
  smid b0 s0 a0 g0 b1 s1 a1 g1 -> smid b1 s1 a1 g1 b2 s2 a2 g2 -> smid b0 s0 a0 g0 b2 s2 a2 g2.
Proof.
  intros b0 s0 a0 g0 b1 s1 a1 g1 b2 s2 a2 g2 [R1 V1 T1 A1 S1] [R2 V2 T2 A2 S2].
  constructor; [eapply xrun_trans; eassumption|eapply adv_trans; eassumption|congruence|eapply act_same_trans; eassumption|lia].
Qed.
Lemma smid_cb : forall {b0 s0 a0 g0 b s a g}, smid b0 s0 a0 g0 b s a g -> a_cb a0 = cb -> a_cb a = cb.
Proof. intros b0 s0 a0 g0 b s a g M H. rewrite (proj2 (proj2 (smid_act M))). exact H. Qed.
Lemma smid_next : forall {b s a g i dI a1}, nth_error code (a_ip a) = Some i -> decode i = DOk dI ->
  exec_d dI a (trc name a g i) = SNext a1 (trc name a g i) -> act_same a a1 -> a_ss a1 = a_ss a ->
  smid b s a g b s (set_ip a1 (S (a_ip a1))) (trc name a g i).
Proof. intros b s a g i dI a1 Hi Hd Hx Ha Hs. exact (smid_of_mid (mid_next (d := 0) Hi Hd Hx Ha Hs)). Qed.
Lemma smid_goto : forall {b s a g i dI off a1 t}, nth_error code (a_ip a) = Some i -> decode i = DOk dI ->
  exec_d dI a (trc name a g i) = SGoto off a1 (trc name a g i) -> goto (length code) (a_ip a1) off = Some t ->
  act_same a a1 -> a_ss a1 = a_ss a ->
  smid b s a g b s (set_ip a1 t) (trc name a g i).
Proof. intros b s a g i dI off a1 t Hi Hd Hx Hg Ha Hs. exact (smid_of_mid (mid_goto (d := 0) Hi Hd Hx Hg Ha Hs)). Qed.

Definition jmid (b0 : cinj) (s0 : rstate) (a0 : act) (g0 : gstate) (b : cinj) (s : rstate) (a : act) (g : gstate) : Prop :=
  xrun prog name code a0 g0 a g /\ bext b0 b s0 g0 /\ act_same a0 a /\ a_ss a0 <= a_ss a /\ keep b0 g0 g /\ lens s0 s g0 g.
Lemma jmid_intro : forall {b0 s0 a0 g0 b s a g}, xrun prog name code a0 g0 a g -> adv b0 s0 g0 b s g -> act_same a0 a -> a_ss a0 <= a_ss a ->
  jmid b0 s0 a0 g0 b s a g.
Proof. intros b0 s0 a0 g0 b s a g R (E & K & L) A S. unfold jmid. auto 8. Qed.
Lemma jmid_run : forall {b0 s0 a0 g0 b s a g}, jmid b0 s0 a0 g0 b s a g -> xrun prog name code a0 g0 a g.
Proof. intros b0 s0 a0 g0 b s a g J. exact (proj1 J). Qed.
Lemma jmid_adv : forall {b0 s0 a0 g0 b s a g}, jmid b0 s0 a0 g0 b s a g -> adv b0 s0 g0 b s g.
Proof. intros b0 s0 a0 g0 b s a g (_ & E & _ & _ & K & L). exact (conj E (conj K L)). Qed.
Lemma jmid_act : forall {b0 s0 a0 g0 b s a g}, jmid b0 s0 a0 g0 b s a g -> act_same a0 a /\ a_ss a0 <= a_ss a.
Proof. intros b0 s0 a0 g0 b s a g (_ & _ & A & S & _). exact (conj A S). Qed.
Lemma jmid_cb : forall {b0 s0 a0 g0 b s a g}, jmid b0 s0 a0 g0 b s a g -> a_cb a0 = cb -> a_cb a = cb.
Proof. intros b0 s0 a0 g0 b s a g J H. rewrite (proj2 (proj2 (proj1 (jmid_act J)))). exact H. Qed.
Lemma jmid_of_smid : forall {b0 s0 a0 g0 b s a g}, smid b0 s0 a0 g0 b s a g -> jmid b0 s0 a0 g0 b s a g.
Proof. intros b0 s0 a0 g0 b s a g [R V T A S]. now apply jmid_intro. Qed.
Lemma jmid_trans : forall {b0 s0 a0 g0 b1 s1 a1 g1 b2 s2 a2 g2},
  jmid b0 s0 a0 g0 b1 s1 a1 g1 -> jmid b1 s1 a1 g1 b2 s2 a2 g2 -> jmid b0 s0 a0 g0 b2 s2 a2 g2.
Proof.
  intros b0 s0 a0 g0 b1 s1 a1 g1 b2 s2 a2 g2 J1 J2. destruct (jmid_act J1) as [A1 S1], (jmid_act J2) as [A2 S2].
  apply jmid_intro; [eapply xrun_trans; eapply jmid_run; eassumption|eapply adv_trans; eapply jmid_adv; eassumption|
                     eapply act_same_trans; eassumption|lia].
Qed.
Lemma jmid_fail : forall b0 s0 a0 g0 b s a g e g', jmid b0 s0 a0 g0 b s a g -> xfail prog name code a g e g' ->
  xfail prog name code a0 g0 e g'.
Proof. intros b0 s0 a0 g0 b s a g e g' J Hf. eapply xrun_fail; [exact (jmid_run J)|exact Hf]. Qed.

Local Notation lcok := (lc_ok code).
Lemma lcok_block : forall il sl bt ct env hi hi', lcok il sl bt ct env hi -> S hi' <= hi ->
  lcok il (option_map S sl) bt ct (push_scope env) hi'.
Proof.
  intros il sl bt ct env hi hi' [H1 H2] Hle. split.
  - intros Hil. specialize (H1 Hil). destruct sl; [discriminate|congruence].
  - intros m' Hm'. destruct sl as [m|]; [|discriminate]. cbn [option_map] in Hm'. injection Hm' as <-.
    destruct (H2 m eq_refl) as (A1 & A2 & A3 & A4 & A5 & A6). cbn [push_scope locals length]. repeat split; lia.
Qed.
Lemma lcok_loop : forall env kb ct bt, kb <= ct -> ct < bt -> bt < length code -> 1 <= length (locals env) ->
  lcok true (Some 1) bt ct (push_scope env) kb.
Proof.
  intros env kb ct bt H1 H2 H3 H4. split; [discriminate|]. intros m Hm. injection Hm as <-. cbn [push_scope locals length]. repeat split; lia.
Qed.

(* the loop registers L#1 .. L#(lr + 2 * nesting) have names the decimal codec tells apart *)
Definition lrok (lr kp : nat) : Prop := small (lr + 2 * (length code - kp) + 4).
Lemma lrok_mono : forall lr kp lr' kp', lrok lr kp -> lr' + 2 * (length code - kp') <= lr + 2 * (length code - kp) -> lrok lr' kp'.
Proof. unfold lrok. intros lr kp lr' kp' H Hle. eapply small_le; [|exact H]. lia. Qed.

Definition retpost (b : cinj) (rets : list kind) (s : rstate) (a : act) (g : gstate) (ov : option rvalue) (s' : rstate) : Prop :=
  exists a' g' b', xrun prog name code a g a' g' /\ nth_error code (a_ip a') = Some (mkI OP_RET []) /\ adv b s g b' s' g' /\
    heap_ok b' s' g' /\ out g' = rout s' /\ drop_to_function (frames g') = base /\
    match ov with
    | Some v => exists w k, a_ops a' = [w] /\ vrel b' k v w /\ In k rets
    | None => a_ops a' = [] /\ In KN rets end.
Lemma retpost_seq : forall {b rets rets' s a g b1 s1 a1 g1 ov s'}, xrun prog name code a g a1 g1 -> adv b s g b1 s1 g1 ->
  (forall k, In k rets -> In k rets') -> retpost b1 rets s1 a1 g1 ov s' -> retpost b rets' s a g ov s'.
Proof.
  intros b rets rets' s a g b1 s1 a1 g1 ov s' R V Hin (a' & g' & b' & R' & Hi & V' & Hh & Ho & Hdr & Hv). exists a', g', b'.
  split; [eapply xrun_trans; eassumption|]. split; [exact Hi|]. split; [eapply adv_trans; eassumption|].
  split; [exact Hh|]. split; [exact Ho|]. split; [exact Hdr|]. destruct ov as [v|].
  - destruct Hv as (w & k & Hops & Hv & Hk). exists w, k. auto.
  - destruct Hv as [Hops Hk]. auto.
Qed.
Lemma retpost_here : forall {b B rets env s a g ov}, ClA b B env s g -> nth_error code (a_ip a) = Some (mkI OP_RET []) ->
  match ov with Some v => exists w k, a_ops a = [w] /\ vrel b k v w /\ In k rets | None => a_ops a = [] /\ In KN rets end ->
  retpost b rets s a g ov s.
Proof.
  intros b B rets env s a g ov HC Hi Hv. exists a, g, b. split; [apply xrun_refl|]. split; [exact Hi|]. split; [apply adv_refl|].
  split; [exact (cl_heap HC)|]. split; [exact (cl_out HC)|]. split; [|exact Hv].
  rewrite (Rfr2_drop _ _ _ _ (cl_fr HC)). exact (cl_base HC).
Qed.
Lemma retpost_fn : forall b rets s argv g1 ov s', assoc name prog = Some code ->
  retpost b rets s (Sound.act0 name argv cb) (push_frame g1 (LFun name)) ov s' ->
  exists fuel' gf b' rv, run_fn fuel' prog name argv cb g1 = RDone rv gf /\ frames gf = base /\ adv b s g1 b' s' gf /\
    heap_ok b' s' gf /\ out gf = rout s' /\
    match ov with Some v => exists w k, rv = Some w /\ vrel b' k v w /\ In k rets | None => rv = None /\ In KN rets end.
Proof.
  intros b rets s argv g1 ov s' Hc (a' & g' & b' & R & Hi & V & Hh & Ho & Hdr & Hv).
  set (gt := trc name a' g' (mkI OP_RET [])).
  assert (Hfin : forall rv a1, exec_d DRet a' gt = SRet rv a1 gt ->
            exists fuel' gf, run_fn fuel' prog name argv cb g1 = RDone rv gf /\ frames gf = base /\ adv b s g1 b' s' gf /\ heap_ok b' s' gf /\ out gf = rout s').
  { intros rv a1 Hx. destruct (run_fn_ret prog name code argv cb g1 a' g' _ DRet rv a1 gt Hc R Hi eq_refl Hx) as [fuel' Hrun].
    exists fuel', (with_frames gt (drop_to_function (frames gt))). split; [exact Hrun|]. split; [exact Hdr|].
    split; [exact (adv_cells g1 _ V eq_refl eq_refl)|]. split; [exact (heap_ok_same path prog _ _ _ _ _ Hh eq_refl eq_refl)|exact Ho]. }
  destruct ov as [v|].
  - destruct Hv as (w & k & Hops & Hvw & Hk).
    destruct (Hfin (Some w) (set_ops a' []) ltac:(unfold exec_d; rewrite Hops; reflexivity)) as (fuel' & gf & Hrun & H).
    exists fuel', gf, b', (Some w). split; [exact Hrun|]. repeat (split; [exact (proj1 H)|destruct H as [_ H]]). split; [exact H|]. exists w, k. auto.
  - destruct Hv as [Hops Hk].
    destruct (Hfin None a' ltac:(unfold exec_d; rewrite Hops; reflexivity)) as (fuel' & gf & Hrun & H).
    exists fuel', gf, b', None. split; [exact Hrun|]. repeat (split; [exact (proj1 H)|destruct H as [_ H]]). split; [exact H|]. auto.
Qed.

Definition spost (b : cinj) (B' : kctx) (rets : list kind) (lr : nat) (sl : option nat) (bt ct fin : nat) (env : fenv) (s : rstate)
           (a : act) (g : gstate) (r : sres_) : Prop :=
  match r with
  | SOk sig env' s' =>
    same_tl env env' /\
    match sig with
    | SigNormal => bound2 B' env' /\
        exists a' g' b', smid b s a g b' s' a' g' /\ a_ip a' = fin /\ a_ops a' = [] /\ ClA b' B' env' s' g' /\
          lkeep lr (frames g) (frames g')
    | SigBreak => exists m a' g' b', sl = Some m /\ 1 <= m /\
        jmid b s a g b' s' a' g' /\ a_ip a' = bt /\ a_ops a' = [] /\ ClA b' [] (popn m env') s' g' /\
        frames g' = skipn m (frames g)
    | SigContinue => exists m a' g' b', sl = Some m /\ 1 <= m /\
        jmid b s a g b' s' a' g' /\ a_ip a' = ct /\ a_ops a' = [] /\ ClA b' [] (popn (m - 1) env') s' g' /\
        tl (frames g') = skipn m (frames g) /\ lkeep lr (skipn (m - 1) (frames g)) (frames g')
    | SigReturn ov => retpost b rets s a g ov s'
    end
  | SFailed f s' => failed a g f s'
  | SFuel => True
  end.

Definition sspec (st : stmt) : Prop :=
  forall b B lr il sl bt ct k0 fuel kp a g env s B' rets,
    fuel <= FU -> kstmt SF il B CD st = Some (B', rets) -> bound2 B env -> installed (snd (sc path c0 lr sl k0 st)) ->
    items_at code bt ct kp (fst (sc path c0 lr sl k0 st)) -> endok code (kp + length (fst (sc path c0 lr sl k0 st))) (isret st) ->
    lcok il sl bt ct env (kp + length (fst (sc path c0 lr sl k0 st))) -> lrok lr kp ->
    a_ip a = kp -> a_cb a = cb -> a_ops a = [] -> length (locals env) <= S (a_ss a) -> ClA b B env s g ->
    spost b B' rets lr sl bt ct (kp + length (fst (sc path c0 lr sl k0 st))) env s a g (Eval.exec fuel env st s).
Definition bspec (l : list stmt) : Prop :=
  forall b B lr il sl bt ct k0 fuel kp a g env s B' rets,
    fuel <= FU -> kblock SF il B CD l = Some (B', rets) -> bound2 B env -> installed (snd (bc path c0 lr sl k0 l)) ->
    items_at code bt ct kp (fst (bc path c0 lr sl k0 l)) -> endok code (kp + length (fst (bc path c0 lr sl k0 l))) (endsret l) ->
    lcok il sl bt ct env (kp + length (fst (bc path c0 lr sl k0 l))) -> lrok lr kp ->
    a_ip a = kp -> a_cb a = cb -> a_ops a = [] -> length (locals env) <= S (a_ss a) -> ClA b B env s g ->
    spost b B' rets lr sl bt ct (kp + length (fst (bc path c0 lr sl k0 l))) env s a g (exec_block fuel env l s).

Lemma lk_mid : forall lr {b d s a g b1 s1 a1 g1}, mid b d s a g b1 s1 a1 g1 -> lkeep lr (frames g) (frames g1).
Proof. intros lr b d s a g b1 s1 a1 g1 M j _. refine (proj1 (mid_fk M _ _)). intros (k & _ & _ & E). exact (lregn_not_reg _ _ E). Qed.
Lemma lk_bind2 : forall lr f fs x c, (forall j, j <= lr -> x <> lregn j) -> lkeep lr (f :: fs) ({| lab := lab f; vars := assoc_set x c (vars f) |} :: fs).
Proof. intros lr f fs x c Hx j Hj. cbn [find_in_function vars lab]. rewrite assoc_set_other; [reflexivity|]. intros E. exact (Hx j Hj (eq_sym E)). Qed.
Lemma uname0_not_lregn : forall x j, uname0 x -> x <> lregn j.
Proof. intros x j Hx ->. exact (lregn_not_uname0 j Hx). Qed.
Lemma lkeep_skipn : forall lr m l l', tl l' = tl l -> lkeep lr l l' -> lkeep lr (skipn m l) (skipn m l').
Proof. intros lr [|m] l l' Ht Hk; [exact Hk|]. apply lkeep_eq. now rewrite !skipn_S_tl, Ht. Qed.

Lemma spost_normal : forall {b B' rets lr sl bt ct fin env s a g env' s' a' g' b'},
  same_tl env env' -> bound2 B' env' -> smid b s a g b' s' a' g' -> a_ip a' = fin -> a_ops a' = [] -> ClA b' B' env' s' g' ->
  lkeep lr (frames g) (frames g') -> spost b B' rets lr sl bt ct fin env s a g (SOk SigNormal env' s').
Proof. intros. cbn [spost]. split; [assumption|]. split; [assumption|]. exists a', g', b'. auto. Qed.

Lemma spost_seq : forall {b B' rets lr sl bt ct fin env s a g b1 env1 s1 a1 g1 r},
  smid b s a g b1 s1 a1 g1 -> lkeep lr (frames g) (frames g1) -> same_tl env env1 ->
  spost b1 B' rets lr sl bt ct fin env1 s1 a1 g1 r -> spost b B' rets lr sl bt ct fin env s a g r.
Proof.
  intros b B' rets lr sl bt ct fin env s a g b1 env1 s1 a1 g1 r M LK Hd H.
  pose proof (smid_tl M) as HT. pose proof (jmid_of_smid M) as J.
  destruct r as [sig env' s'|f s'|]; cbn [spost] in *; [| |exact Logic.I].
  - destruct H as [Hd' H]. split; [eapply same_tl_trans; eassumption|].
    destruct sig as [| | |ov].
    + destruct H as (HB & a' & g' & b' & M' & Hip & Hops & HC & LK'). split; [exact HB|]. exists a', g', b'.
      split; [eapply smid_trans; eassumption|]. split; [exact Hip|]. split; [exact Hops|]. split; [exact HC|eapply lkeep_trans; eassumption].
    + destruct H as (m & a' & g' & b' & Hsl & Hm & J' & Hip & Hops & HC & Hf). exists m, a', g', b'.
      split; [exact Hsl|]. split; [exact Hm|]. split; [eapply jmid_trans; eassumption|].
      split; [exact Hip|]. split; [exact Hops|]. split; [exact HC|]. rewrite Hf. apply skipn_tl_eq; [exact Hm|exact HT].
    + destruct H as (m & a' & g' & b' & Hsl & Hm & J' & Hip & Hops & HC & Hf & LK'). exists m, a', g', b'.
      split; [exact Hsl|]. split; [exact Hm|]. split; [eapply jmid_trans; eassumption|].
      split; [exact Hip|]. split; [exact Hops|]. split; [exact HC|]. split; [rewrite Hf; apply skipn_tl_eq; [exact Hm|exact HT]|].
      eapply lkeep_trans; [apply lkeep_skipn; [exact HT|exact LK]|exact LK'].
    + exact (retpost_seq (smid_run M) (smid_adv M) (fun k Hk => Hk) H).
  - exact (failed_run (smid_run M) H).
Qed.

Lemma spost_rets : forall {b B' rets rets' lr sl bt ct fin env s a g r}, (forall k, In k rets -> In k rets') ->
  (forall env' s', r <> SOk SigNormal env' s') -> spost b B' rets lr sl bt ct fin env s a g r ->
  forall B'' fin', spost b B'' rets' lr sl bt ct fin' env s a g r.
Proof.
  intros b B' rets rets' lr sl bt ct fin env s a g r Hin Hn H B'' fin'. destruct r as [sig env' s'|f s'|]; cbn [spost] in *; [|exact H|exact Logic.I].
  destruct H as [Hd H]. split; [exact Hd|]. destruct sig as [| | |ov]; [exfalso; exact (Hn env' s' eq_refl)|exact H|exact H|].
  exact (retpost_seq (xrun_refl _ _ _ _ _) (adv_refl _ _ _) Hin H).
Qed.
Lemma spost_mono : forall {b B' rets rets' lr sl bt ct fin env s a g r}, (forall k, In k rets -> In k rets') ->
  spost b B' rets lr sl bt ct fin env s a g r -> spost b B' rets' lr sl bt ct fin env s a g r.
Proof.
  intros b B' rets rets' lr sl bt ct fin env s a g r Hin H. destruct r as [[| | |ov] env' s'|f s'|]; try exact H.
  exact (spost_rets (r := SOk (SigReturn ov) env' s') Hin ltac:(intros; discriminate) H B' fin).
Qed.

Lemma after_expr_at : forall fuel {e d lre b B B' rets lr sl bt ct k0 kp fin a g env s ce fe kd r},
  ec path d lre k0 e = (ce, fe) -> fuel <= FU -> kexpr SF B CD e = Some kd -> bound2 B env -> installed fe -> d <= S c0 ->
  code_at code kp ce -> kp + length ce < length code ->
  a_ip a = kp -> a_cb a = cb -> a_ops a = [] -> ClA b B env s g ->
  match eval fuel env e s with
  | EVal v s1 => forall a1 g1 b1 w, mid b d s a g b1 s1 a1 g1 -> a_ip a1 = kp + length ce -> a_ops a1 = [w] ->
                  a_cb a1 = cb -> a_ss a1 = a_ss a -> ClA b1 B env s1 g1 -> vrel b1 kd v w -> spost b1 B' rets lr sl bt ct fin env s1 a1 g1 r
  | ENoVal s1 => forall a1 g1 b1, mid b d s a g b1 s1 a1 g1 -> a_ip a1 = kp + length ce -> a_ops a1 = [] ->
                  ClA b1 B env s1 g1 -> spost b1 B' rets lr sl bt ct fin env s1 a1 g1 r
  | EFail f s1 => r = SFailed f s1
  | EFuel => r = SFuel end ->
  spost b B' rets lr sl bt ct fin env s a g r.
Proof.
  intros fuel e d lre b B B' rets lr sl bt ct k0 kp fin a g env s ce fe kd r Eec Hfu Hk Hb Hinst Hd Hce Hend Hip Hcb Hops HC Hr.
  pose proof (espec_all e b B d lre k0 fuel kp a g env s kd Hfu Hk Hb) as He. rewrite Eec in He. cbn [fst snd] in He.
  specialize (He Hinst ltac:(lia) Hce Hend Hip Hcb Hops HC).
  pose proof (same_tl_refl env (Cl_ne HC)) as Hd0.
  destruct (eval fuel env e s) as [v s1|s1|f s1|].
  - apply eres_val_inv in He. destruct He as (a1 & g1 & b1 & w & M1 & Hip1 & Hops1 & HC1 & Hv1).
    apply (spost_seq (smid_of_mid M1) (lk_mid lr M1) Hd0).
    exact (Hr a1 g1 b1 w M1 Hip1 Hops1 (mid_cb M1 Hcb) (mid_ss M1) HC1 Hv1).
  - apply eres_noval_inv in He. destruct He as (_ & a1 & g1 & b1 & M1 & Hip1 & Hops1 & HC1).
    apply (spost_seq (smid_of_mid M1) (lk_mid lr M1) Hd0).
    exact (Hr a1 g1 b1 M1 Hip1 Hops1 HC1).
  - subst r. exact He.
  - subst r. exact Logic.I.
Qed.
Lemma after_expr : forall fuel {e d b B B' rets lr sl bt ct k0 kp fin a g env s ce fe post kd r},
  ec path d lr k0 e = (ce, fe) -> fuel <= FU -> kexpr SF B CD e = Some kd -> bound2 B env -> installed fe -> d <= S c0 ->
  items_at code bt ct kp (map CI ce ++ post) -> kp + length ce < length code ->
  a_ip a = kp -> a_cb a = cb -> a_ops a = [] -> ClA b B env s g ->
  match eval fuel env e s with
  | EVal v s1 => forall a1 g1 b1 w, mid b d s a g b1 s1 a1 g1 -> a_ip a1 = kp + length ce -> a_ops a1 = [w] ->
                  a_cb a1 = cb -> a_ss a1 = a_ss a -> ClA b1 B env s1 g1 -> vrel b1 kd v w -> spost b1 B' rets lr sl bt ct fin env s1 a1 g1 r
  | ENoVal s1 => forall a1 g1 b1, mid b d s a g b1 s1 a1 g1 -> a_ip a1 = kp + length ce -> a_ops a1 = [] ->
                  ClA b1 B env s1 g1 -> spost b1 B' rets lr sl bt ct fin env s1 a1 g1 r
  | EFail f s1 => r = SFailed f s1
  | EFuel => r = SFuel end ->
  spost b B' rets lr sl bt ct fin env s a g r.
Proof.
  intros fuel e d b B B' rets lr sl bt ct k0 kp fin a g env s ce fe post kd r Eec Hfu Hk Hb Hinst Hd Hc. apply items_at_app in Hc as [Hce _].
  exact (after_expr_at fuel Eec Hfu Hk Hb Hinst Hd (items_at_CI _ _ _ _ _ Hce)).
Qed.
Lemma spost_done : forall {b B rets lr sl bt ct fin env s a g s' a' g' b'},
  bound2 B env -> smid b s a g b' s' a' g' -> a_ip a' = fin -> a_ops a' = [] -> ClA b' B env s' g' -> frames g' = frames g ->
  spost b B rets lr sl bt ct fin env s a g (SOk SigNormal env s').
Proof.
  intros b B rets lr sl bt ct fin env s a g s' a' g' b' Hb M Hip Hops HC Hf.
  apply (spost_normal (same_tl_refl env (Cl_ne HC)) Hb M Hip Hops HC). now apply lkeep_eq.
Qed.

Lemma expr_stmt : forall st e d i1 tl (Kv : fenv -> rvalue -> rstate -> sres_) (Kn : fenv -> rstate -> sres_), d <= S c0 ->
  (forall lr sl k0, sc path c0 lr sl k0 st = let '(ce, fe) := ec path d lr k0 e in (map CI ce ++ map CI (i1 :: tl), fe)) ->
  (forall fuel env s, Eval.exec (S fuel) env st s =
     match eval fuel env e s with EVal v s1 => Kv env v s1 | ENoVal s1 => Kn env s1 | EFail f s1 => SFailed f s1 | EFuel => SFuel end) ->
  (forall il B B' rets, kstmt SF il B CD st = Some (B', rets) -> exists kd, kexpr SF B CD e = Some kd /\
     forall b lr sl bt ct kp a g env s, bound2 B env -> code_at code kp (i1 :: tl) -> endok code (kp + S (length tl)) (isret st) ->
       a_ip a = kp -> ClA b B env s g ->
       (forall v w, a_ops a = [w] -> a_cb a = cb -> vrel b kd v w -> spost b B' rets lr sl bt ct (kp + S (length tl)) env s a g (Kv env v s)) /\
       (a_ops a = [] -> spost b B' rets lr sl bt ct (kp + S (length tl)) env s a g (Kn env s))) ->
  sspec st.
Proof.
  intros st e d i1 tl Kv Kn Hd Hsc Hex Hcont b B lr il sl bt ct k0 fuel kp a g env s B' rets Hfu Hk Hb Hinst Hc Hend _ _ Hip Hcb Hops _ HC.
  destruct (Hcont il B B' rets Hk) as (kd & Ee & Hrest).
  destruct fuel as [|fuel]; [exact Logic.I|]. rewrite Hex.
  rewrite Hsc in Hinst, Hc, Hend |- *. destruct (ec path d lr k0 e) as [ce fe] eqn:Eec. cbn [fst snd] in Hinst, Hc, Hend |- *.
  rewrite app_length, !map_length in Hend |- *. cbn [length] in Hend |- *. rewrite Nat.add_assoc in Hend |- *.
  apply items_at_app in Hc as [Hce Hi]. rewrite map_length in Hi. apply items_at_CI in Hce, Hi.
  assert (Hlt : kp + length ce < length code) by (apply nth_error_Some; rewrite (proj1 (code_at_cons _ _ _ _ Hi)); discriminate).
  apply (after_expr_at fuel Eec ltac:(lia) Ee Hb Hinst Hd Hce Hlt Hip Hcb Hops HC).
  destruct (eval fuel env e s) as [v s1|s1|f s1|]; [| |reflexivity|reflexivity].
  - intros a1 g1 b1 w _ Hip1 Hops1 Hcb1 _ HC1 Hv1. exact (proj1 (Hrest b1 lr sl bt ct _ a1 g1 env s1 Hb Hi Hend Hip1 HC1) v w Hops1 Hcb1 Hv1).
  - intros a1 g1 b1 _ Hip1 Hops1 HC1. exact (proj2 (Hrest b1 lr sl bt ct _ a1 g1 env s1 Hb Hi Hend Hip1 HC1) Hops1).
Qed.

Lemma assign_sim : forall x e, sspec (SAssign x e).
Proof.
  intros x e. apply (expr_stmt _ e c0 (mkI OP_STORE [x]) [] _ _ (Nat.le_succ_diag_r c0) (fun lr sl k0 => sc_Assign path c0 lr sl k0 x e) (fun fuel env s => exec_SAssign fuel env x e s)).
  intros il B B' rets Hk. cbn [kstmt] in Hk. destruct (src_nameb x) eqn:Hsx; [|discriminate].
  destruct (kexpr SF B CD e) as [k|] eqn:Ee; [|discriminate]. exists k. split; [reflexivity|].
  intros b1 lr sl bt ct kp a1 g1 env s1 Hb Hi _ Hip1 HC1. apply code_at_cons in Hi as [Hi _]. split; [|intros; exact Logic.I].
  intros v w Hops1 _ Hv1.
  pose proof (src_nameb_ok x Hsx) as Hx.
  set (i1 := mkI OP_STORE [x]) in *. set (g1t := trc name a1 g1 i1).
  assert (HC1t : ClA b1 B env s1 g1t) by exact (Cl_trc HC1).
  assert (Hstep : forall g2, store_var g1t x w = Some g2 -> xrun prog name code a1 g1 (upd a1 (S (a_ip a1)) []) g2).
  { intros g2 Hst. exact (xstep_next prog name code a1 g1 i1 _ (a_ip a1) (set_ops a1 []) g2 eq_refl ltac:(rewrite Hip1; exact Hi) (dec_store x)
                            (exec_store x a1 g1t w g2 Hops1 Hst)). }
  destruct (assoc x B) as [k'|] eqn:EB.
  -
    destruct (kind_eqb k k') eqn:Ek; [|discriminate]. apply kind_eqb_eq in Ek. subst k'. injection Hk as <- <-.
    destruct (cl_B HC1t x k EB) as (_ & c & c' & A1 & A2 & A3). unfold assign. rewrite A1.
    apply (spost_done (a' := upd a1 (S (a_ip a1)) []) (g' := cell_set g1t c' w) (b' := b1) Hb);
      [|cbn [upd set_ip a_ip length]; lia|reflexivity|eapply Cl_update; eassumption|reflexivity].
    constructor; [apply Hstep; unfold store_var; now rewrite A2|exact (adv_set A3)|reflexivity|repeat split|apply le_n].
  -
    injection Hk as <- <-.
    pose proof (bound2_none B env x Hb (proj2 (proj2 Hx)) EB) as Hn. pose proof (Cl_unbound HC1t Hx (HPall x) Hn) as Hf.
    destruct (locals env) as [|sc l] eqn:El; [destruct (Cl_ne HC1 El)|]. destruct (Cl_frames HC1t) as (f & fs & Ef).
    destruct (Cl_declare path prog P cb CD base name SF b1 B env s1 g1t x k v w sc l f fs HC1t Hx Hv1 El Ef ltac:(rewrite El; exact Hn) (trace g1t))
      as [HC2 He2]. cbv zeta in HC2, He2.
    match type of HC2 with Cl _ _ _ _ _ _ _ _ _ _ ?E ?S ?G => set (env' := E) in *; set (s' := S) in *; set (g2 := G) in * end.
    replace (assign env s1 x v) with (env', s') by (unfold assign; rewrite El, Hn; unfold declare, alloc; rewrite El; reflexivity).
    eapply (spost_normal (a' := upd a1 (S (a_ip a1)) []) (g' := g2));
      [split; [cbn [env' locals tl]; rewrite El; reflexivity|discriminate]|
       eapply (bound2_declare B env x k _ sc l env' Hb El); [reflexivity|exact Hx]| |cbn [upd set_ip a_ip length]; lia|reflexivity|exact HC2|].
    + constructor; [apply Hstep; unfold store_var; rewrite Hf; unfold bind_local; rewrite Ef; reflexivity|exact (adv_alloc (s' := s') (g' := g2) He2 eq_refl eq_refl)|
                    cbn [g2 frames tl]; change (frames g1) with (frames g1t); now rewrite Ef|repeat split|apply le_n].
    + change (frames g1) with (frames g1t). rewrite Ef. apply lk_bind2. intros j _. apply uname0_not_lregn. exact Hx.
Qed.

Lemma exec_SModify : forall fuel env x e s, Eval.exec (S fuel) env (SModify x e) s =
  match eval fuel env e s with
  | EVal v s => match lookup_scopes x (captured env) with
                | Some c => SOk SigNormal env (sset s c v) | None => SFailed (FUnbound x) s end
  | ENoVal s => SFailed (FType 3) s | EFail f s => SFailed f s | EFuel => SFuel end.
Proof. reflexivity. Qed.
Lemma dec_store_object : forall x, decode (mkI OP_STORE_OBJECT [x]) = DOk (DStoreObject x).
Proof. reflexivity. Qed.

Lemma modify_sim : forall x e, sspec (SModify x e).
Proof.
  intros x e. apply (expr_stmt _ e c0 (mkI OP_STORE_OBJECT [x]) [] _ _ (Nat.le_succ_diag_r c0) (fun lr sl k0 => sc_Modify path c0 lr sl k0 x e) (fun fuel env s => exec_SModify fuel env x e s)).
  intros il B B' rets Hk. cbn [kstmt] in Hk. destruct (assoc x CD) as [k'|] eqn:EC; [|discriminate].
  destruct (kexpr SF B CD e) as [k|] eqn:Ee; [|discriminate].
  destruct (src_nameb x && kind_eqb k k') eqn:Ec; [|discriminate]. apply andb_true_iff in Ec as [_ Ek].
  apply kind_eqb_eq in Ek. subst k'. injection Hk as <- <-. exists k. split; [reflexivity|].
  intros b1 lr sl bt ct kp a1 g1 env s1 Hb Hi _ Hip1 HC1. apply code_at_cons in Hi as [Hi _]. split; [|intros; exact Logic.I].
  intros v w Hops1 Hcb1 Hv1.
  set (i1 := mkI OP_STORE_OBJECT [x]) in *. set (g1t := trc name a1 g1 i1).
  assert (HC1t : ClA b1 B env s1 g1t) by exact (Cl_trc HC1).
  destruct (cl_cap HC1t x k EC) as (_ & c & c' & A1 & A2 & A3). rewrite A1.
  apply (spost_done (a' := upd a1 (S (a_ip a1)) []) (g' := cell_set g1t c' w) (b' := b1) Hb);
    [|cbn [upd set_ip a_ip length]; lia|reflexivity|eapply Cl_update; eassumption|reflexivity].
  constructor; [|exact (adv_set A3)|reflexivity|repeat split|apply le_n].
  eapply (xstep_next prog name code a1 g1 i1 _ (a_ip a1) (set_ops a1 [])); [reflexivity|rewrite Hip1; exact Hi|apply dec_store_object|].
  unfold exec_d. rewrite Hops1. unfold load_cb. rewrite Hcb1. unfold cbget in A2. rewrite A2. reflexivity.
Qed.

Lemma print_sim : forall e, sspec (SPrint e).
Proof.
  intros e. apply (expr_stmt _ e c0 (mkI OP_PRINTN [s_star]) [mkI OP_VOID []] _ _ (Nat.le_succ_diag_r c0) (fun lr sl k0 => sc_Print path c0 lr sl k0 e) (fun fuel env s => exec_SPrint fuel env e s)).
  intros il B B' rets Hk. cbn [kstmt] in Hk. destruct (kexpr SF B CD e) as [[|? ?|]|] eqn:Ee; try discriminate. cbn [is_KD] in Hk. injection Hk as <- <-.
  exists KD. split; [reflexivity|].
  intros b1 lr sl bt ct kp a1 g1 env s1 Hb Hi _ Hip1 HC1. apply code_at_cons in Hi as [Hi1 Hi]. apply code_at_cons in Hi as [Hi2 _].
  split; [|intros; exact Logic.I]. intros v w Hops1 _ [Hfo ->].
  destruct (show_inj v Hfo) as (l & Hrs & Hsh). rewrite Hrs.
  set (g2 := emit_line (trc name a1 g1 (mkI OP_PRINTN [s_star])) l). set (a2 := set_ip a1 (S (a_ip a1))).
  apply (spost_done (a' := upd a2 (S (a_ip a2)) []) (g' := trc name a2 g2 (mkI OP_VOID [])) (b' := b1) Hb);
    [|cbn [upd set_ip a_ip a2 length]; lia|reflexivity|apply Cl_trc; apply Cl_print; apply Cl_trc; exact HC1|reflexivity].
  constructor; [|apply adv_same; reflexivity|reflexivity|repeat split|apply le_n].
  eapply xrun_trans.
  - eapply (xstep_next prog name code a1 g1 _ _ (a_ip a1) a1); [reflexivity|rewrite Hip1; exact Hi1|apply dec_printn|].
    apply (exec_print a1 _ (inj v) l); [exact Hops1|exact Hsh].
  - eapply (xstep_next prog name code a2 g2 _ _ (a_ip a2) (set_ops a2 [])); [reflexivity| |apply dec_void|apply exec_void].
    cbn [a2 set_ip a_ip]. rewrite Hip1. atp Hi2.
Qed.

Lemma expr_sim : forall e, sspec (SExpr e).
Proof.
  intros e. apply (expr_stmt _ e c0 (mkI OP_VOID []) [] _ _ (Nat.le_succ_diag_r c0) (fun lr sl k0 => sc_Expr path c0 lr sl k0 e) (fun fuel env s => exec_SExpr fuel env e s)).
  intros il B B' rets Hk. cbn [kstmt] in Hk. destruct (kexpr SF B CD e) as [k|] eqn:Ee; [|discriminate]. injection Hk as <- <-.
  exists k. split; [reflexivity|].
  intros b1 lr sl bt ct kp a1 g1 env s1 Hb Hi _ Hip1 HC1. apply code_at_cons in Hi as [Hi1 _].
  assert (Hvoid : spost b1 B [] lr sl bt ct (kp + 1) env s1 a1 g1 (SOk SigNormal env s1)).
  { apply (spost_done Hb (smid_next (a := a1) (a1 := set_ops a1 []) ltac:(rewrite Hip1; exact Hi1) dec_void (exec_void _ _) ltac:(repeat split) eq_refl));
      [cbn [set_ip set_ops a_ip]; lia|reflexivity|apply Cl_trc; exact HC1|reflexivity]. }
  split; intros; exact Hvoid.
Qed.

Lemma return_sim : forall e, sspec (SReturn (Some e)).
Proof.
  intros e. apply (expr_stmt _ e c0 (mkI OP_RET []) [] _ _ (Nat.le_succ_diag_r c0) (fun lr sl k0 => sc_Return path c0 lr sl k0 e) (fun fuel env s => exec_SReturn fuel env e s)).
  intros il B B' rets Hk. cbn [kstmt] in Hk. destruct (kexpr SF B CD e) as [k|] eqn:Ee; [|discriminate]. injection Hk as <- <-.
  exists k. split; [reflexivity|].
  intros b1 lr sl bt ct kp a1 g1 env s1 Hb Hi _ Hip1 HC1. apply code_at_cons in Hi as [Hi1 _]. split; [|intros; exact Logic.I].
  intros v w Hops1 _ Hv1. split; [apply same_tl_refl; exact (Cl_ne HC1)|].
  apply (retpost_here (ov := Some v) HC1); [rewrite Hip1; exact Hi1|]. exists w, k. split; [exact Hops1|]. split; [exact Hv1|now left].
Qed.
Lemma return_none_sim : sspec (SReturn None).
Proof.
  intros b B lr il sl bt ct k0 fuel kp a g env s B' rets Hfu Hk Hb Hinst Hc Hend Hlc Hlrk Hip Hcb Hops Hss HC.
  cbn [kstmt] in Hk. injection Hk as <- <-. destruct fuel as [|fuel]; [exact Logic.I|].
  cbn [sc fst] in Hc. apply items_at_cons in Hc as [Hi _]. cbn [item_instr I] in Hi.
  change (Eval.exec (S fuel) env (SReturn None) s) with (SOk (SigReturn None) env s). split; [apply same_tl_refl; exact (Cl_ne HC)|].
  apply (retpost_here (ov := None) HC); [rewrite Hip; exact Hi|]. split; [exact Hops|now left].
Qed.

Lemma assert_sim : forall e sp, sspec (SAssert e sp).
Proof.
  intros e sp. apply (expr_stmt _ e c0 (mkI OP_ASSERT [sp]) [] _ _ (Nat.le_succ_diag_r c0) (fun lr sl k0 => sc_Assert path c0 lr sl k0 e sp) (fun fuel env s => exec_SAssert fuel env e sp s)).
  intros il B B' rets Hk. cbn [kstmt] in Hk. destruct (kexpr SF B CD e) as [[|? ?|]|] eqn:Ee; try discriminate. cbn [is_KD] in Hk. injection Hk as <- <-.
  exists KD. split; [reflexivity|].
  intros b1 lr sl bt ct kp a1 g1 env s1 Hb Hi _ Hip1 HC1. apply code_at_cons in Hi as [Hi1 _]. split; [|intros; exact Logic.I].
  intros v w Hops1 _ [Hfo ->].
  set (i1 := mkI OP_ASSERT [sp]) in *. assert (Hi1' : nth_error code (a_ip a1) = Some i1) by (rewrite Hip1; exact Hi1).
  pose proof (exec_assert sp a1 (trc name a1 g1 i1) (inj v) Hops1) as Hx.
  destruct v as [z|[|]|t| |p bd ev]; cbn [inj val_equals] in Hx; [| | | | |destruct Hfo].
  - exact (failed_step Hi1' (dec_assert sp) Hx (err_s_invalid_op 11) (cl_out HC1)).
  - apply (spost_done Hb (smid_next (a1 := set_ops a1 []) Hi1' (dec_assert sp) Hx ltac:(repeat split) eq_refl));
      [cbn [set_ip set_ops a_ip length]; lia|reflexivity|apply Cl_trc; exact HC1|reflexivity].
  - exact (failed_step (f := FAssert sp) Hi1' (dec_assert sp) Hx eq_refl (cl_out HC1)).
  - exact (failed_step Hi1' (dec_assert sp) Hx (err_s_invalid_op 11) (cl_out HC1)).
  - exact (failed_step (f := FType 11) Hi1' (dec_assert sp) Hx (or_intror (ex_intro _ sp eq_refl)) (cl_out HC1)).
Qed.

Lemma opassign_sim : forall x o e, sspec (SOpAssign x o e).
Proof.
  intros x o e. apply (expr_stmt _ e (S c0) (mkI OP_BIN_OP_ASSIGN [binop_sym o ++ [61%N]; x]) [mkI OP_VOID []] _ _ (le_n _)
                        (fun lr sl k0 => sc_OpAssign path c0 lr sl k0 x o e) (fun fuel env s => exec_SOpAssign fuel env x o e s)).
  intros il B B' rets Hk. cbn [kstmt] in Hk.
  destruct (arith5 o && src_nameb x && is_KD (kvar B CD x) && is_KD (kexpr SF B CD e)) eqn:Hcnd; [|discriminate].
  rewrite !andb_true_iff in Hcnd. destruct Hcnd as [[[Ho Hsx] Hkx] Hke]. injection Hk as <- <-.
  apply is_KD_eq in Hkx, Hke. exists KD. split; [exact Hke|].
  intros b1 lr sl bt ct kp a1 g1 env s1 Hb Hi _ Hip1 HC1. apply code_at_cons in Hi as [Hi1 Hi]. apply code_at_cons in Hi as [Hi2 _].
  split; [|intros; exact Logic.I]. intros v w Hops1 Hcb1 [Hfo ->].
  set (i1 := mkI OP_BIN_OP_ASSIGN [binop_sym o ++ [61%N]; x]) in *. set (g1t := trc name a1 g1 i1).
  assert (Hi1' : nth_error code (a_ip a1) = Some i1) by (rewrite Hip1; exact Hi1).
  assert (HC1t : ClA b1 B env s1 g1t) by exact (Cl_trc HC1).
  destruct (var_cell HC1t Hb Hkx) as (Hx & c & c' & cur_ & wc & A1 & A3 & Hbc & A4 & A5 & [Hfc ->]).
  rewrite A1, A4.
  pose proof (exec_bin_op_assign (binop_sym o ++ [61%N]) x a1 g1t c' (inj v) (inj cur_) (A3 a1 Hcb1) Hops1 A5) as Hx1.
  rewrite (op_base_arith5 o Ho) in Hx1.
  pose proof (binop_agree o cur_ v s1 (arith5_arith_op o Ho)) as Hag.
  pose proof (arith5_not_bool o cur_ v s1) as Hnb.
  destruct (binop_sem o cur_ v s1) as [r s2|s2|f s2|]; try contradiction.
  - destruct Hag as (-> & Hfr & Hbo). rewrite Hbo in Hx1. specialize (Hnb r s1 Ho eq_refl).
    assert (Hx2 : exec_d (DBinOpAssign (binop_sym o ++ [61%N]) x) a1 g1t = SNext (set_ops a1 [inj r]) (cell_set g1t c' (inj r))).
    { rewrite Hx1. destruct (inj r); try reflexivity. contradiction. }
    set (g2 := cell_set g1t c' (inj r)). set (a2 := upd a1 (S (a_ip a1)) [inj r]).
    apply (spost_done (a' := upd a2 (S (a_ip a2)) []) (g' := trc name a2 g2 (mkI OP_VOID [])) (b' := b1) Hb);
      [|cbn [a2 upd set_ip a_ip length]; lia|reflexivity| |reflexivity].
    + constructor; [|exact (adv_set Hbc)|reflexivity|repeat split|apply le_n].
      eapply xrun_trans; [exact (xstep_next prog name code a1 g1 i1 _ (a_ip a1) _ _ eq_refl Hi1' (dec_bin_op_assign _ _) Hx2)|].
      eapply (xstep_next prog name code a2 g2 _ _ (a_ip a2) (set_ops a2 [])); [reflexivity| |apply dec_void|apply exec_void].
      cbn [a2 upd set_ip a_ip]. rewrite Hip1. atp Hi2.
    + apply Cl_trc. apply (Cl_update path prog P cb CD base name SF b1 B env s1 g1t c c' KD r (inj r) HC1t Hbc). split; [exact Hfr|reflexivity].
  - destruct Hag as (-> & e0 & Hbo & Hrel). rewrite Hbo in Hx1.
    exact (failed_step Hi1' (dec_bin_op_assign _ _) Hx1 (err_rel_s_of _ _ Hrel) (cl_out HC1)).
Qed.

Lemma jump_out : forall {b B env s a g} tgt n, nth_error code (a_ip a) = Some (mkI OP_JMP_POP [sN (tgt - a_ip a); sN n]) -> ClA b B env s g ->
  a_ip a <= tgt -> tgt < length code -> n + a_ip a <= length code -> n < length (locals env) ->
  exists g2, jmid b s a g b s (set_ip a tgt) g2 /\ ClA b [] (popn n env) s g2 /\ frames g2 = skipn n (frames g).
Proof.
  intros b B env s a g tgt n Hi HC Ht Htl Hn Hnl. set (i1 := mkI OP_JMP_POP [sN (tgt - a_ip a); sN n]) in *.
  destruct (Cl_popn path prog P cb CD base name SF n b B env s (trc name a g i1) (Cl_trc HC) Hnl) as (g2 & Hpop & HC2 & Hfr2 & Hc2 & _).
  exists g2. split; [|split; [exact HC2|exact Hfr2]].
  apply jmid_intro; [|apply adv_same; [reflexivity|exact Hc2]|repeat split|apply le_n].
  eapply (xstep_gotopop prog name code a g i1 _ (a_ip a) _ n a); [reflexivity|exact Hi| |apply exec_jmp_pop| |exact Hpop].
  - apply dec_jmp_pop2; eapply small_le; [|exact Hsmall| |exact Hsmall]; lia.
  - rewrite goto_fwd by lia. f_equal. lia.
Qed.

Lemma break_sim : sspec SBreak.
Proof.
  intros b B lr il sl bt ct k0 fuel kp a g env s B' rets Hfu Hk Hb Hinst Hc Hend Hlc Hlrk Hip Hcb Hops Hss HC.
  cbn [kstmt] in Hk. destruct il; [|discriminate]. injection Hk as <- <-.
  destruct Hlc as [Hsl Hlc]. specialize (Hsl eq_refl). destruct sl as [m|]; [|congruence].
  destruct (Hlc m eq_refl) as (Hm1 & Hm2 & Hct & Hbt & Hlen & Hmc).
  destruct fuel as [|fuel]; [exact Logic.I|].
  cbn [sc fst length sln] in Hc, Hm2, Hct, Hbt, Hmc |- *. apply items_at_cons in Hc as [Hi _]. cbn [item_instr] in Hi. subst kp.
  change (Eval.exec (S fuel) env SBreak s) with (SOk SigBreak env s).
  destruct (jump_out bt m Hi HC ltac:(lia) Hlen ltac:(lia) Hm2) as (g2 & J & HC2 & Hfr2).
  split; [apply same_tl_refl; exact (Cl_ne HC)|]. exists m, (set_ip a bt), g2, b. auto 10.
Qed.
Lemma continue_sim : sspec SContinue.
Proof.
  intros b B lr il sl bt ct k0 fuel kp a g env s B' rets Hfu Hk Hb Hinst Hc Hend Hlc Hlrk Hip Hcb Hops Hss HC.
  cbn [kstmt] in Hk. destruct il; [|discriminate]. injection Hk as <- <-.
  destruct Hlc as [Hsl Hlc]. specialize (Hsl eq_refl). destruct sl as [m|]; [|congruence].
  destruct (Hlc m eq_refl) as (Hm1 & Hm2 & Hct & Hbt & Hlen & Hmc).
  destruct fuel as [|fuel]; [exact Logic.I|].
  cbn [sc fst length sln] in Hc, Hm2, Hct, Hbt, Hmc |- *. apply items_at_cons in Hc as [Hi _]. cbn [item_instr] in Hi. subst kp.
  change (Eval.exec (S fuel) env SContinue s) with (SOk SigContinue env s).
  destruct (jump_out ct (m - 1) Hi HC ltac:(lia) ltac:(lia) ltac:(lia) ltac:(lia)) as (g2 & J & HC2 & Hfr2).
  split; [apply same_tl_refl; exact (Cl_ne HC)|]. exists m, (set_ip a ct), g2, b.
  split; [reflexivity|]. split; [exact Hm1|]. split; [exact J|]. split; [reflexivity|]. split; [exact Hops|]. split; [exact HC2|].
  split; [rewrite Hfr2, tl_skipn; f_equal; lia|apply lkeep_eq; exact Hfr2].
Qed.

Lemma sc_last : forall st il B B' rets c lr sl k, kstmt SF il B CD st = Some (B', rets) ->
  exists pre it, fst (sc path c lr sl k st) = pre ++ [it] /\ match it with CI i => op i = OP_RET -> isret st = true | _ => il = true end.
Proof.
  intros st il B B' rets c lr sl k H. destruct st; try discriminate.
  - rewrite sc_Assign. destruct (ec path c lr k e) as [ce fe]. exists (map CI ce), (I OP_STORE [x]). split; [reflexivity|discriminate].
  - rewrite sc_Modify. destruct (ec path c lr k e) as [ce fe]. exists (map CI ce), (I OP_STORE_OBJECT [x]). split; [reflexivity|discriminate].
  - rewrite sc_OpAssign. destruct (ec path (S c) lr k e) as [ce fe]. exists (map CI ce ++ [I OP_BIN_OP_ASSIGN [binop_sym o ++ [61%N]; x]]), (I OP_VOID []).
    split; [cbn [fst]; now rewrite <- app_assoc|discriminate].
  - rewrite sc_Print. destruct (ec path c lr k e) as [ce fe]. exists (map CI ce ++ [I OP_PRINTN [s_star]]), (I OP_VOID []).
    split; [cbn [fst]; now rewrite <- app_assoc|discriminate].
  - rewrite sc_Assert. destruct (ec path c lr k e) as [ce fe]. exists (map CI ce), (I OP_ASSERT [span]). split; [reflexivity|discriminate].
  - rewrite sc_Expr. destruct (ec path c lr k e) as [ce fe]. exists (map CI ce), (I OP_VOID []). split; [reflexivity|discriminate].
  - rewrite sc_SIf. destruct (ec path c lr k c1) as [cc fc]. destruct (bc path c lr (option_map S sl) (k + length fc) body) as [cb0 fb].
    eexists. exists (I OP_DONE []). split; [cbn [fst]; rewrite !app_assoc; reflexivity|discriminate].
  - rewrite sc_SIfElse. destruct (ec path c lr k c1) as [cc fc]. destruct (bc path c lr (option_map S sl) (k + length fc) body) as [cb0 fb].
    destruct (bc path c lr (option_map S sl) (k + length fc + length fb) els) as [ce0 fe].
    eexists. exists (I OP_DONE []). split; [cbn [fst]; rewrite app_comm_cons, !app_assoc; reflexivity|discriminate].
  - rewrite sc_SIfElif. destruct (ec path c lr k c1) as [cc fc]. destruct (bc path c lr (option_map S sl) (k + length fc) body) as [cb0 fb].
    destruct (sc path c lr (option_map S sl) (k + length fc + length fb) st) as [ce0 fe].
    eexists. exists (I OP_DONE []). split; [cbn [fst]; rewrite app_comm_cons, !app_assoc; reflexivity|discriminate].
  - rewrite sc_SWhile. destruct (ec path c lr k c1) as [cc fc]. destruct (bc path c lr (Some 1) (k + length fc) body) as [cb0 fb].
    cbn [fst]. unfold I. rewrite resolve_snoc_CI.
    eexists. eexists. split; [rewrite !app_assoc; reflexivity|discriminate].
  - rewrite sc_SFrom. cbv zeta.
    destruct (ec path c (from_lr1 lr name0) k a) as [ca fa]. destruct (ec path c (from_lr1 lr name0) (k + length fa) b) as [cb_ fb].
    destruct (bc path c (S (S (from_lr1 lr name0))) (Some 1) (k + length fa + length fb) body) as [cbody fbd].
    destruct (stepc path c (S (S (from_lr1 lr name0))) (k + length fa + length fb + length fbd) step) as [cs fs]. cbn [fst].
    destruct collide.
    + unfold I. rewrite resolve_snoc_CI, app_nil_r.
      eexists. eexists. split; [rewrite !app_assoc; reflexivity|discriminate].
    + eexists. exists (I OP_DELETE_NAME_SCOPED [from_idn lr name0; lregn (S (from_lr1 lr name0)); lregn (S (S (from_lr1 lr name0)))]).
      split; [rewrite !app_assoc; reflexivity|discriminate].
  - cbn [kstmt] in H. destruct il; [|discriminate]. exists [], (CBrk (sln sl)). split; reflexivity.
  - cbn [kstmt] in H. destruct il; [|discriminate]. exists [], (CCont (sln sl)). split; reflexivity.
  - destruct e as [e|].
    + rewrite sc_Return. destruct (ec path c lr k e) as [ce fe]. exists (map CI ce), (I OP_RET []). split; [reflexivity|intros _; reflexivity].
    + exists [], (I OP_RET []). split; [reflexivity|intros _; reflexivity].
Qed.

Lemma bspec_of : forall l, Forall sspec l -> bspec l.
Proof.
  induction l as [|st l IH]; intros HF b B lr il sl bt ct k0 fuel kp a g env s B' rets Hfu Hk Hb Hinst Hc Hend Hlc Hlrk Hip Hcb Hops Hss HC.
  - destruct fuel as [|fuel]; [exact Logic.I|]. rewrite exec_block_nil. cbn [kblock] in Hk. injection Hk as <- <-.
    cbn [bc fst length]. apply (spost_done Hb (smid_refl b s a g)); [lia|exact Hops|exact HC|reflexivity].
  - pose proof (Forall_inv HF) as Hst. pose proof (Forall_inv_tail HF) as Hl. specialize (IH Hl).
    destruct fuel as [|fuel]; [exact Logic.I|]. rewrite exec_block_cons.
    cbn [kblock] in Hk. destruct (kstmt SF il B CD st) as [[B1 r1]|] eqn:Es; [|discriminate].
    destruct (kblock SF il B1 CD l) as [[B3 r2]|] eqn:El; [|discriminate]. injection Hk as <- <-.
    rewrite bc_cons in Hinst, Hc, Hend, Hlc |- *. destruct (sc path c0 lr sl k0 st) as [cs fs] eqn:Esc.
    destruct (bc path c0 lr sl (k0 + length fs) l) as [cl fl] eqn:Ebc. cbn [fst snd] in *. rewrite app_length in *.
    apply (installed_app prog) in Hinst as [Hin1 Hin2]. apply items_at_app in Hc as [Hc1 Hc2].
    assert (Hle : kp + length cs + length cl <= length code) by (destruct Hend as [H|[_ H]]; lia).
    (* the statement ends inside the code unless it is the last one *)
    assert (Hend1 : endok code (kp + length cs) (isret st)).
    { destruct l as [|st2 l2].
      - cbn [bc] in Ebc. injection Ebc as <- <-. cbn [length endsret] in Hend. rewrite Nat.add_0_r in Hend. exact Hend.
      - left. cbn [kblock] in El. destruct (kstmt SF il B1 CD st2) as [[B2 rr]|] eqn:Es2; [|discriminate].
        destruct (sc_last st2 il B1 B2 rr c0 lr sl (k0 + length fs) Es2) as (pre & it & Hp & _). rewrite bc_cons in Ebc.
        destruct (sc path c0 lr sl (k0 + length fs) st2) as [cs2 fs2]. destruct (bc path c0 lr sl (k0 + length fs + length fs2) l2) as [cl2 fl2].
        injection Ebc as <- <-. cbn [fst] in Hp. subst cs2. rewrite !app_length in Hle. cbn [length] in Hle. lia. }
    assert (Hend2 : endok code (kp + length cs + length cl) (endsret l)).
    { destruct l as [|st2 l2]; [|rewrite Nat.add_assoc in Hend; exact Hend].
      cbn [bc] in Ebc. injection Ebc as <- <-. cbn [length endsret] in *.
      destruct (Nat.eq_dec (kp + length cs + 0) (length code)); [right; auto|left; lia]. }
    pose proof (Hst b B lr il sl bt ct k0 fuel kp a g env s B1 r1 ltac:(lia) Es Hb) as H1. rewrite Esc in H1. cbn [fst snd] in H1.
    specialize (H1 Hin1 Hc1 Hend1 ltac:(eapply (lc_ok_mono code); [exact Hlc|lia|reflexivity]) Hlrk Hip Hcb Hops Hss HC).
    destruct (Eval.exec fuel env st s) as [sig env1 s1|f s1|]; [|exact H1|exact Logic.I].
    destruct sig as [| | |rv];
      try (eapply (spost_rets (rets := r1)); [intros k Hk0; apply in_or_app; now left|intros; discriminate|exact H1]).
    cbn [spost] in H1. destruct H1 as (Hd & HB1 & a1 & g1 & b1 & SM1 & Hip1 & Hops1 & HC1 & LK1).
    pose proof (same_tl_length _ _ (Cl_ne HC) Hd) as Hlen1.
    pose proof (IH b1 B1 lr il sl bt ct (k0 + length fs) fuel (kp + length cs) a1 g1 env1 s1 B3 r2 ltac:(lia) El HB1) as H2.
    rewrite Ebc in H2. cbn [fst snd] in H2.
    specialize (H2 Hin2 Hc2 Hend2 ltac:(eapply (lc_ok_mono code); [exact Hlc|lia|exact Hlen1]) ltac:(eapply lrok_mono; [exact Hlrk|lia]) Hip1
                   (smid_cb SM1 Hcb) Hops1 ltac:(pose proof (smid_ss SM1); lia) HC1).
    rewrite Nat.add_assoc. eapply spost_seq; [exact SM1|exact LK1|exact Hd|].
    destruct (exec_block fuel env1 l s1) as [sig2 env2 s2|f2 s2|]; [|exact H2|exact Logic.I].
    destruct sig2 as [| | |rv2]; [exact H2| | |];
      (eapply (spost_rets (rets := r2)); [intros k Hk0; apply in_or_app; now right|intros; discriminate|exact H2]).
Qed.

Lemma Cl_names : forall {b b' B env s g}, ClA b B env s g -> cinj_le b b' ->
  forall x k, assoc x B = Some k -> uname0 x /\ exists c c', lookup_scopes x (locals env) = Some c /\ b' c c' k.
Proof.
  intros b b' B env s g HC Hle x k E. destruct (cl_B HC x k E) as (Hx & c & c' & A1 & _ & A3).
  split; [exact Hx|]. exists c, c'. split; [exact A1|exact (Hle _ _ _ A3)].
Qed.
(* the end of a block, still inside its frame: the names of B have kept their cells (Cl_names, from the relation before the
   block); whatever the block declared goes with its scope *)
Lemma Cl_body_end : forall {b2 B env env2 s2 g2}, ClA b2 [] env2 s2 g2 -> tl (locals env2) = locals env -> locals env <> [] ->
  bound2 B env -> (forall x k, assoc x B = Some k -> uname0 x /\ exists c c', lookup_scopes x (locals env) = Some c /\ b2 c c' k) ->
  ClA b2 B env2 s2 g2 /\ ClA b2 B (pop_scope env2) s2 (with_frames g2 (tl (frames g2))).
Proof.
  intros b2 B env env2 s2 g2 HC2 Htl Hne Hb HB.
  destruct (locals env2) as [|sc2 l2] eqn:El2; cbn [tl] in Htl; [congruence|]. subst l2.
  assert (HCB : ClA b2 B env2 s2 g2).
  { apply (Cl_B_of path prog P cb CD base name SF b2 B env2 s2 g2 HC2). intros x k E. destruct (HB x k E) as (Hx & c & c' & A1 & A2).
    split; [exact Hx|]. exists c, c'. split; [|exact A2]. rewrite El2.
    apply NS_lookup_tl; [rewrite <- El2; exact (cl_ns HC2)|exact (proj2 (proj2 Hx))|exact A1]. }
  split; [exact HCB|]. destruct (Cl_frames HC2) as (f2 & fs2 & Ef2). rewrite Ef2. cbn [tl].
  apply (Cl_pop path prog P cb CD base name SF b2 B B env2 s2 g2 sc2 (locals env) f2 fs2 HCB El2 Hne Ef2).
  intros x k Hx. split; [exact Hx|]. apply (bound2_look _ _ _ Hb). apply assoc_keys. congruence.
Qed.

(* a block in a frame of its own (the branches of if / else), from the push of the frame lb on; `done` pops it *)
Lemma in_block_sim : forall {body}, bspec body -> forall fuel kb a g {b B lr il sl bt ct k0 a0 g0 env s lb B' rets cb0 fb},
  bc path c0 lr (option_map S sl) k0 body = (cb0, fb) ->
  fuel <= FU -> kblock SF il B CD body = Some (B', rets) -> bound2 B env -> installed fb ->
  items_at code bt ct kb (cb0 ++ [I OP_DONE []]) -> kb + length cb0 + 1 < length code -> lcok il sl bt ct env (kb + length cb0 + 1) -> lrok lr kb ->
  xrun prog name code a0 g0 (set_ss a (S (a_ss a))) (push_frame g lb) -> frames g = frames g0 -> cells g = cells g0 ->
  act_same a0 a -> a_ss a = a_ss a0 ->
  a_ip a = kb -> a_cb a = cb -> a_ops a = [] -> length (locals env) <= S (a_ss a) -> ClA b B env s g -> special lb = true ->
  spost b B rets lr sl bt ct (kb + length cb0 + 1) env s a0 g0 (in_block_ fuel body env s).
Proof.
  intros body Hbody fuel kb a g b B lr il sl bt ct k0 a0 g0 env s lb B' rets cb0 fb Ebc Hfu Hk Hb Hinst Hc Hend Hlc Hlrk
         Rp Ef0 Ec0 Ha0 Hs0 Hip Hcb Hops Hss HC Hlb.
  apply items_at_app in Hc as [Hcb0 Hid]. apply items_at_cons in Hid as [Hid _]. cbn [item_instr I] in Hid.
  set (ap := set_ss a (S (a_ss a))) in *. set (gp := push_frame g lb) in *.
  pose proof (Hbody b B lr il (option_map S sl) bt ct k0 fuel kb ap gp (push_scope env) s B' rets Hfu Hk (bound2_push _ _ Hb)) as H.
  rewrite Ebc in H. cbn [fst snd] in H.
  specialize (H Hinst Hcb0 ltac:(left; lia) ltac:(eapply lcok_block; [exact Hlc|lia]) Hlrk Hip Hcb Hops
                ltac:(cbn [push_scope locals length ap set_ss a_ss]; lia) (Cl_push path prog P cb CD base name SF b B env s g lb HC Hlb)).
  assert (J0 : jmid b s a0 g0 b s ap gp).
  { apply jmid_intro; [exact Rp|apply adv_same; [reflexivity|exact Ec0]|exact Ha0|cbn [ap set_ss a_ss]; lia]. }
  pose proof (Cl_ne HC) as Hne. unfold in_block_.
  destruct (exec_block fuel (push_scope env) body s) as [sig env2 s2|f s2|]; [|exact (failed_run Rp H)|exact Logic.I].
  cbn [spost] in H |- *. destruct H as [[Htl Hne2] H]. cbn [push_scope locals tl] in Htl.
  split; [split; cbn [pop_scope locals]; rewrite Htl; [reflexivity|exact Hne]|].
  destruct sig as [| | |ov].
  - destruct H as (HB2 & a2 & g2 & b2 & SM2 & Hip2 & Hops2 & HC2 & _).
    set (i1 := mkI OP_DONE []) in *. set (g2t := trc name a2 g2 i1).
    assert (HC2t : ClA b2 B' env2 s2 g2t) by exact (Cl_trc HC2).
    destruct (Cl_frames HC2t) as (f2 & fs2 & Ef2).
    assert (Efs : fs2 = frames g) by (pose proof (smid_tl SM2) as T2; change (frames g2) with (frames g2t) in T2; rewrite Ef2 in T2; exact T2).
    subst fs2. pose proof (smid_ss SM2) as S2. cbn [ap set_ss a_ss] in S2. destruct (a_ss a2) as [|ss2] eqn:Ess2; [lia|].
    split; [eapply bound2_eq; [exact Hb|exact Htl]|].
    exists (set_ip (set_ss a2 ss2) (S (a_ip a2))), (with_frames g2t (frames g)), b2.
    split; [|split; [cbn [set_ip a_ip]; lia|split; [exact Hops2|split; [|apply lkeep_eq; exact Ef0]]]].
    + pose proof (jmid_trans J0 (jmid_of_smid SM2)) as J.
      constructor; [eapply xrun_trans; [exact (jmid_run J)|]|exact (jmid_adv J)|cbn [with_frames frames]; now rewrite Ef0|
                    exact (proj1 (jmid_act J))|cbn [set_ip set_ss a_ss]; lia].
      eapply (xstep_popscope prog name code a2 g2 i1 _ (kb + length cb0) a2 _ ss2); [exact Hip2|exact Hid|apply dec_done|apply exec_done|exact Ess2|].
      unfold pop_frame. fold g2t. rewrite Ef2. reflexivity.
    + destruct (Cl_body_end (Cl_weaken HC2t) Htl Hne Hb (Cl_names HC (proj1 (proj1 (smid_adv SM2))))) as [_ HC3].
      rewrite Ef2 in HC3. exact HC3.
  - destruct H as (m' & a2 & g2 & b2 & Hsl & _ & J & Hip2 & Hops2 & HC2 & Hf2).
    destruct sl as [m|]; [|discriminate]. cbn [option_map] in Hsl. injection Hsl as <-.
    destruct (proj2 Hlc m eq_refl) as (Hm1 & _).
    exists m, a2, g2, b2. split; [reflexivity|]. split; [exact Hm1|]. split; [exact (jmid_trans J0 J)|].
    split; [exact Hip2|]. split; [exact Hops2|]. split; [rewrite popn_S_pop; exact HC2|]. rewrite Hf2, <- Ef0. reflexivity.
  - destruct H as (m' & a2 & g2 & b2 & Hsl & _ & J & Hip2 & Hops2 & HC2 & Hf2 & LK2).
    destruct sl as [m|]; [|discriminate]. cbn [option_map] in Hsl. injection Hsl as <-.
    destruct (proj2 Hlc m eq_refl) as (Hm1 & _). destruct m as [|m0]; [lia|]. cbn [Nat.sub] in HC2, LK2.
    exists (S m0), a2, g2, b2. split; [reflexivity|]. split; [exact Hm1|]. split; [exact (jmid_trans J0 J)|].
    split; [exact Hip2|]. split; [exact Hops2|]. cbn [Nat.sub]. rewrite Nat.sub_0_r.
    split; [rewrite popn_S_pop; exact HC2|]. rewrite <- Ef0. split; [rewrite Hf2; reflexivity|exact LK2].
  - exact (retpost_seq Rp (jmid_adv J0) (fun k Hk0 => Hk0) H).
Qed.

Lemma test_step : forall (wh : bool) off {b B env s a g v},
  let i := mkI (if wh then OP_WHILE_LOOP else OP_IF_STMT) [sN off] in
  nth_error code (a_ip a) = Some i -> a_ip a + off < length code -> a_ops a = [inj v] -> first_order v -> ClA b B env s g ->
  match v with
  | RBool true => xrun prog name code a g (set_ss (upd a (S (a_ip a)) []) (S (a_ss a))) (push_frame (trc name a g i) (if wh then LWhile else LIf))
  | RBool false => smid b s a g b s (set_ip (set_ops a []) (a_ip a + off)) (trc name a g i)
  | _ => failed a g (FType 12) s
  end.
Proof.
  intros wh off b B env s a g v i Hi Hlt Hops Hfo HC. set (g1 := trc name a g i).
  assert (Hs : small off) by (eapply small_le; [|exact Hsmall]; lia).
  assert (X : exists dI, decode i = DOk dI /\
             (forall bv, a_ops a = [VBool bv] -> exec_d dI a g1 = if bv then SPush (if wh then LWhile else LIf) (set_ops a []) g1
                                                                else SGoto (Z.of_nat off) (set_ops a []) g1) /\
             (forall v', a_ops a = [v'] -> (forall bv, v' <> VBool bv) -> exec_d dI a g1 = SFail E_not_bool)).
  { destruct wh; [exists (DWhile (Z.of_nat off))|exists (DIf (Z.of_nat off))].
    - split; [exact (dec_while off Hs)|]. split; [intros bv; apply exec_while|intros v'; apply exec_while_nb].
    - split; [exact (dec_if off Hs)|]. split; [intros bv; apply exec_if|intros v'; apply exec_if_nb]. }
  destruct X as (dI & Hd & Hx & Hnb).
  destruct v as [z|[|]|t| |p bd ev]; [| | | | |destruct Hfo]; cbn [inj] in Hops;
    try exact (failed_step Hi Hd (Hnb _ Hops ltac:(intros bv; discriminate)) (err_s_not_bool 12) (cl_out HC)).
  - exact (xstep_push prog name code a g i dI (a_ip a) _ (set_ops a []) g1 eq_refl Hi Hd (Hx true Hops)).
  - exact (smid_goto Hi Hd (Hx false Hops) (goto_fwd _ _ _ Hlt) ltac:(repeat split) eq_refl).
Qed.

Lemma spost_fin : forall b B rets lr sl bt ct fin fin' env s a g r, fin = fin' ->
  spost b B rets lr sl bt ct fin env s a g r -> spost b B rets lr sl bt ct fin' env s a g r.
Proof. intros b B rets lr sl bt ct fin fin' env s a g r <- H. exact H. Qed.
Arguments spost_fin {b B rets lr sl bt ct} fin {fin' env s a g r}.

Lemma spost_jmp : forall {b B rets lr sl bt ct fin1 off env s a g r}, nth_error code fin1 = Some (mkI OP_JMP [sN off]) -> small off ->
  fin1 + off < length code -> spost b B rets lr sl bt ct fin1 env s a g r -> spost b B rets lr sl bt ct (fin1 + off) env s a g r.
Proof.
  intros b B rets lr sl bt ct fin1 off env s a g r Hi Hs Hlt H. destruct r as [[| | |ov] env' s'|f s'|]; try exact H.
  destruct H as (Hd & HB & a' & g' & b' & M & Hip & Hops & HC & LK). subst fin1.
  apply (spost_normal (a' := set_ip a' (a_ip a' + off)) (g' := trc name a' g' (mkI OP_JMP [sN off])) (b' := b') Hd HB);
    [|reflexivity|exact Hops|apply Cl_trc; exact HC|exact LK].
  eapply smid_trans; [exact M|]. exact (smid_goto Hi (dec_jmp off Hs) (exec_jmp _ _ _) (goto_fwd _ _ _ Hlt) (act_same_refl a') eq_refl).
Qed.

Lemma if_sim : forall cnd body, bspec body -> sspec (SIf cnd body).
Proof.
  intros cnd body Hbody b B lr il sl bt ct k0 fuel kp a g env s B' rets Hfu Hk Hb Hinst Hc Hend Hlc Hlrk Hip Hcb Hops Hss HC.
  destruct Hend as [Hend|[Hend _]]; [|discriminate Hend].
  rewrite kstmt_SIf in Hk. destruct (kexpr SF B CD cnd) as [[|? ?|]|] eqn:Ec; try discriminate. cbn [is_KD] in Hk.
  destruct (kblock SF il B CD body) as [[B1 rb]|] eqn:Eb; [|discriminate]. injection Hk as <- <-.
  destruct fuel as [|fuel]; [exact Logic.I|]. rewrite exec_SIf.
  rewrite sc_SIf in Hinst, Hc, Hend, Hlc |- *. destruct (ec path c0 lr k0 cnd) as [cc fc] eqn:Eec.
  destruct (bc path c0 lr (option_map S sl) (k0 + length fc) body) as [cb0 fb] eqn:Ebc. cbn [fst snd] in *. cbv zeta in *.
  rewrite !app_length, ?map_length in *. cbn [length] in *.
  apply (installed_app prog) in Hinst as [Hin1 Hin2].
  apply (after_expr fuel Eec ltac:(lia) Ec Hb Hin1 ltac:(lia) Hc ltac:(lia) Hip Hcb Hops HC).
  apply items_at_app in Hc as [_ Hi]. rewrite map_length in Hi. apply items_at_cons in Hi as [Hi1 Hib]. cbn [item_instr I] in Hi1.
  destruct (eval fuel env cnd s) as [v s1|s1|f s1|]; [|intros; exact Logic.I|reflexivity|reflexivity].
  intros a1 g1 b1 w _ Hip1 Hops1 Hcb1 Hss1 HC1 [Hfo ->].
  set (k1 := kp + length cc) in *. set (off := length cb0 + 1 + 1) in *.
  pose proof (test_step false off ltac:(rewrite Hip1; exact Hi1) ltac:(unfold off; lia) Hops1 Hfo HC1) as Ht.
  destruct v as [z|[|]|t| |p bd ev]; try exact Ht.
  - apply (spost_fin (S k1 + length cb0 + 1)); [unfold k1; lia|].
    apply (in_block_sim Hbody fuel (S k1) (upd a1 (S (a_ip a1)) []) (trc name a1 g1 (mkI OP_IF_STMT [sN off])) Ebc
             ltac:(lia) Eb Hb Hin2 ltac:(atp Hib) ltac:(unfold k1; lia) ltac:(eapply (lc_ok_mono code); [exact Hlc|unfold k1; lia|reflexivity])
             ltac:(eapply lrok_mono; [exact Hlrk|unfold k1; lia]) Ht eq_refl eq_refl ltac:(repeat split) eq_refl
             ltac:(cbn [upd set_ip a_ip]; unfold k1; lia) Hcb1 eq_refl ltac:(cbn [upd set_ip set_ops a_ss]; rewrite Hss1; exact Hss) (Cl_trc HC1) eq_refl).
  - apply (spost_done Hb Ht); [cbn [set_ip a_ip]; unfold off; lia|reflexivity|apply Cl_trc; exact HC1|reflexivity].
Qed.

Lemma ifelse_sim : forall cnd body els, bspec body -> bspec els -> sspec (SIfElse cnd body els).
Proof.
  intros cnd body els Hbody Hels b B lr il sl bt ct k0 fuel kp a g env s B' rets Hfu Hk Hb Hinst Hc Hend Hlc Hlrk Hip Hcb Hops Hss HC.
  destruct Hend as [Hend|[Hend _]]; [|discriminate Hend].
  rewrite kstmt_SIfElse in Hk. destruct (kexpr SF B CD cnd) as [[|? ?|]|] eqn:Ec; try discriminate. cbn [is_KD] in Hk.
  destruct (kblock SF il B CD body) as [[B1 rb]|] eqn:Eb; [|discriminate].
  destruct (kblock SF il B CD els) as [[B2 re]|] eqn:Ee; [|discriminate]. injection Hk as <- <-.
  destruct fuel as [|fuel]; [exact Logic.I|]. rewrite exec_SIfElse.
  rewrite sc_SIfElse in Hinst, Hc, Hend, Hlc |- *. destruct (ec path c0 lr k0 cnd) as [cc fc] eqn:Eec.
  destruct (bc path c0 lr (option_map S sl) (k0 + length fc) body) as [cb0 fb] eqn:Ebc.
  destruct (bc path c0 lr (option_map S sl) (k0 + length fc + length fb) els) as [ce0 fe] eqn:Ebe. cbn [fst snd] in *. cbv zeta in *.
  rewrite !app_length, ?map_length in *. cbn [length] in *. rewrite !app_length in *. cbn [length] in *.
  apply (installed_app prog) in Hinst as [Hin1 Hin2]. apply (installed_app prog) in Hin2 as [Hin2 Hin3].
  apply (after_expr fuel Eec ltac:(lia) Ec Hb Hin1 ltac:(lia) Hc ltac:(lia) Hip Hcb Hops HC).
  apply items_at_app in Hc as [_ Hi]. rewrite map_length in Hi. apply items_at_cons in Hi as [Hi1 Hi]. cbn [item_instr I] in Hi1.
  apply items_at_app in Hi as [Hib Hi]. rewrite app_length in Hi. cbn [length] in Hi.
  apply items_at_cons in Hi as [Hi2 Hi]. apply items_at_cons in Hi as [Hi3 Hie]. cbn [item_instr I] in Hi2, Hi3.
  destruct (eval fuel env cnd s) as [v s1|s1|f s1|]; [|intros; exact Logic.I|reflexivity|reflexivity].
  intros a1 g1 b1 w _ Hip1 Hops1 Hcb1 Hss1 HC1 [Hfo ->].
  set (k1 := kp + length cc) in *. set (kj := S k1 + (length cb0 + 1)) in *. set (ke := S kj) in *.
  set (off := length cb0 + 1 + 2) in *. set (offj := S (length ce0 + 1) + 1) in *. set (g1t := trc name a1 g1 (mkI OP_IF_STMT [sN off])).
  pose proof (test_step false off ltac:(rewrite Hip1; exact Hi1) ltac:(unfold off; lia) Hops1 Hfo HC1) as Ht.
  destruct v as [z|[|]|t| |p bd ev]; try exact Ht.
  -
    apply (spost_mono (rets := rb)); [intros k Hk0; apply in_or_app; now left|].
    apply (spost_fin (kj + offj)); [unfold kj, offj, k1; lia|].
    apply spost_jmp; [atp Hi2|eapply small_le; [|exact Hsmall]; unfold offj; lia|unfold kj, offj, k1; lia|].
    apply (spost_fin (S k1 + length cb0 + 1)); [unfold kj; lia|].
    apply (in_block_sim Hbody fuel (S k1) (upd a1 (S (a_ip a1)) []) g1t Ebc
             ltac:(lia) Eb Hb Hin2 ltac:(atp Hib) ltac:(unfold kj, k1; lia) ltac:(eapply (lc_ok_mono code); [exact Hlc|unfold kj, k1; lia|reflexivity])
             ltac:(eapply lrok_mono; [exact Hlrk|unfold k1; lia]) Ht eq_refl eq_refl ltac:(repeat split) eq_refl
             ltac:(cbn [upd set_ip a_ip]; unfold k1; lia) Hcb1 eq_refl ltac:(cbn [upd set_ip set_ops a_ss]; rewrite Hss1; exact Hss) (Cl_trc HC1) eq_refl).
  -
    apply (spost_mono (rets := re)); [intros k Hk0; apply in_or_app; now right|].
    set (a2 := set_ip (set_ops a1 []) ke). set (ie := mkI OP_ELSE_STMT []) in *. set (g2t := trc name a2 g1t ie).
    assert (Rp : xrun prog name code a1 g1 (set_ss (set_ip a2 (S ke)) (S (a_ss (set_ip a2 (S ke))))) (push_frame g2t LElse)).
    { replace (a_ip a1 + off) with ke in Ht by (unfold off, ke, kj, k1; lia). eapply xrun_trans; [exact (smid_run Ht)|].
      eapply (xstep_push prog name code a2 g1t ie _ ke LElse a2); [reflexivity|atp Hi3|apply dec_else|apply exec_else]. }
    apply (spost_fin (S ke + length ce0 + 1)); [unfold ke, kj, k1; lia|].
    apply (in_block_sim Hels fuel (S ke) (set_ip a2 (S ke)) g2t Ebe
             ltac:(lia) Ee Hb Hin3 ltac:(atp Hie) ltac:(unfold ke, kj, k1; lia)
             ltac:(eapply (lc_ok_mono code); [exact Hlc|unfold ke, kj, k1; lia|reflexivity]) ltac:(eapply lrok_mono; [exact Hlrk|unfold ke, kj, k1; lia])
             Rp eq_refl eq_refl ltac:(repeat split) eq_refl eq_refl Hcb1 eq_refl ltac:(cbn [a2 set_ip set_ops a_ss]; rewrite Hss1; exact Hss)
             ltac:(do 2 apply Cl_trc; exact HC1) eq_refl).
Qed.

(* else if = else { the next statement } *)
Lemma sc_elif_else : forall c lr sl k cnd body nxt,
  sc path c lr sl k (SIfElif cnd body nxt) = sc path c lr sl k (SIfElse cnd body [nxt]).
Proof.
  intros. rewrite sc_SIfElif, sc_SIfElse. destruct (ec path c lr k cnd) as [cc fc].
  destruct (bc path c lr (option_map S sl) (k + length fc) body) as [cb0 fb]. cbn [bc].
  destruct (sc path c lr (option_map S sl) (k + length fc + length fb) nxt) as [ce0 fe]. now rewrite !app_nil_r.
Qed.
Lemma ifelif_sim : forall cnd body nxt, bspec body -> sspec nxt -> sspec (SIfElif cnd body nxt).
Proof.
  intros cnd body nxt Hbody Hn.
  assert (Hels : bspec [nxt]) by (apply bspec_of; constructor; [exact Hn|constructor]).
  pose proof (ifelse_sim cnd body [nxt] Hbody Hels) as H.
  intros b B lr il sl bt ct k0 fuel kp a g env s B' rets Hfu Hk Hb Hinst Hc Hend Hlc Hlrk Hip Hcb Hops Hss HC.
  assert (Ee : Eval.exec fuel env (SIfElif cnd body nxt) s = Eval.exec fuel env (SIfElse cnd body [nxt]) s).
  { destruct fuel; [reflexivity|]. rewrite exec_SIfElif, exec_SIfElse. reflexivity. }
  rewrite Ee. rewrite sc_elif_else in *. apply (H b B lr il sl bt ct k0 fuel kp a g env s B' rets Hfu); try assumption.
  rewrite kstmt_SIfElif in Hk. rewrite kstmt_SIfElse. destruct (is_KD (kexpr SF B CD cnd)); [|discriminate].
  destruct (kblock SF il B CD body) as [[B1 r1]|]; [|discriminate]. cbn [kblock].
  destruct (kstmt SF il B CD nxt) as [[B2 r2]|]; [|discriminate]. now rewrite app_nil_r.
Qed.

Lemma back_edge2 : forall {kj n k a2 g2}, nth_error code kj = Some (mkI OP_JMP_POP [neg_off n]) -> kj < length code ->
  kj = k + n -> a_ip a2 = kj -> frames g2 <> [] ->
  xrun prog name code a2 g2 (set_ip a2 k) (with_frames (trc name a2 g2 (mkI OP_JMP_POP [neg_off n])) (tl (frames g2))).
Proof.
  intros kj n k a2 g2 Hi Hkj Hk Hip Hne.
  set (i1 := mkI OP_JMP_POP [neg_off n]) in *.
  eapply (xstep_gotopop prog name code a2 g2 i1 _ kj _ 1 a2); [exact Hip|exact Hi| |apply exec_jmp_pop| |].
  - apply dec_jmp_pop_back. eapply small_le; [|exact Hsmall]. lia.
  - rewrite Hip. rewrite goto_back by lia. f_equal. lia.
  - cbn [pop_frames]. unfold pop_frame. cbn [trc add_trace frames]. destruct (frames g2); [congruence|reflexivity].
Qed.

Lemma smid_of_jmid : forall {b0 s0 a0 g0 b s a g}, jmid b0 s0 a0 g0 b s a g -> tl (frames g) = tl (frames g0) -> smid b0 s0 a0 g0 b s a g.
Proof.
  intros b0 s0 a0 g0 b s a g J T. destruct (jmid_act J) as [A S].
  constructor; [exact (jmid_run J)|exact (jmid_adv J)|exact T|exact A|exact S].
Qed.
Lemma jmid_le : forall {b0 s0 a0 g0 b s a g}, jmid b0 s0 a0 g0 b s a g -> cinj_le b0 b.
Proof. intros b0 s0 a0 g0 b s a g J. exact (proj1 (proj1 (jmid_adv J))). Qed.

(* one pass through the body of a loop, in its frame <while> (the run from (a0, g0) to the first instruction of the body has
   pushed it).  What the body does: it fails; or ends at ks, normally or by `continue`, still inside the frame; or leaves the
   loop for kd by `break`; or returns *)
Lemma loop_pass : forall {body}, bspec body -> forall (Q : sres_ -> Prop) kb kd a g {b B B1 rb lr ks k0 fuel a0 g0 env s cbody fbd},
  bc path c0 lr (Some 1) k0 body = (cbody, fbd) -> ks = kb + length cbody ->
  fuel <= FU -> kblock SF true B CD body = Some (B1, rb) -> bound2 B env -> installed fbd ->
  items_at code kd ks kb cbody -> ks < kd -> kd < length code -> lrok lr kb ->
  xrun prog name code a0 g0 (set_ss a (S (a_ss a))) (push_frame g LWhile) -> frames g = frames g0 -> cells g = cells g0 ->
  act_same a0 a -> a_ss a = a_ss a0 ->
  a_ip a = kb -> a_cb a = cb -> a_ops a = [] -> length (locals env) <= S (a_ss a) -> ClA b B env s g ->
  (forall f s', failed a0 g0 f s' -> Q (SFailed f s')) -> Q SFuel ->
  (forall sig env2 s2 b2 a2 g2, sig = SigNormal \/ sig = SigContinue -> exec_block fuel (push_scope env) body s = SOk sig env2 s2 ->
     jmid b s a0 g0 b2 s2 a2 g2 -> a_ip a2 = ks -> a_ops a2 = [] -> ClA b2 [] env2 s2 g2 -> tl (frames g2) = frames g0 ->
     lkeep lr ({| lab := LWhile; vars := [] |} :: frames g0) (frames g2) -> tl (locals env2) = locals env -> locals env2 <> [] ->
     Q (SOk sig env2 s2)) ->
  (forall env2 s2 b2 a2 g2, jmid b s a0 g0 b2 s2 a2 g2 -> a_ip a2 = kd -> a_ops a2 = [] -> ClA b2 B (pop_scope env2) s2 g2 ->
     frames g2 = frames g0 -> tl (locals env2) = locals env -> Q (SOk SigBreak env2 s2)) ->
  (forall ov env2 s2, retpost b rb s a0 g0 ov s2 -> tl (locals env2) = locals env -> locals env2 <> [] -> Q (SOk (SigReturn ov) env2 s2)) ->
  Q (exec_block fuel (push_scope env) body s).
Proof.
  intros body Hbody Q kb kd a g b B B1 rb lr ks k0 fuel a0 g0 env s cbody fbd Ebc -> Hfu Hk Hb Hinst Hib Hks Hkd Hlrk
         Rp Ef0 Ec0 Ha0 Hs0 Hip Hcb Hops Hss HC Qfail Qfuel Qend Qbrk Qret.
  set (ap := set_ss a (S (a_ss a))) in *. set (gp := push_frame g LWhile) in *.
  pose proof (Cl_ne HC) as Hne.
  assert (Hl1 : 1 <= length (locals env)) by (destruct (locals env); [congruence|cbn [length]; lia]).
  pose proof (Hbody b B lr true (Some 1) kd (kb + length cbody) k0 fuel kb ap gp (push_scope env) s B1 rb Hfu Hk (bound2_push _ _ Hb)) as H.
  rewrite Ebc in H. cbn [fst snd] in H.
  specialize (H Hinst Hib ltac:(left; lia) (lcok_loop env _ _ kd (le_n _) Hks Hkd Hl1) Hlrk Hip Hcb Hops
                ltac:(cbn [push_scope locals length ap set_ss a_ss]; lia) (Cl_push path prog P cb CD base name SF b B env s g LWhile HC eq_refl)).
  assert (J0 : jmid b s a0 g0 b s ap gp).
  { apply jmid_intro; [exact Rp|apply adv_same; [reflexivity|exact Ec0]|exact Ha0|cbn [ap set_ss a_ss]; lia]. }
  destruct (exec_block fuel (push_scope env) body s) as [sig env2 s2|f s2|] eqn:Eex; [|exact (Qfail f s2 (failed_run Rp H))|exact Qfuel].
  cbn [spost] in H. destruct H as [[Htl Hne2] H]. cbn [push_scope locals tl] in Htl.
  destruct sig as [| | |ov].
  - destruct H as (_ & a2 & g2 & b2 & SM2 & Hip2 & Hops2 & HC2 & LK2).
    apply (Qend SigNormal env2 s2 b2 a2 g2 (or_introl eq_refl) eq_refl (jmid_trans J0 (jmid_of_smid SM2)) Hip2 Hops2 (Cl_weaken HC2));
      [rewrite (smid_tl SM2); exact Ef0|rewrite <- Ef0; exact LK2|exact Htl|exact Hne2].
  - destruct H as (m & a2 & g2 & b2 & Hsl & _ & J & Hip2 & Hops2 & HC2 & Hf2). injection Hsl as <-.
    rewrite popn_1 in HC2. cbn [gp push_frame with_frames frames skipn] in Hf2.
    pose proof (jmid_trans J0 J) as J1.
    apply (Qbrk env2 s2 b2 a2 g2 J1 Hip2 Hops2); [|rewrite Hf2; exact Ef0|exact Htl].
    apply (Cl_B_of path prog P cb CD base name SF b2 B (pop_scope env2) s2 g2 HC2). intros x k E.
    destruct (Cl_names HC (jmid_le J1) x k E) as (Hux & c & c' & A1 & A2).
    split; [exact Hux|]. exists c, c'. split; [|exact A2]. cbn [pop_scope locals]. rewrite Htl. exact A1.
  - destruct H as (m & a2 & g2 & b2 & Hsl & _ & J & Hip2 & Hops2 & HC2 & Hf2 & LK2). injection Hsl as <-.
    cbn [Nat.sub] in HC2, LK2. rewrite popn_0 in HC2. cbn [gp push_frame with_frames frames skipn] in Hf2, LK2.
    apply (Qend SigContinue env2 s2 b2 a2 g2 (or_intror eq_refl) eq_refl (jmid_trans J0 J) Hip2 Hops2 HC2);
      [rewrite Hf2; exact Ef0|rewrite <- Ef0; exact LK2|exact Htl|exact Hne2].
  - exact (Qret ov env2 s2 (retpost_seq Rp (jmid_adv J0) (fun k Hk0 => Hk0) H) Htl Hne2).
Qed.

Lemma while_sim : forall cnd body, bspec body -> sspec (SWhile cnd body).
Proof.
  intros cnd body Hbody b B lr il sl bt ct k0 fuel kp a g env s B' rets Hfu Hk Hb Hinst Hc Hend Hlc Hlrk Hip Hcb Hops Hss HC.
  destruct Hend as [Hend|[Hend _]]; [|discriminate Hend].
  rewrite kstmt_SWhile in Hk. destruct (kexpr SF B CD cnd) as [[|? ?|]|] eqn:Ec; try discriminate. cbn [is_KD] in Hk.
  destruct (kblock SF true B CD body) as [[B1 rb]|] eqn:Eb; [|discriminate]. injection Hk as <- <-.
  rewrite sc_SWhile in Hinst, Hc, Hend, Hlc |- *. destruct (ec path c0 lr k0 cnd) as [cc fc] eqn:Eec.
  destruct (bc path c0 lr (Some 1) (k0 + length fc) body) as [cb0 fb] eqn:Ebc. cbn [fst snd] in *. cbv zeta in *.
  rewrite !app_length, resolve_length, !app_length, map_length in *. cbn [length] in *.
  apply (installed_app prog) in Hinst as [Hin1 Hin2].
  pose proof Hc as Hi. apply items_at_app in Hi as [_ Hi]. rewrite map_length in Hi.
  apply items_at_cons in Hi as [Hi1 Hi]. cbn [item_instr I] in Hi1.
  apply items_at_resolve in Hi. apply items_at_app in Hi as [Hib Hj]. apply items_at_cons in Hj as [Hj _]. cbn [item_instr I] in Hj.
  set (kw := kp + length cc) in *. set (kb := S kw) in *. set (kj := kb + length cb0) in *. set (fin := S kj).
  assert (Efin : kp + (length cc + (1 + (length cb0 + 1))) = fin) by (unfold fin, kj, kb, kw; lia). rewrite Efin in *.
  replace (kb + (length cb0 + 1)) with fin in Hib by (unfold fin, kj; lia). replace (fin - 1) with kj in Hib by (unfold fin; lia).
  set (off := length cb0 + 1 + 1) in *.
  revert Hfu b s a g env Hb Hlc Hip Hcb Hops Hss HC.
  induction fuel as [|n IH]; intros Hfu b s a g env Hb Hlc Hip Hcb Hops Hss HC; [exact Logic.I|].
  rewrite exec_SWhile.
  apply (after_expr n Eec ltac:(lia) Ec Hb Hin1 ltac:(lia) Hc
           ltac:(unfold fin, kj, kb, kw in *; lia) Hip Hcb Hops HC).
  destruct (eval n env cnd s) as [v s1|s1|f s1|]; [|intros; exact Logic.I|reflexivity|reflexivity].
  intros a1 g1 b1 w _ Hip1 Hops1 Hcb1 Hss1 HC1 [Hfo ->].
  pose proof (test_step true off ltac:(rewrite Hip1; exact Hi1) ltac:(unfold off, fin, kj, kb in *; lia) Hops1 Hfo HC1) as Ht.
  pose proof (Cl_ne HC) as Hne. destruct v as [z|[|]|t| |p bd ev]; try exact Ht.
  2:{ apply (spost_done Hb Ht); [cbn [set_ip a_ip]; unfold off, fin, kj, kb; lia|reflexivity|apply Cl_trc; exact HC1|reflexivity]. }
  unfold in_block_. pattern (exec_block n (push_scope env) body s1).
  apply (loop_pass Hbody _ kb fin (upd a1 (S (a_ip a1)) []) (trc name a1 g1 (mkI OP_WHILE_LOOP [sN off])) (fuel := n) Ebc eq_refl ltac:(lia) Eb Hb Hin2 Hib
           (le_n _) ltac:(lia) ltac:(eapply lrok_mono; [exact Hlrk|unfold kb, kw; lia]) Ht eq_refl eq_refl ltac:(repeat split) eq_refl
           ltac:(cbn [upd set_ip a_ip]; unfold kb, kw; lia) Hcb1 eq_refl ltac:(cbn [upd set_ip set_ops a_ss]; rewrite Hss1; exact Hss) (Cl_trc HC1)).
  - intros f s' Hf. exact Hf.
  - exact Logic.I.
  -
    intros sig env2 s2 b2 a2 g2 Hsig _ J Hip2 Hops2 HC2 T2 _ Htl2 Hne2.
    assert (Er : forall r, match sig with SigNormal | SigContinue => r | SigBreak => SOk SigNormal (pop_scope env2) s2
                           | SigReturn v => SOk (SigReturn v) (pop_scope env2) s2 end = r) by (intros r; destruct Hsig as [->| ->]; reflexivity).
    cbv beta iota. rewrite Er. clear Er.
    set (ij := mkI OP_JMP_POP [neg_off (1 + length cb0 + length cc)]) in *.
    set (g3 := with_frames (trc name a2 g2 ij) (tl (frames g2))).
    destruct (Cl_frames HC2) as (f2 & fs2 & Ef2).
    assert (R3 : xrun prog name code a2 g2 (set_ip a2 kp) g3).
    { apply (back_edge2 (k := kp) Hj); [unfold fin in *; lia|
        unfold kj, kb, kw; lia|exact Hip2|rewrite Ef2; discriminate]. }
    destruct (Cl_body_end (g2 := trc name a2 g2 ij) (Cl_trc HC2) Htl2 Hne Hb (Cl_names HC1 (jmid_le J))) as [_ HC3].
    change (with_frames (trc name a2 g2 ij) (tl (frames (trc name a2 g2 ij)))) with g3 in HC3.
    assert (Ef3 : frames g3 = frames g1) by exact T2.
    assert (SM3 : smid b1 s1 a1 g1 b2 s2 (set_ip a2 kp) g3).
    { apply smid_of_jmid; [|now rewrite Ef3]. destruct (jmid_act J) as [A S].
      apply jmid_intro; [eapply xrun_trans; [exact (jmid_run J)|exact R3]|exact (jmid_adv J)|exact A|exact S]. }
    apply (spost_seq (env1 := pop_scope env2) SM3);
      [apply lkeep_eq; exact Ef3|split; cbn [pop_scope locals]; rewrite Htl2; [reflexivity|exact Hne]|].
    apply IH; [lia|eapply bound2_eq; [exact Hb|exact Htl2]| |reflexivity|exact (jmid_cb J Hcb1)|exact Hops2| |exact HC3].
    + eapply (lc_ok_mono code); [exact Hlc|lia|cbn [pop_scope locals]; now rewrite Htl2].
    + cbn [set_ip a_ss pop_scope locals]. rewrite Htl2. pose proof (proj2 (jmid_act J)). lia.
  -
    intros env2 s2 b2 a2 g2 J Hip2 Hops2 HC2 Hf2 Htl2. cbv beta iota.
    apply (spost_normal (a' := a2) (g' := g2) (b' := b2));
      [split; cbn [pop_scope locals]; rewrite Htl2; [reflexivity|exact Hne]|eapply bound2_eq; [exact Hb|exact Htl2]|
       apply smid_of_jmid; [exact J|now rewrite Hf2]|exact Hip2|exact Hops2|exact HC2|apply lkeep_eq; exact Hf2].
  -
    intros ov env2 s2 Hr Htl2 Hne2. cbv beta iota. split; [split; cbn [pop_scope locals]; rewrite Htl2; [reflexivity|exact Hne]|exact Hr].
Qed.

Lemma kvar_cons_other : forall B x y, y <> x -> kvar ((x, KD) :: B) CD y = kvar B CD y.
Proof. intros B x y Hne. unfold kvar. cbn [assoc]. rewrite str_eqb_neq by congruence. reflexivity. Qed.
Lemma ok_dexpr_weaken : forall B x e, ok_dexpr B CD e = true -> ~ In x (used_e e) -> ok_dexpr ((x, KD) :: B) CD e = true.
Proof.
  intros B x e H Hx. unfold ok_dexpr in *. rewrite !andb_true_iff in *. destruct H as [[Hp Hl] Hu]. split; [split; assumption|].
  rewrite forallb_forall in *. intros y Hy. specialize (Hu y Hy). rewrite kvar_cons_other; [exact Hu|]. intros ->. exact (Hx Hy).
Qed.

Lemma cond_run2 : forall kc x endr (incl : bool) aL gL c0' ce i hi,
  nth_error code kc = Some (mkI OP_LOAD_FAST [x]) -> nth_error code (S kc) = Some (mkI OP_LOAD_FAST [endr]) ->
  nth_error code (S (S kc)) = Some (mkI OP_BIN_OP [if incl then op_le else op_lt]) ->
  a_ip aL = kc -> find_in_function x (frames gL) = Some c0' -> cell_get gL c0' = Some (VInt i) ->
  find_in_function endr (frames gL) = Some ce -> cell_get gL ce = Some (VInt hi) ->
  exists g', xrun prog name code aL gL (upd aL (S (S (S kc))) [VBool (if incl then (i <=? hi)%Z else (i <? hi)%Z)]) g' /\
             frames g' = frames gL /\ cells g' = cells gL /\ out g' = out gL.
Proof.
  intros kc x endr incl aL gL c0' ce i hi H1 H2 H3 Hip Fx Cx Fe Ce. subst kc.
  set (i1 := mkI OP_LOAD_FAST [x]) in *. set (i2 := mkI OP_LOAD_FAST [endr]) in *.
  set (i3 := mkI OP_BIN_OP [if incl then op_le else op_lt]) in *.
  set (o := a_ops aL).
  set (g1 := trc name aL gL i1).
  set (kc := a_ip aL) in *.
  set (a1 := set_ip (set_ops aL (o ++ [VInt i])) (S kc)).
  set (g2 := trc name a1 g1 i2).
  set (a2 := set_ip (set_ops a1 ((o ++ [VInt i]) ++ [VInt hi])) (S (S kc))).
  set (g3 := trc name a2 g2 i3).
  exists g3. split; [|split; [reflexivity|split; reflexivity]].
  eapply xrun_trans; [|eapply xrun_trans].
  - eapply (xstep_next prog name code aL gL i1 _ (a_ip aL) (set_ops aL (o ++ [VInt i]))); [reflexivity|exact H1|apply dec_load_fast|].
    exact (exec_load_fast x aL g1 c0' (VInt i) Fx Cx).
  - eapply (xstep_next prog name code a1 g1 i2 _ (S kc) (set_ops a1 ((o ++ [VInt i]) ++ [VInt hi]))); [reflexivity|exact H2|apply dec_load_fast|].
    exact (exec_load_fast endr a1 g2 ce (VInt hi) Fe Ce).
  - eapply (xstep_next prog name code a2 g2 i3 _ (S (S kc)) (set_ops a2 [VBool (if incl then (i <=? hi)%Z else (i <? hi)%Z)]));
      [reflexivity|exact H3|apply dec_bin_op|].
    rewrite (exec_bin_op_gen _ a2 g3 o (VInt i) (VInt hi)) by (cbn [a2 set_ip set_ops a_ops]; now rewrite <- app_assoc).
    rewrite cmp_sem. reflexivity.
Qed.

Lemma step_free_ok : forall B body e x, step_free B body e = true -> In x (used_e e) -> assoc x B = None -> ~ In x (asgl body).
Proof.
  intros B body e x H Hx EB. unfold step_free in H. rewrite forallb_forall in H. specialize (H x Hx). apply orb_true_iff in H as [H|H].
  - apply mem_str_In in H. exfalso. exact (In_keys_assoc _ B x H EB).
  - intros Hi. apply In_mem_str in Hi. rewrite Hi in H. discriminate.
Qed.
(* a captured variable the step reads: no scope binds it, the body binds it nowhere, so no scope binds it after the body *)
Lemma step_var_free : forall B body se fuel env s sig env2 s2 x, ok_dexpr B CD se = true -> step_free B body se = true ->
  bound2 B env -> exec_block fuel (push_scope env) body s = SOk sig env2 s2 -> In x (used_e se) -> assoc x B = None ->
  lookup_scopes x (locals env2) = None.
Proof.
  intros B body se fuel env s sig env2 s2 x Hok Hfree Hb Eex Hx EB.
  destruct (ok_dexpr_parts B se Hok) as (_ & _ & Hu). pose proof (proj1 (Hu x Hx)) as Hux.
  assert (Hn0 : lookup_scopes x (locals (push_scope env)) = None) by exact (bound2_none B env x Hb (proj2 (proj2 Hux)) EB).
  assert (HPre : Pre x (push_scope env) (asgl body)).
  { right. split; [split; [exact Hn0|discriminate]|exact (step_free_ok _ _ _ _ Hfree Hx EB)]. }
  destruct (exec_K x (proj2 (proj2 Hux)) fuel) as [_ HKb].
  pose proof (HKb (push_scope env) body s sig env2 s2 Eex HPre) as KK.
  rewrite (K_look x (push_scope env) env2 KK). exact Hn0.
Qed.

Lemma reg_bind : forall {b B env s a1 g1 k1 y w} lr, nth_error code k1 = Some (mkI OP_STORE_FAST [y]) ->
  a_ip a1 = k1 -> a_ops a1 = [w] -> ClA b B env s g1 -> ~ uname0 y -> (forall j, j <= lr -> y <> lregn j) ->
  exists f fs g2, frames g1 = f :: fs /\ smid b s a1 g1 b s (upd a1 (S k1) []) g2 /\ ClA b B env s g2 /\
    frames g2 = {| lab := lab f; vars := assoc_set y (N.of_nat (length (cells g1))) (vars f) |} :: fs /\
    cells g2 = cells g1 ++ [w] /\ (forall c k, ~ b c (N.of_nat (length (cells g1))) k) /\ lkeep lr (frames g1) (frames g2).
Proof.
  intros b B env s a1 g1 k1 y w lr Hi Hip Hops HC Hy Hlr. subst k1.
  destruct (bind_step Hi (dec_store_fast y) Hy (fun g' Hb => exec_store_fast y a1 _ w g' Hops Hb) HC) as (f & fs & g2 & Ef & R & HC2 & Ef2 & Ec2 & _ & Hn).
  exists f, fs, g2. split; [exact Ef|]. split; [|split; [exact HC2|split; [exact Ef2|split; [exact Ec2|split; [exact Hn|]]]]].
  - constructor; [exact R|exact (adv_app Ec2)|now rewrite Ef, Ef2|repeat split|apply le_n].
  - rewrite Ef, Ef2. apply lk_bind2. exact Hlr.
Qed.

Lemma items_at_eq : forall bt ct k bt' ct' k' its, items_at code bt ct k its -> bt = bt' -> ct = ct' -> k = k' -> items_at code bt' ct' k' its.
Proof. intros bt ct k bt' ct' k' its H -> -> ->. exact H. Qed.

Lemma stepc_inv : forall lr k step cs fs B body, stepc path c0 lr k step = (cs, fs) -> kstep SF B CD body step = true ->
  fs = [] /\ match step with Some e => ok_dexpr B CD e = true /\ step_free B body e = true /\ cs = pcode c0 e | None => cs = [mkI OP_MAKE_INT [s_one]] end.
Proof.
  intros lr k [e|] cs fs B body H Hk; cbn [stepc kstep] in *.
  - apply andb_true_iff in Hk as [Hk Hf]. rewrite (ec_pure path e (ok_dexpr_pure _ _ _ Hk)) in H. inversion H; subst. auto.
  - inversion H; subst. auto.
Qed.

Lemma delete3_run : forall b s a g F R x y z cx cy cz kd, frames g = F :: R ->
  nth_error code kd = Some (mkI OP_DELETE_NAME_SCOPED [x; y; z]) -> a_ip a = kd -> x <> y -> x <> z -> y <> z ->
  assoc x (vars F) = Some cx -> assoc y (vars F) = Some cy -> assoc z (vars F) = Some cz -> keys_nd (vars F) ->
  exists vs, smid b s a g b s (set_ip a (S kd)) (with_frames (trc name a g (mkI OP_DELETE_NAME_SCOPED [x; y; z])) ({| lab := lab F; vars := vs |} :: R)) /\
    (forall n, n <> x -> n <> y -> n <> z -> assoc n vs = assoc n (vars F)) /\ assoc x vs = None /\ keys_nd vs.
Proof.
  intros b s a g F R x y z cx cy cz kd Ef Hi Hip Hxy Hxz Hyz Hx Hy Hz Hnd. subst kd.
  exists (assoc_del z (assoc_del y (assoc_del x (vars F)))). split; [|split; [|split]].
  - constructor; [|apply adv_same; reflexivity|cbn [with_frames frames tl]; now rewrite Ef|repeat split|apply le_n].
    apply (xstep_next prog name code a g _ (DDelete [x; y; z]) (a_ip a) a _ eq_refl Hi eq_refl).
    unfold exec_d. change (frames (trc name a g (mkI OP_DELETE_NAME_SCOPED [x; y; z]))) with (frames g). rewrite Ef. cbn [delete_names]. rewrite Hx.
    rewrite assoc_del_other by congruence. rewrite Hy. rewrite !assoc_del_other by congruence. rewrite Hz. reflexivity.
  - intros n H1 H2 H3. now rewrite !assoc_del_other by assumption.
  - rewrite !assoc_del_other by assumption. now apply assoc_del_nd_none.
  - apply keys_nd_assoc_del. apply keys_nd_assoc_del. apply keys_nd_assoc_del. exact Hnd.
Qed.

Lemma counter_found : forall {bB BL env2 s2 g2 x cx c'x lL}, ClA bB BL env2 s2 g2 -> assoc x BL = Some KD -> uname0 x ->
  tl (locals env2) = lL -> lookup_scopes x lL = Some cx -> bB cx c'x KD ->
  find_in_function x (frames g2) = Some c'x.
Proof.
  intros bB BL env2 s2 g2 x cx c'x lL HCB HxB Hx Htl2 Q1 HbxB.
  destruct (cl_B HCB x KD HxB) as (_ & c2 & c2' & Y1 & Y2 & Y3).
  assert (Hlx2 : lookup_scopes x (locals env2) = Some cx).
  { destruct (locals env2) as [|sc2 l2] eqn:E2l; cbn [tl] in Htl2; subst lL; [discriminate Q1|].
    apply NS_lookup_tl; [rewrite <- E2l; exact (cl_ns HCB)|exact (proj2 (proj2 Hx))|exact Q1]. }
  rewrite Hlx2 in Y1. injection Y1 as <-. rewrite Y2. f_equal. exact (Cl_inj HCB Y3 HbxB).
Qed.

Section Loop.
(* the code of the loop from its condition at kc on; BL is the context inside the loop *)
Variable body : list stmt.
Hypothesis Hbody : bspec body.
Variables (incl : bool) (step : option expr) (idn endr : str).
Variables (lr lr1 : nat) (sl : option nat) (bt ct : nat).
Variables (B BL B1 : kctx) (rb : list kind).
Variables (kc lbd ls k0b fin : nat) (cbody : list citem) (fbd : fbl) (cs : list instr).
Variable fuel : nat.
Hypothesis Hfu : fuel <= FU.
Hypothesis Eb : kblock SF true BL CD body = Some (B1, rb).
Hypothesis Est : match step with Some e => ok_dexpr BL CD e = true /\ step_free BL body e = true /\ cs = pcode c0 e | None => cs = [mkI OP_MAKE_INT [s_one]] end.
Hypothesis Ebc : bc path c0 (S lr1) (Some 1) k0b body = (cbody, fbd).
Hypothesis Hinb : installed fbd.
Hypothesis Hlr : lr <= lr1.
Hypothesis Hlbd : length cbody = lbd.
Hypothesis Hls : length cs = ls.
Let kw := S (S (S kc)).
Let kb := S kw.
Let ks := kb + lbd.
Let kst := ks + ls.
Let kj := S kst.
Let kd := S kj.
Hypothesis Hc1 : nth_error code kc = Some (mkI OP_LOAD_FAST [idn]).
Hypothesis Hc2 : nth_error code (S kc) = Some (mkI OP_LOAD_FAST [endr]).
Hypothesis Hc3 : nth_error code (S (S kc)) = Some (mkI OP_BIN_OP [if incl then op_le else op_lt]).
Hypothesis Hw : nth_error code kw = Some (mkI OP_WHILE_LOOP [sN (lbd + ls + 3)]).
Hypothesis Hib : items_at code kd ks kb cbody.
Hypothesis Hcs : code_at code ks cs.
Hypothesis Hst : nth_error code kst = Some (mkI OP_BIN_OP_ASSIGN [[43%N; 61%N]; idn]).
Hypothesis Hj : nth_error code kj = Some (mkI OP_JMP_POP [neg_off (lbd + ls + 5)]).
Hypothesis Hlrk1 : lrok (S lr1) kb.
Hypothesis Hkd : kd <= fin.
Hypothesis Hfin : fin < length code.

Section Mode.
(* the counter: its name cname in the reference semantics (cell cx) and idn on the VM (cell c'x in the frame F2 that also binds
   the end register); lL are the scopes while the loop runs, lE afterwards: only the innermost one differs *)
Variables (hi : Z) (ce : N) (R : list frame) (cname : str) (collide : bool) (cx c'x : N) (F2 : frame) (scL scE : scope) (l' : list scope).
Let lL := scL :: l'.
Let lE := scE :: l'.
Let uenv (e : fenv) : fenv := if collide then e else undeclare e cname.
Hypothesis Hlook : lookup_scopes cname lL = Some cx.
Hypothesis HfxF2 : find_in_function idn (F2 :: R) = Some c'x.
Hypothesis HaeF2 : assoc endr (vars F2) = Some ce.
Hypothesis HbLL : forall envX, locals envX = lL -> bound2 BL envX.
Hypothesis HbE : forall envX, locals envX = lE -> bound2 B envX.
Hypothesis Hidn : forall bB env2 s2 g2', ClA bB BL env2 s2 g2' -> tl (locals env2) = lL ->
  lkeep (S lr1) ({| lab := LWhile; vars := [] |} :: F2 :: R) (frames g2') -> bB cx c'x KD -> find_in_function idn (frames g2') = Some c'x.
Hypothesis Hue : forall envX, locals envX = lL -> locals (uenv envX) = lE.
Hypothesis Hidn_nr : forall k, idn <> reg k.
Hypothesis Hexit : forall a5 g5 env5 s5 b5, locals env5 = lL -> ClA b5 BL env5 s5 g5 -> frames g5 = F2 :: R -> a_ip a5 = kd -> a_ops a5 = [] ->
  exists a6 g6, smid b5 s5 a5 g5 b5 s5 a6 g6 /\ a_ip a6 = fin /\ a_ops a6 = [] /\ lkeep lr (F2 :: R) (frames g6) /\ ClA b5 B (uenv env5) s5 g6.

Lemma from_loop : forall n aL gL envL sL bL, locals envL = lL -> ClA bL BL envL sL gL -> frames gL = F2 :: R ->
  a_ip aL = kc -> a_cb aL = cb -> length lL <= S (a_ss aL) -> bL cx c'x KD ->
  cell_get gL ce = Some (VInt hi) -> (forall c k, ~ bL c ce k) ->
  spost bL B rb lr sl bt ct fin envL sL aL gL (from_iter fuel incl hi step cname collide body n envL sL).
Proof.
  assert (Hsame : forall envL envX, locals envL = lL -> locals envX = lE -> same_tl envL envX).
  { intros envL envX EL EX. split; [rewrite EX, EL; reflexivity|rewrite EX; discriminate]. }
  induction n as [|n IH]; intros aL gL envL sL bL ElL HCL EfL HipL HcbL HssL HbxL HceL HcnL; [exact Logic.I|].
  rewrite from_iter_S. rewrite ElL, Hlook.
  destruct (Cl_val HCL HbxL) as (vx & wx & Esx & Ecx & [Hfox ->]). rewrite Esx.
  destruct vx as [i|?|?| |? ? ?]; try exact Logic.I. cbn [inj] in Ecx.
  destruct (cond_run2 kc idn endr incl aL gL c'x ce i hi Hc1 Hc2 Hc3 HipL ltac:(rewrite EfL; exact HfxF2) Ecx
              ltac:(rewrite EfL; cbn [find_in_function]; now rewrite HaeF2) HceL) as (gc & Rc & Efc & Ecc & Eoc).
  set (bb := if incl then (i <=? hi)%Z else (i <? hi)%Z) in *. set (ac := upd aL kw [VBool bb]) in *.
  pose proof (HbLL envL ElL) as HbL. assert (HneL : locals envL <> []) by (rewrite ElL; discriminate).
  apply (spost_seq
           (smid_of_mid (mid_same (d := 0) Rc Efc Ecc ltac:(repeat split) eq_refl)) (lkeep_eq _ _ _ Efc) (same_tl_refl _ HneL)).
  set (i_w := mkI OP_WHILE_LOOP [sN (lbd + ls + 3)]) in *. set (gct := trc name ac gc i_w).
  assert (HCc : ClA bL BL envL sL gc) by (eapply Cl_same; [exact HCL|exact Ecc|exact Efc|exact Eoc]).
  assert (Efc' : frames gc = F2 :: R) by (now rewrite Efc).
  assert (Hcec : cell_get gc ce = Some (VInt hi)) by (unfold cell_get in *; now rewrite Ecc).
  pose proof (test_step true (lbd + ls + 3) (a := ac) (v := RBool bb) Hw ltac:(cbn [ac upd set_ip a_ip]; unfold kd, kj, kst, ks, kb in *; lia)
                eq_refl Logic.I HCc) as Ht.
  assert (Hleave : forall bK sK aK gK envK, jmid bL sL ac gc bK sK aK gK -> a_ip aK = kd -> a_ops aK = [] -> ClA bK BL envK sK gK ->
            locals envK = lL -> frames gK = F2 :: R ->
            spost bL B rb lr sl bt ct fin envL sL ac gc (SOk SigNormal (uenv envK) sK)).
  { intros bK sK aK gK envK J HipK HopsK HCK ElK EfK.
    destruct (Hexit aK gK envK sK bK ElK HCK EfK HipK HopsK) as (a6 & g6 & SM6 & Hip6 & Hops6 & LK6 & HC6).
    apply (spost_normal (a' := a6) (g' := g6) (b' := bK) (Hsame _ _ ElL (Hue _ ElK)) (HbE _ (Hue _ ElK)));
      [|exact Hip6|exact Hops6|exact HC6|rewrite Efc'; exact LK6].
    apply smid_of_jmid; [exact (jmid_trans J (jmid_of_smid SM6))|rewrite (smid_tl SM6), EfK, Efc'; reflexivity]. }
  destruct bb.
  2:{ apply (Hleave bL sL _ gct envL (jmid_of_smid Ht)); [cbn [ac upd set_ip set_ops a_ip]; unfold kd, kj, kst, ks, kb; lia|reflexivity|
      apply Cl_trc; exact HCc|exact ElL|exact Efc']. }
  unfold in_block_. pattern (exec_block fuel (push_scope envL) body sL).
  apply (loop_pass Hbody _ kb kd (upd ac (S (a_ip ac)) []) gct (ks := ks) Ebc ltac:(unfold ks; now rewrite Hlbd)
           Hfu Eb HbL Hinb Hib ltac:(unfold kd, kj, kst; lia) ltac:(unfold kd in *; lia) Hlrk1
           Ht eq_refl eq_refl ltac:(repeat split) eq_refl
           eq_refl ltac:(cbn [ac upd set_ip set_ops a_cb]; exact HcbL) eq_refl
           ltac:(cbn [ac upd set_ip set_ops a_ss]; rewrite ElL; exact HssL) (Cl_trc HCc)).
  - intros f s' Hf. exact Hf.
  - exact Logic.I.
  -
    intros sig env2 s2 bB a2' g2' Hsig Eex J HipB HopsB HC2w TB LKB Htl2 Hne2. rewrite ElL in Htl2.
    assert (Er : forall (r : sres_) f1 f2, match sig with SigNormal | SigContinue => r | SigBreak => f1 | SigReturn v => f2 v end = r)
      by (intros r f1 f2; destruct Hsig as [->| ->]; reflexivity).
    cbv beta iota. rewrite Er. clear Er.
    assert (Epop : locals (pop_scope env2) = lL) by exact Htl2.
    pose proof (jmid_le J) as HleB. pose proof (jmid_cb J ltac:(cbn [ac upd set_ip set_ops a_cb]; exact HcbL)) as HcbB.
    assert (Hnames : forall y k, assoc y BL = Some k -> uname0 y /\ exists c c', lookup_scopes y (locals envL) = Some c /\ bB c c' k)
      by exact (Cl_names HCc HleB).
    destruct (Cl_body_end (env := envL) HC2w ltac:(rewrite ElL; exact Htl2) HneL HbL Hnames) as [HCB _].
    pose proof (HleB _ _ _ HbxL) as HbxB.
    assert (Fx2 : find_in_function idn (frames g2') = Some c'x).
    { apply (Hidn bB env2 s2 g2' HCB Htl2); [rewrite <- Efc'; exact LKB|exact HbxB]. }
    assert (Hbump : forall d aM gM, xrun prog name code a2' g2' aM gM -> a_ip aM = kst -> a_ops aM = [VInt d] -> ClA bB BL env2 s2 gM ->
              tl (frames gM) = tl (frames g2') -> find_in_function idn (frames gM) = Some c'x -> (exists extra, cells gM = cells g2' ++ extra) ->
              act_same a2' aM -> a_ss aM = a_ss a2' ->
              spost bL B rb lr sl bt ct fin envL sL ac gc
                (match sget s2 cx with
                 | Some (RInt i') => if i32_ok (i' + d)%Z then from_iter fuel incl hi step cname collide body n (pop_scope env2) (sset s2 cx (RInt (i' + d)%Z))
                                     else SFailed FOverflow s2
                 | _ => SFailed (FType 13) s2 end)).
    { intros d aM gM RM HipM HopsM HCM TM FxM [extra EcM] AM SM.
      destruct (Cl_val HCM HbxB) as (vx2 & wx2 & Esx2 & Ecx2 & [Hfox2 ->]). rewrite Esx2.
      destruct vx2 as [i'|?|?| |? ? ?]; try exact Logic.I. cbn [inj] in Ecx2.
      set (i_a := mkI OP_BIN_OP_ASSIGN [[43%N; 61%N]; idn]) in *. set (gMt := trc name aM gM i_a).
      assert (HiM : nth_error code (a_ip aM) = Some i_a) by (rewrite HipM; exact Hst).
      assert (Hlv : lookup_var aM gMt idn = Some c'x) by (unfold lookup_var; change (frames gMt) with (frames gM); now rewrite FxM).
      pose proof (exec_bin_op_assign [43%N; 61%N] idn aM gMt c'x (VInt d) (VInt i') Hlv HopsM Ecx2) as Hxa.
      change (op_base [43%N; 61%N]) with op_plus in Hxa.
      change (bin_op_sem op_plus (VInt i') (VInt d)) with (arith OP_BIN_OP (i' + d)%Z) in Hxa. unfold arith in Hxa.
      assert (R0M : xrun prog name code ac gc aM gM) by (eapply xrun_trans; [exact (jmid_run J)|exact RM]).
      destruct (i32_ok (i' + d)%Z).
      2:{ exact (failed_run R0M (failed_step (f := FOverflow) HiM (dec_bin_op_assign _ _) Hxa (or_introl eq_refl) (cl_out HCM))). }
      set (sS := sset s2 cx (RInt (i' + d)%Z)). set (aS := upd aM (S (a_ip aM)) [VInt (i' + d)%Z]). set (gS := cell_set gMt c'x (VInt (i' + d)%Z)).
      assert (HCS : ClA bB BL env2 sS gS).
      { apply (Cl_update path prog P cb CD base name SF bB BL env2 s2 gMt cx c'x KD (RInt (i' + d)%Z) (VInt (i' + d)%Z)); [apply Cl_trc; exact HCM|exact HbxB|].
        split; [exact Logic.I|reflexivity]. }
      set (ij := mkI OP_JMP_POP [neg_off (lbd + ls + 5)]) in *. set (gN := with_frames (trc name aS gS ij) (tl (frames gS))).
      destruct (Cl_frames HCS) as (fS & fsS & EfS).
      assert (RN : xrun prog name code aM gM (set_ip aS kc) gN).
      { eapply xrun_trans; [exact (xstep_next prog name code aM gM i_a _ (a_ip aM) _ _ eq_refl HiM (dec_bin_op_assign _ _) Hxa)|].
        apply (back_edge2 (k := kc) (a2 := aS) (g2 := gS) Hj); [unfold kd in *; lia|
          unfold kj, kst, ks, kb, kw; lia|cbn [aS upd set_ip a_ip]; now rewrite HipM|rewrite EfS; discriminate]. }
      destruct (Cl_body_end (env := envL) (g2 := trc name aS gS ij) (Cl_weaken (Cl_trc HCS))
                  ltac:(rewrite ElL; exact Htl2) HneL HbL Hnames) as [_ HCN].
      change (with_frames (trc name aS gS ij) (tl (frames (trc name aS gS ij)))) with gN in HCN.
      assert (EfN : frames gN = F2 :: R).
      { cbn [gN with_frames frames]. change (frames gS) with (frames gM). rewrite TM, TB. exact Efc'. }
      assert (SMN : smid bL sL ac gc bB sS (set_ip aS kc) gN).
      { apply smid_of_jmid; [|now rewrite EfN, Efc']. destruct (jmid_act J) as [A S].
        apply jmid_intro; [eapply xrun_trans; [exact R0M|exact RN]| |eapply act_same_trans; [exact A|exact AM]|cbn [aS upd set_ip set_ops a_ss]; rewrite SM; exact S].
        eapply adv_trans; [exact (jmid_adv J)|]. eapply adv_trans; [exact (adv_app EcM)|].
        exact (adv_cells gM gN (adv_set (g := gMt) (w := VInt (i' + d)%Z) HbxB) eq_refl eq_refl). }
      destruct (smid_adv SMN) as (EN & KN0 & _).
      apply (spost_seq (env1 := pop_scope env2) SMN);
        [rewrite EfN, Efc'; apply lkeep_refl|split; [rewrite Epop, ElL; reflexivity|rewrite Epop; discriminate]|].
      apply IH; [exact Epop|exact HCN|exact EfN|reflexivity|cbn [set_ip aS upd set_ops a_cb]; rewrite (proj2 (proj2 AM)); exact HcbB| |exact HbxB|
                 exact (KN0 _ _ Hcec HcnL)|exact (bext_unpaired _ _ _ _ _ _ EN Hcec HcnL)].
      cbn [set_ip aS upd set_ops a_ss]. rewrite SM. pose proof (proj2 (jmid_act J)) as S. cbn [ac upd set_ip set_ops a_ss] in S. lia. }
    destruct step as [se|].
    + (* a step expression: call-free, over locals of the loop's context; the reference semantics is outside the body's scope *)
      destruct Est as (Hose & Hfree & Ecs). subst cs.
      assert (HlLn : forall x, In x (used_e se) -> assoc x BL = None -> lookup_scopes x lL = None).
      { intros x Hx EB0. destruct (ok_dexpr_parts BL se Hose) as (_ & _ & Hu). rewrite <- ElL.
        exact (bound2_none BL envL x HbL (proj2 (proj2 (proj1 (Hu x Hx)))) EB0). }
      assert (HE : forall x c, assoc x BL <> None -> lookup_scopes x (locals env2) = Some c ->
                lookup_scopes x (locals (pop_scope env2) ++ captured (pop_scope env2)) = Some c).
      { intros x c HxB Hlk. apply lookup_app_some. cbn [pop_scope locals]. rewrite Htl2.
        destruct (assoc x BL) as [kx|] eqn:EB0; [|congruence].
        destruct (Hnames x kx EB0) as (Hux & c1 & c1' & A1 & _). rewrite ElL in A1.
        destruct (locals env2) as [|sc2 l2] eqn:E2l; [congruence|]. cbn [tl] in Htl2. subst l2.
        pose proof (NS_lookup_tl sc2 lL x c1 ltac:(rewrite <- E2l; exact (cl_ns HCB)) (proj2 (proj2 Hux)) A1) as H2.
        rewrite H2 in Hlk. injection Hlk as <-. exact A1. }
      assert (HN : forall x, In x (used_e se) -> assoc x BL = None ->
                lookup_scopes x (locals env2) = None /\ lookup_scopes x (locals (pop_scope env2)) = None).
      { intros x Hx EB0. split; [exact (step_var_free BL body se fuel envL sL sig env2 s2 x Hose Hfree HbL Eex Hx EB0)|].
        rewrite Epop. exact (HlLn x Hx EB0). }
      pose proof (lexpr_run (d := c0) fuel Hose HE HN eq_refl ltac:(lia) Hcs
                    ltac:(rewrite Hls; unfold kd, kj, kst in *; lia) HipB HopsB HcbB HCB) as Hse.
      rewrite Hls in Hse. fold kst in Hse.
      destruct (eval fuel (pop_scope env2) se s2) as [sv s3|s3|f s3|]; [|contradiction| |exact Logic.I].
      * destruct Hse as (-> & Hfos & gM & RM & HCM & HeM).
        destruct sv as [d|?|?| |? ? ?]; try (destruct (sget s2 cx) as [[?|?|?| |? ? ?]|]; exact Logic.I).
        apply (Hbump d (upd a2' kst [inj (RInt d)]) gM RM eq_refl eq_refl HCM (ext_tail _ _ _ _ _ HeM)); [|exact (ext_cells _ _ _ _ _ HeM)|repeat split|reflexivity].
        rewrite (ext_find _ _ _ _ _ HeM); [exact Fx2|]. intros (k & _ & _ & E). exact (Hidn_nr k E).
      * destruct Hse as (-> & e0 & g' & Hf & Hr & Ho). apply fail_post_intro. exists e0, g'.
        split; [eapply xrun_fail; [exact (jmid_run J)|exact Hf]|]. split; [now apply err_rel_s_of|exact Ho].
    + subst cs. cbn [length] in Hls. subst ls. set (i_m := mkI OP_MAKE_INT [s_one]) in *.
      assert (Him : nth_error code (a_ip a2') = Some i_m) by (rewrite HipB; specialize (Hcs 0 i_m eq_refl); now rewrite Nat.add_0_r in Hcs).
      apply (Hbump 1%Z (upd a2' (S (a_ip a2')) [VInt 1]) (trc name a2' g2' i_m)); [|cbn [upd set_ip a_ip]; rewrite HipB; unfold kst; lia|reflexivity|
        apply Cl_trc; exact HCB|reflexivity|exact Fx2|exists []; now rewrite app_nil_r|repeat split|reflexivity].
      eapply (xstep_next prog name code a2' g2' i_m _ (a_ip a2') (set_ops a2' [VInt 1])); [reflexivity|exact Him|exact (dec_make_int 1 eq_refl)|].
      rewrite exec_make_int, HopsB. reflexivity.
  -
    intros env2 s2 bK aK gK J HipK HopsK HCK HfK Htl2. cbv beta iota. rewrite ElL in Htl2.
    apply (Hleave bK s2 aK gK (pop_scope env2) J HipK HopsK HCK Htl2). now rewrite HfK.
  -
    intros ov env2 s2 Hr Htl2 Hne2. cbv beta iota. rewrite ElL in Htl2. split; [exact (Hsame _ _ ElL (Hue (pop_scope env2) Htl2))|exact Hr].
Qed.
End Mode.
Section Enter.
(* both bounds are evaluated: L#start and L#end are bound in the top frame F4 (cells c's, ce), the first value i0 of the counter is
   on the stack, the next instruction binds the counter *)
Variable startr : str.
Variables (b2 : cinj) (env : fenv) (s2 : rstate) (a5 : act) (g5 : gstate) (F4 : frame) (R : list frame) (i0 hi : Z) (c's ce : N).
Variables (sc0 : scope) (l' : list scope).
Hypothesis HC5 : ClA b2 B env s2 g5.
Hypothesis Hb : bound2 B env.
Hypothesis El : locals env = sc0 :: l'.
Hypothesis Ef5 : frames g5 = F4 :: R.
Hypothesis Hip5 : S (a_ip a5) = kc.
Hypothesis Hops5 : a_ops a5 = [VInt i0].
Hypothesis Hcb5 : a_cb a5 = cb.
Hypothesis Hss5 : length (locals env) <= S (a_ss a5).
Hypothesis Hce5 : cell_get g5 ce = Some (VInt hi).
Hypothesis Hn4 : forall c k, ~ b2 c ce k.
Hypothesis HaeF4 : assoc endr (vars F4) = Some ce.
Hypothesis HasF4 : assoc startr (vars F4) = Some c's.
Hypothesis Hse : startr <> endr.
Hypothesis Hie : idn <> endr.
Hypothesis His : idn <> startr.
Hypothesis Hlkj : forall j, j <= lr -> lregn j <> endr /\ lregn j <> startr.
Hypothesis Hnus : ~ uname0 startr.
Hypothesis Hnue : ~ uname0 endr.

(* the counter is an existing local variable: assigned after both bounds, kept after the loop *)
Lemma enter_collide : BL = B -> fin = kd -> nth_error code (a_ip a5) = Some (mkI OP_STORE [idn]) -> uname0 idn -> assoc idn B = Some KD ->
  spost b2 B rb lr sl bt ct fin env s2 a5 g5 (let '(e, s) := assign env s2 idn (RInt i0) in from_iter fuel incl hi step idn true body fuel e s).
Proof.
  intros HBL Hfk Hi5 Hx HxB.
  set (i_sx := mkI OP_STORE [idn]) in *. set (g5t := trc name a5 g5 i_sx).
  assert (HC5t : ClA b2 B env s2 g5t) by exact (Cl_trc HC5).
  destruct (cl_B HC5t idn KD HxB) as (_ & cx & c'x & Q1 & Q2 & Q3).
  set (a6 := upd a5 (S (a_ip a5)) []). set (g6 := cell_set g5t c'x (VInt i0)). set (sD := sset s2 cx (RInt i0)).
  assert (SM6 : smid b2 s2 a5 g5 b2 sD a6 g6).
  { constructor; [|exact (adv_set Q3)|reflexivity|repeat split|apply le_n].
    apply (xstep_next prog name code a5 g5 i_sx _ (a_ip a5) (set_ops a5 []) _ eq_refl Hi5 (dec_store idn)).
    apply (exec_store idn a5 g5t (VInt i0) g6 Hops5). unfold store_var. now rewrite Q2. }
  replace (assign env s2 idn (RInt i0)) with (env, sD) by (unfold assign; rewrite El in Q1 |- *; now rewrite Q1).
  apply (spost_seq SM6 (lkeep_eq _ _ _ eq_refl) (same_tl_refl env (Cl_ne HC5))).
  pose proof (from_loop hi ce R idn true cx c'x F4 sc0 sc0 l') as Hl. rewrite HBL in Hl. apply Hl; clear Hl.
  - rewrite <- El. exact Q1.
  - rewrite <- Ef5. exact Q2.
  - exact HaeF4.
  - intros envX EX. eapply bound2_eq; [exact Hb|]. now rewrite EX, El.
  - intros envX EX. eapply bound2_eq; [exact Hb|]. now rewrite EX, El.
  - intros bB env2 sX g2' HCB Htl2 _ HbxB. apply (counter_found (cx := cx) HCB HxB Hx Htl2); [|exact HbxB]. rewrite <- El. exact Q1.
  - intros envX EX. exact EX.
  - intros k E. exact (src_name_not_reg idn k (proj1 Hx) E).
  - intros a7 g7 env7 s7 b7 El7 HC7' Ef7 Hip7 Hops7.
    exists a7, g7. split; [apply smid_refl|]. split; [now rewrite Hfk|]. split; [exact Hops7|]. split; [rewrite Ef7; apply lkeep_refl|exact HC7'].
  - exact El.
  - apply (Cl_update path prog P cb CD base name SF b2 B env s2 g5t cx c'x KD (RInt i0) (VInt i0) HC5t Q3). split; [exact Logic.I|reflexivity].
  - exact Ef5.
  - exact Hip5.
  - exact Hcb5.
  - rewrite <- El. exact Hss5.
  - exact Q3.
  - unfold g6. rewrite cell_get_set_other; [exact Hce5|]. intros E. apply (Hn4 cx KD). rewrite E. exact Q3.
  - exact Hn4.
Qed.

(* a counter of its own for the loop (a fresh name, or the hidden one).  In g6 the VM has bound idn to a new cell c'x that holds i0;
   the reference semantics has declared cname with a new cell cx; the two are paired.  The loop runs; then `delete` drops the
   counter and the two registers, and the reference semantics drops cname (Hund) *)
Lemma new_counter : forall cname a6 g6 sH,
  let cx := N.of_nat (length (store s2)) in
  let c'x := N.of_nat (length (cells g5)) in
  let F6 := {| lab := lab F4; vars := assoc_set idn c'x (vars F4) |} in
  let scL := assoc_set cname cx sc0 in
  let b3 := add_pair b2 cx c'x KD in
  let envH := {| locals := scL :: l'; captured := captured env; cur := cur env |} in
  fin = S kd -> nth_error code kd = Some (mkI OP_DELETE_NAME_SCOPED [idn; startr; endr]) ->
  smid b2 s2 a5 g5 b3 sH a6 g6 -> lkeep lr (frames g5) (frames g6) -> a_ip a6 = kc ->
  ClA b3 BL envH sH g6 -> frames g6 = F6 :: R -> cells g6 = cells g5 ++ [VInt i0] ->
  (forall envX, locals envX = scL :: l' -> bound2 BL envX) -> (forall envX, locals envX = assoc_del cname scL :: l' -> bound2 B envX) ->
  (forall bB env2 sX g2', ClA bB BL env2 sX g2' -> tl (locals env2) = scL :: l' ->
     lkeep (S lr1) ({| lab := LWhile; vars := [] |} :: F6 :: R) (frames g2') -> bB cx c'x KD -> find_in_function idn (frames g2') = Some c'x) ->
  (forall k, idn <> reg k) -> (forall j, j <= lr -> lregn j <> idn) ->
  (forall b7 env7 s7 g7 vs, ClA b7 BL env7 s7 g7 -> locals env7 = scL :: l' -> frames g7 = F6 :: R ->
     (forall n, n <> idn -> n <> startr -> n <> endr -> assoc n vs = assoc n (vars F6)) -> assoc idn vs = None -> keys_nd vs ->
     ClA b7 B (undeclare env7 cname) s7 (with_frames g7 ({| lab := lab F6; vars := vs |} :: R))) ->
  spost b2 B rb lr sl bt ct fin env s2 a5 g5 (from_iter fuel incl hi step cname false body fuel envH sH).
Proof.
  intros cname a6 g6 sH cx c'x F6 scL b3 envH Hfk Hdel SMH LKH Hip6 HC6 Ef6 Ec6 HbLL HbE Hfind Hnr Hlki Hund.
  assert (HaxF6 : assoc idn (vars F6) = Some c'x) by (unfold F6; cbn [vars]; apply assoc_set_same).
  assert (HaeF6 : assoc endr (vars F6) = Some ce) by (unfold F6; cbn [vars]; rewrite assoc_set_other by (intros E; exact (Hie (eq_sym E))); exact HaeF4).
  assert (HasF6 : assoc startr (vars F6) = Some c's) by (unfold F6; cbn [vars]; rewrite assoc_set_other by (intros E; exact (His (eq_sym E))); exact HasF4).
  apply (spost_seq (env1 := envH) SMH LKH); [split; [cbn [envH locals tl]; now rewrite El|discriminate]|].
  apply (from_loop hi ce R cname false cx c'x F6 scL (assoc_del cname scL) l').
  - cbn [lookup_scopes]. unfold scL. now rewrite assoc_set_same.
  - cbn [find_in_function]. now rewrite HaxF6.
  - exact HaeF6.
  - exact HbLL.
  - exact HbE.
  - exact Hfind.
  - intros envX EX. unfold undeclare. now rewrite EX.
  - exact Hnr.
  - intros a7 g7 env7 s7 b7 El7 HC7 Ef7 Hip7 Hops7.
    destruct (delete3_run b7 s7 a7 g7 F6 R idn startr endr c'x c's ce kd Ef7 Hdel Hip7 His Hie Hse HaxF6 HasF6 HaeF6 (Cl_nd_top HC7 Ef7)) as (vs & SM8 & Hvs & Hxvs & Hndvs).
    eexists _, _. split; [exact SM8|]. split; [now rewrite Hfk|]. split; [exact Hops7|]. split.
    + intros j Hjj. cbn [with_frames frames find_in_function vars lab].
      now rewrite (Hvs (lregn j) (Hlki j Hjj) (proj2 (Hlkj j Hjj)) (proj1 (Hlkj j Hjj))).
    + exact (Hund b7 env7 s7 _ vs (Cl_trc HC7) El7 Ef7 Hvs Hxvs Hndvs).
  - reflexivity.
  - exact HC6.
  - exact Ef6.
  - exact Hip6.
  - exact (smid_cb SMH Hcb5).
  - pose proof (smid_ss SMH) as S. rewrite El in Hss5. cbn [length] in *. lia.
  - right. auto.
  - exact (cell_get_old _ _ _ _ _ Ec6 Hce5).
  - intros c k [Hbc|(_ & E & _)]; [exact (Hn4 c k Hbc)|]. pose proof (cell_get_lt _ _ _ Hce5) as Hlt. unfold c'x in E. rewrite E, Nnat.Nat2N.id in Hlt. lia.
Qed.

(* a hidden counter: L#(lr+1) on the VM, the name `hid` in the reference semantics *)
Lemma enter_hidden : idn = lregn (S lr) -> BL = B -> fin = S kd -> nth_error code (a_ip a5) = Some (mkI OP_STORE_FAST [idn]) ->
  nth_error code kd = Some (mkI OP_DELETE_NAME_SCOPED [idn; startr; endr]) -> (forall j, j <= lr -> lregn j <> idn) ->
  spost b2 B rb lr sl bt ct fin env s2 a5 g5 (let '(e, s) := declare env s2 hid (RInt i0) in from_iter fuel incl hi step hid false body fuel e s).
Proof.
  intros Eidn HBL Hfk Hi5 Hdel Hlki.
  assert (Hnu : ~ uname0 idn) by (rewrite Eidn; apply lregn_not_uname0).
  destruct (reg_bind lr Hi5 eq_refl Hops5 HC5 Hnu (fun j Hjj E => Hlki j Hjj (eq_sym E)))
    as (f5' & R' & g6 & Ef5' & SM6 & HC6 & Ef6 & Ec6 & Hn6 & LK6).
  rewrite Ef5 in Ef5'. injection Ef5' as <- <-.
  (* the reference semantics declares the hidden counter now: the two cells are paired *)
  pose proof (Cl_declare_hid path prog P cb CD base name SF b2 B env s2 g6 (RInt i0) _ sc0 l' HC6 El Logic.I (cell_get_new _ _ _ Ec6) Hn6) as HC7. cbv zeta in HC7.
  match type of HC7 with Cl _ _ _ _ _ _ _ _ _ _ ?E ?S _ => set (envH := E) in *; set (sH := S) in * end.
  replace (declare env s2 hid (RInt i0)) with (envH, sH) by (unfold declare, alloc; now rewrite El).
  apply (new_counter hid (upd a5 (S (a_ip a5)) []) g6 sH Hfk Hdel); try rewrite HBL.
  - constructor; [exact (smid_run SM6)| |exact (smid_tl SM6)|exact (smid_act SM6)|exact (smid_ss SM6)].
    exact (adv_alloc (s' := sH) (proj2 (heap_alloc path prog b2 s2 g5 KD (RInt i0) (VInt i0) (cl_heap HC5) (conj Logic.I eq_refl) sH g6 eq_refl Ec6)) eq_refl Ec6).
  - exact LK6.
  - exact Hip5.
  - exact HC7.
  - exact Ef6.
  - exact Ec6.
  - intros envX EX. apply (bound2_same B env envX Hb). intros y Hy. rewrite EX, El. cbn [lookup_scopes]. now rewrite assoc_set_other by exact Hy.
  - intros envX EX. apply (bound2_same B env envX Hb). intros y Hy. rewrite EX, El. cbn [lookup_scopes].
    rewrite assoc_del_other by exact Hy. now rewrite assoc_set_other by exact Hy.
  - intros bB env2 sX g2' _ _ LK _. rewrite Eidn, (LK (S lr) ltac:(lia)). cbn [find_in_function assoc vars lab special]. rewrite <- Eidn. now rewrite assoc_set_same.
  - intros k E. rewrite Eidn in E. exact (lregn_not_reg _ _ E).
  - exact Hlki.
  - intros b7 env7 s7 g7 vs HC7' El7 Ef7 Hvs _ Hndvs.
    apply (Cl_undeclare_hid path prog P cb CD base name SF b7 B env7 s7 g7 _ l' _ R vs HC7' El7 Ef7); [|exact Hndvs].
    intros y Hy. apply Hvs; intros ->; [exact (Hnu Hy)|exact (Hnus Hy)|exact (Hnue Hy)].
Qed.

(* a fresh counter: a variable of the enclosing block for the duration of the loop *)
Lemma enter_fresh : BL = (idn, KD) :: B -> fin = S kd -> nth_error code (a_ip a5) = Some (mkI OP_STORE_FAST [idn]) ->
  nth_error code kd = Some (mkI OP_DELETE_NAME_SCOPED [idn; startr; endr]) -> uname0 idn -> assoc idn B = None ->
  spost b2 B rb lr sl bt ct fin env s2 a5 g5 (let '(e, s) := declare env s2 idn (RInt i0) in from_iter fuel incl hi step idn false body fuel e s).
Proof.
  intros HBL Hfk Hi5 Hdel Hx HxBn.
  set (i_sx := mkI OP_STORE_FAST [idn]) in *. set (g5t := trc name a5 g5 i_sx).
  assert (HC5t : ClA b2 B env s2 g5t) by exact (Cl_trc HC5).
  assert (Hn : lookup_scopes idn (sc0 :: l') = None) by (rewrite <- El; exact (bound2_none B env idn Hb (proj2 (proj2 Hx)) HxBn)).
  destruct (Cl_declare path prog P cb CD base name SF b2 B env s2 g5t idn KD (RInt i0) (VInt i0) sc0 l' F4 R HC5t Hx (conj Logic.I eq_refl) El Ef5
              ltac:(rewrite El; exact Hn) (trace g5t)) as [HC6 He6]. cbv zeta in HC6, He6.
  match type of HC6 with Cl _ _ _ _ _ _ _ _ _ _ ?E ?S ?G => set (env1 := E) in *; set (sD := S) in *; set (g6 := G) in * end.
  replace (declare env s2 idn (RInt i0)) with (env1, sD) by (unfold declare, alloc; now rewrite El).
  assert (Hsc0 : assoc idn sc0 = None /\ lookup_scopes idn l' = None).
  { cbn [lookup_scopes] in Hn. destruct (assoc idn sc0); [discriminate|]. auto. }
  assert (Hdel0 : forall c, assoc_del idn (assoc_set idn c sc0) = sc0) by (intros c; apply assoc_del_set_absent; exact (proj1 Hsc0)).
  apply (new_counter idn (upd a5 (S (a_ip a5)) []) g6 sD Hfk Hdel); try rewrite HBL.
  - constructor; [|exact (adv_alloc (s' := sD) (g' := g6) He6 eq_refl eq_refl)|cbn [g6 frames tl]; now rewrite Ef5|repeat split|apply le_n].
    apply (xstep_next prog name code a5 g5 i_sx _ (a_ip a5) (set_ops a5 []) _ eq_refl Hi5 (dec_store_fast idn)).
    apply (exec_store_fast idn a5 g5t (VInt i0) g6 Hops5). unfold bind_local. change (frames g5t) with (frames g5). now rewrite Ef5.
  - rewrite Ef5. apply lk_bind2. intros j _. apply uname0_not_lregn. exact Hx.
  - exact Hip5.
  - exact HC6.
  - reflexivity.
  - reflexivity.
  - intros envX EX. eapply bound2_eq; [exact (bound2_declare B env idn KD _ sc0 l' env1 Hb El eq_refl Hx)|]. now rewrite EX.
  - intros envX EX. eapply bound2_eq; [exact Hb|]. now rewrite EX, El, Hdel0.
  - intros bB env2 sX g2' HCB Htl2 _ HbxB.
    refine (counter_found HCB _ Hx Htl2 _ HbxB); [cbn [assoc]; now rewrite str_eqb_refl|].
    cbn [lookup_scopes]. now rewrite assoc_set_same.
  - intros k E. exact (src_name_not_reg idn k (proj1 Hx) E).
  - intros j _ E. exact (uname0_not_lregn idn j Hx (eq_sym E)).
  - intros b7 env7 s7 g7 vs HC7' El7 Ef7 Hvs Hxvs Hndvs.
    apply (Cl_undeclare path prog P cb CD base name SF b7 B env7 s7 g7 idn KD _ l' _ R vs HC7' El7 Ef7 Hx HxBn);
      [|exact Hxvs|rewrite Hdel0; exact (proj1 Hsc0)|exact (proj2 Hsc0)|exact Hndvs].
    intros y Hy Hne0. apply Hvs; [exact Hne0| |]; intros ->; [exact (Hnus Hy)|exact (Hnue Hy)].
Qed.

Lemma from_enter : forall nm collide, idn = from_idn lr nm -> BL = from_ctx B nm collide -> fin = kd + (if collide then 0 else 1) ->
  nth_error code (a_ip a5) = Some (mkI (if collide then OP_STORE else OP_STORE_FAST) [idn]) ->
  (collide = false -> nth_error code kd = Some (mkI OP_DELETE_NAME_SCOPED [idn; startr; endr])) ->
  (nm = None -> forall j, j <= lr -> lregn j <> idn) ->
  match nm, collide with
  | Some x, false => src_nameb x = true /\ mem_str x (map fst B) = false
  | Some x, true => src_nameb x = true /\ assoc x B = Some KD
  | None, false => True
  | None, true => False end ->
  spost b2 B rb lr sl bt ct fin env s2 a5 g5
    (let cname := match nm with Some x => x | None => hid end in
     let '(e, s) := (if collide then assign env s2 cname (RInt i0) else declare env s2 cname (RInt i0)) in
     from_iter fuel incl hi step cname collide body fuel e s).
Proof.
  intros [x|] [|] Eidn HBL Hfk Hi5 Hdel Hlki Hnm; cbn [from_idn from_ctx] in Eidn, HBL; try contradiction; cbv zeta.
  - subst x. destruct Hnm as [Hsx HxB].
    apply enter_collide; [exact HBL|rewrite Hfk; apply Nat.add_0_r|exact Hi5|exact (src_nameb_ok _ Hsx)|exact HxB].
  - subst x. destruct Hnm as [Hsx HxB].
    apply enter_fresh; [exact HBL|rewrite Hfk; apply Nat.add_1_r|exact Hi5|exact (Hdel eq_refl)|exact (src_nameb_ok _ Hsx)|].
    destruct (assoc idn B) as [k|] eqn:E; [|reflexivity]. rewrite (In_mem_str idn (map fst B)) in HxB; [discriminate|apply assoc_keys; congruence].
  - apply enter_hidden; [exact Eidn|exact HBL|rewrite Hfk; apply Nat.add_1_r|exact Hi5|exact (Hdel eq_refl)|exact (Hlki eq_refl)].
Qed.
End Enter.
End Loop.

Lemma from_regs : forall lr nm, (forall j, j <= S (S (from_lr1 lr nm)) -> small j) -> (forall x, nm = Some x -> uname0 x) ->
  lregn (S (from_lr1 lr nm)) <> lregn (S (S (from_lr1 lr nm))) /\
  from_idn lr nm <> lregn (S (S (from_lr1 lr nm))) /\ from_idn lr nm <> lregn (S (from_lr1 lr nm)) /\
  forall j, j <= lr -> lregn j <> lregn (S (S (from_lr1 lr nm))) /\ lregn j <> lregn (S (from_lr1 lr nm)) /\ (nm = None -> lregn j <> from_idn lr nm).
Proof.
  intros lr nm Hsml Hx.
  assert (Hne : forall i j, i <= S (S (from_lr1 lr nm)) -> j <= S (S (from_lr1 lr nm)) -> i <> j -> lregn i <> lregn j).
  { intros i j Hi Hj Hij E. apply Hij. apply lregn_inj; [apply Hsml; exact Hi|apply Hsml; exact Hj|exact E]. }
  assert (Hl : lr <= from_lr1 lr nm) by (destruct nm; cbn [from_lr1]; lia).
  split; [apply Hne; lia|]. split; [|split].
  - destruct nm as [x|]; cbn [from_idn from_lr1] in *; [|apply Hne; lia]. intros E. apply (lregn_not_uname0 (S (S lr))). rewrite <- E. exact (Hx x eq_refl).
  - destruct nm as [x|]; cbn [from_idn from_lr1] in *; [|apply Hne; lia]. intros E. apply (lregn_not_uname0 (S lr)). rewrite <- E. exact (Hx x eq_refl).
  - intros j Hj. split; [apply Hne; lia|]. split; [apply Hne; lia|]. intros ->. cbn [from_idn from_lr1] in *. apply Hne; lia.
Qed.

Lemma from_layout : forall bt ct kp idn startr endr (incl collide : bool) ca cb_ cbody cs,
  let cond := [I OP_LOAD_FAST [idn]; I OP_LOAD_FAST [endr]; I OP_BIN_OP [if incl then op_le else op_lt]] in
  let cstep := map CI cs ++ [I OP_BIN_OP_ASSIGN [[43; 61]%N; idn]] in
  let full0 := cbody ++ cstep in
  let full := full0 ++ [I OP_JMP_POP [neg_off (1 + length cond + length full0)]] in
  let its := map CI ca ++ [I OP_STORE_FAST [startr]] ++ map CI cb_ ++
             [I OP_STORE_FAST [endr]; I OP_LOAD_FAST [startr]; I (if collide then OP_STORE else OP_STORE_FAST) [idn]] ++ cond ++
             [I OP_WHILE_LOOP [sN (length full + 1)]] ++ resolve (length full) (length cstep) 0 full ++
             (if collide then [] else [I OP_DELETE_NAME_SCOPED [idn; startr; endr]]) in
  let k1 := kp + length ca in
  let k3 := S k1 + length cb_ in
  let kc := S (S (S k3)) in
  let kb := S (S (S (S kc))) in
  let ks := kb + length cbody in
  let kst := ks + length cs in
  let kd := S (S kst) in
  items_at code bt ct kp its ->
  kp + length its = kd + (if collide then 0 else 1) /\
  code_at code kp ca /\ nth_error code k1 = Some (mkI OP_STORE_FAST [startr]) /\ code_at code (S k1) cb_ /\
  nth_error code k3 = Some (mkI OP_STORE_FAST [endr]) /\ nth_error code (S k3) = Some (mkI OP_LOAD_FAST [startr]) /\
  nth_error code (S (S k3)) = Some (mkI (if collide then OP_STORE else OP_STORE_FAST) [idn]) /\
  nth_error code kc = Some (mkI OP_LOAD_FAST [idn]) /\ nth_error code (S kc) = Some (mkI OP_LOAD_FAST [endr]) /\
  nth_error code (S (S kc)) = Some (mkI OP_BIN_OP [if incl then op_le else op_lt]) /\
  nth_error code (S (S (S kc))) = Some (mkI OP_WHILE_LOOP [sN (length cbody + length cs + 3)]) /\
  items_at code kd ks kb cbody /\ code_at code ks cs /\
  nth_error code kst = Some (mkI OP_BIN_OP_ASSIGN [[43; 61]%N; idn]) /\
  nth_error code (S kst) = Some (mkI OP_JMP_POP [neg_off (length cbody + length cs + 5)]) /\
  (collide = false -> nth_error code kd = Some (mkI OP_DELETE_NAME_SCOPED [idn; startr; endr])).
Proof.
  intros bt ct kp idn startr endr incl collide ca cb_ cbody cs cond cstep full0 full its k1 k3 kc kb ks kst kd Hc.
  set (lbd := length cbody) in *. set (ls := length cs) in *.
  assert (Hlcs : length cstep = ls + 1) by (unfold cstep; rewrite app_length, map_length; reflexivity).
  assert (Hlf0 : length full0 = lbd + (ls + 1)) by (unfold full0; rewrite app_length, Hlcs; reflexivity).
  assert (Hlf : length full = lbd + (ls + 1) + 1) by (unfold full; rewrite app_length, Hlf0; reflexivity).
  split.
  { unfold its, cond. rewrite !app_length, resolve_length, !map_length, Hlf. destruct collide; cbn [length]; unfold kd, kst, ks, kb, kc, k3, k1; lia. }
  unfold its in Hc. rewrite Hlf, Hlcs in Hc.
  apply items_at_app in Hc as [Hca Hc]. apply items_at_CI in Hca. rewrite map_length in Hc. fold k1 in Hc.
  apply items_at_cons in Hc as [Hi1 Hc].
  apply items_at_app in Hc as [Hcb Hc]. apply items_at_CI in Hcb. rewrite map_length in Hc. fold k3 in Hc.
  apply items_at_cons in Hc as [Hi3 Hc]. apply items_at_cons in Hc as [Hi4 Hc]. apply items_at_cons in Hc as [Hi5 Hc].
  apply items_at_cons in Hc as [Hc1 Hc]. apply items_at_cons in Hc as [Hc2 Hc]. apply items_at_cons in Hc as [Hc3 Hc].
  apply items_at_cons in Hc as [Hw Hc]. cbn [item_instr I] in Hi1, Hi3, Hi4, Hi5, Hc1, Hc2, Hc3, Hw.
  apply items_at_app in Hc as [Hfull Hdel]. rewrite resolve_length, Hlf in Hdel. apply items_at_resolve_gen in Hfull.
  apply items_at_app in Hfull as [Hfull0 Hj]. apply items_at_app in Hfull0 as [Hib Hstp]. fold lbd in Hstp.
  apply items_at_app in Hstp as [Hcs Hstp]. apply items_at_CI in Hcs. rewrite map_length in Hstp. fold ls in Hstp.
  apply items_at_cons in Hstp as [Hst _]. rewrite Hlf0 in Hj. apply items_at_cons in Hj as [Hj _]. cbn [item_instr I] in Hst, Hj.
  split; [exact Hca|]. split; [exact Hi1|]. split; [exact Hcb|]. split; [exact Hi3|]. split; [exact Hi4|]. split; [exact Hi5|].
  split; [exact Hc1|]. split; [exact Hc2|]. split; [exact Hc3|].
  split; [replace (lbd + ls + 3) with (lbd + (ls + 1) + 1 + 1) by lia; exact Hw|].
  split; [apply (items_at_eq _ _ _ _ _ _ _ Hib); unfold kd, kst, ks; lia|].
  split; [exact Hcs|]. split; [exact Hst|].
  split; [replace (lbd + ls + 5) with (1 + 3 + (lbd + (ls + 1))) by lia; atp Hj|].
  intros ->. apply items_at_cons in Hdel as [Hdel _]. cbn [item_instr I] in Hdel. atp Hdel.
Qed.

Lemma from_sim : forall ea eb incl step nm collide body, bspec body -> sspec (SFrom ea eb incl step nm collide body).
Proof.
  intros ea eb incl step nm collide body Hbody b B lr il sl bt ct k0 fuel kp a g env s B' rets Hfu Hk Hb Hinst Hc Hend Hlc Hlrk Hip Hcb Hops Hss HC.
  destruct Hend as [Hend|[Hend _]]; [|discriminate Hend].
  destruct (kstmt_SFrom_inv SF il B CD ea eb incl step nm collide body B' rets Hk) as (-> & Ea & Ebk & Hks & [B1 Eb] & Hnm).
  set (BL := from_ctx B nm collide) in *.
  destruct fuel as [|fuel]; [exact Logic.I|]. rewrite exec_SFrom.
  rewrite sc_SFrom in *. cbv zeta in *.
  set (idn := from_idn lr nm) in *. set (lr1 := from_lr1 lr nm) in *. set (startr := lregn (S lr1)) in *. set (endr := lregn (S (S lr1))) in *.
  assert (Hlr1 : lr <= lr1 <= S lr) by (unfold lr1; destruct nm; cbn [from_lr1]; lia).
  destruct (ec path c0 lr1 k0 ea) as [ca fa] eqn:Eca.
  destruct (ec path c0 lr1 (k0 + length fa) eb) as [cb_ fb] eqn:Ecb.
  destruct (bc path c0 (S (S lr1)) (Some 1) (k0 + length fa + length fb) body) as [cbody fbd] eqn:Ebc.
  destruct (stepc path c0 (S (S lr1)) (k0 + length fa + length fb + length fbd) step) as [cs fs] eqn:Esc.
  cbn [fst snd] in *.
  destruct (stepc_inv _ _ _ _ _ BL body Esc Hks) as [-> Est].
  apply (installed_app prog) in Hinst as [Hina Hinst]. apply (installed_app prog) in Hinst as [Hinb Hinst]. apply (installed_app prog) in Hinst as [Hinbd _].
  destruct (from_layout bt ct kp idn startr endr incl collide ca cb_ cbody cs Hc)
    as (Hlen & Hca & Hi1 & Hcb2 & Hi3 & Hi4 & Hi5 & Hc1 & Hc2 & Hc3 & Hw & Hib & Hcs & Hst & Hj & Hdel).
  rewrite Hlen in *. clear Hlen Hc.
  set (k1 := kp + length ca) in *. set (k3 := S k1 + length cb_) in *. set (kc := S (S (S k3))) in *. set (kb := S (S (S (S kc)))) in *.
  set (ks := kb + length cbody) in *. set (kst := ks + length cs) in *. set (kd := S (S kst)) in *. set (fin := kd + (if collide then 0 else 1)) in *.
  assert (Hpos : k1 < fin /\ k3 < fin /\ kd <= fin) by (unfold fin, kd, kst, ks, kb, kc, k3; lia).
  assert (Hlrk1 : lrok (S (S lr1)) kb) by (eapply lrok_mono; [exact Hlrk|]; unfold fin, kd, kst, ks, kb, kc, k3, k1 in Hend |- *; clear -Hlr1 Hend; lia).
  assert (Hsx0 : forall x0, nm = Some x0 -> uname0 x0).
  { intros x0 ->. destruct collide; exact (src_nameb_ok _ (proj1 Hnm)). }
  destruct (from_regs lr nm ltac:(intros j Hjs; unfold lrok in Hlrk; eapply small_le; [|exact Hlrk]; fold lr1 in Hjs; clear -Hjs Hlr1; lia) Hsx0)
    as (Hse & Hie & His & Hlkj). fold idn lr1 startr endr in Hse, Hie, His, Hlkj.
  pose proof (Cl_ne HC) as Hne. pose proof (same_tl_refl env Hne) as Hd0.
  apply (after_expr_at fuel Eca ltac:(lia) Ea Hb Hina (Nat.le_succ_diag_r c0) Hca
           ltac:(fold k1; lia) Hip Hcb Hops HC).
  destruct (eval fuel env ea s) as [va s1|s1|f s1|]; [|intros; exact Logic.I|reflexivity|reflexivity].
  intros a1 g1 b1 wa _ Hip1 Hops1 Hcb1 Hss1 HC1 [Hfoa ->]. fold k1 in Hip1. rewrite <- Hss1 in Hss. clear Hss1.
  (* store_fast L#start: the lower bound waits in a register while the upper bound is evaluated *)
  destruct (reg_bind lr Hi1 Hip1 Hops1 HC1 (lregn_not_uname0 _)
              (fun j Hjj E => proj1 (proj2 (Hlkj j Hjj)) (eq_sym E))) as (f1 & R & g2 & Ef1 & SM2 & HC2 & Ef2 & Ec2 & Hn2 & LK2).
  set (c's := N.of_nat (length (cells g1))) in *. set (a2 := upd a1 (S k1) []) in *.
  apply (spost_seq SM2 LK2 Hd0).
  (* the upper bound: no counter exists yet, on either side *)
  apply (after_expr_at fuel (a := a2) Ecb ltac:(lia) Ebk Hb Hinb (Nat.le_succ_diag_r c0) Hcb2
           ltac:(fold k3; lia) eq_refl Hcb1 eq_refl HC2).
  destruct (eval fuel env eb s1) as [vb s2|s2|f s2|]; [|intros; exact Logic.I|reflexivity|reflexivity].
  intros a3 g3 b2 wb M3 Hip3 Hops3 Hcb3 Hss3 HC3 [Hfob ->]. fold k3 in Hip3.
  destruct va as [i0|?|?| |? ? ?]; try exact Logic.I.
  destruct vb as [hi|?|?| |? ? ?]; try exact Logic.I. cbn [inj] in *.
  assert (Hcs3 : cell_get g3 c's = Some (VInt i0)) by exact (proj1 (proj2 (mid_adv M3)) _ _ (cell_get_new _ _ _ Ec2) Hn2).
  destruct (Cl_frames HC3) as (f3 & R3' & Ef3).
  assert (ER : R3' = R) by (pose proof (mid_tl M3) as T3; rewrite Ef3, Ef2 in T3; exact T3). subst R3'.
  assert (Hax3 : assoc startr (vars f3) = Some c's).
  { assert (Hnrs : ~ own_reg c0 startr) by (intros (k & _ & _ & E); exact (lregn_not_reg _ _ E)).
    pose proof (proj2 (mid_fk M3 startr Hnrs)) as H. rewrite Ef3, Ef2 in H. cbn [top_vars vars] in H. rewrite H. apply assoc_set_same. }
  destruct (reg_bind lr Hi3 Hip3 Hops3 HC3 (lregn_not_uname0 _)
              (fun j Hjj E => proj1 (Hlkj j Hjj) (eq_sym E))) as (f3' & R' & g4 & Ef3' & SM4 & HC4 & Ef4 & Ec4 & Hn4 & LK4).
  rewrite Ef3 in Ef3'. injection Ef3' as <- <-.
  set (ce := N.of_nat (length (cells g3))) in *. set (a4 := upd a3 (S k3) []) in *.
  set (F4 := {| lab := lab f3; vars := assoc_set endr ce (vars f3) |}) in *.
  apply (spost_seq SM4 LK4 Hd0).
  assert (HaeF4 : assoc endr (vars F4) = Some ce) by (unfold F4; cbn [vars]; apply assoc_set_same).
  assert (HasF4 : assoc startr (vars F4) = Some c's) by (unfold F4; cbn [vars]; rewrite assoc_set_other by exact Hse; exact Hax3).
  assert (Hcs4 : cell_get g4 c's = Some (VInt i0)) by exact (cell_get_old _ _ _ _ _ Ec4 Hcs3).
  set (i_l := mkI OP_LOAD_FAST [startr]) in *.
  set (g5 := trc name a4 g4 i_l).
  set (a5 := set_ip (set_ops a4 [VInt i0]) (S (a_ip a4))).
  assert (R5 : xrun prog name code a4 g4 a5 g5).
  { eapply (xstep_next prog name code a4 g4 i_l _ (a_ip a4) (set_ops a4 [VInt i0])); [reflexivity|cbn [a4 upd set_ip a_ip]; exact Hi4|apply dec_load_fast|].
    exact (exec_load_fast startr a4 g5 c's (VInt i0) ltac:(change (frames g5) with (frames g4); rewrite Ef4; cbn [find_in_function]; now rewrite HasF4) Hcs4). }
  apply (spost_seq
           (smid_of_mid (mid_same (d := 0) R5 eq_refl eq_refl ltac:(repeat split) eq_refl)) (lkeep_refl _ _) Hd0).
  assert (HC5 : ClA b2 B env s2 g5) by (apply Cl_trc; exact HC4).
  assert (Ef5 : frames g5 = F4 :: R) by exact Ef4.
  assert (Hip5 : a_ip a5 = S (S k3)) by reflexivity.
  assert (Hops5 : a_ops a5 = [VInt i0]) by reflexivity.
  assert (Hcb5 : a_cb a5 = cb) by exact Hcb3.
  assert (Hss5 : length (locals env) <= S (a_ss a5)) by (cbn [a5 a4 upd set_ip set_ops a_ss]; rewrite Hss3; exact Hss).
  assert (Hce5 : cell_get g5 ce = Some (VInt hi)) by exact (cell_get_new _ _ _ Ec4).
  assert (exists sc0 l', locals env = sc0 :: l') as (sc0 & l' & El) by (destruct (locals env); [congruence|eauto]).
  apply (from_enter body Hbody incl step idn endr lr (S lr1) sl bt ct B BL B1 rets kc (length cbody) (length cs) (k0 + length fa + length fb) fin cbody fbd cs fuel
           ltac:(lia) Eb Est Ebc Hinbd ltac:(lia) eq_refl eq_refl Hc1 Hc2 Hc3 Hw Hib Hcs Hst Hj Hlrk1 (proj2 (proj2 Hpos)) Hend
           startr b2 env s2 a5 g5 F4 R i0 hi c's ce sc0 l' HC5 Hb El Ef5 (f_equal S Hip5) Hops5 Hcb5 Hss5 Hce5 Hn4 HaeF4 HasF4 Hse Hie His
           (fun j Hjj => conj (proj1 (Hlkj j Hjj)) (proj1 (proj2 (Hlkj j Hjj)))) (lregn_not_uname0 _) (lregn_not_uname0 _)
           nm collide eq_refl eq_refl eq_refl ltac:(rewrite Hip5; exact Hi5) Hdel (fun E j Hjj => proj2 (proj2 (Hlkj j Hjj)) E) Hnm).
Qed.
Theorem sspec_all : forall st, sspec st.
Proof.
  apply (stmt_ind' (fun _ => True) sspec); try (intros; exact Logic.I).
  - intros x e _. apply assign_sim.
  - intros x e _. apply modify_sim.
  - intros x o e _. apply opassign_sim.
  - intros e _. apply print_sim.
  - intros e sp _. apply assert_sim.
  - intros e _. apply expr_sim.
  - intros cnd body _ Hb. apply if_sim. apply bspec_of. exact Hb.
  - intros cnd body els _ Hb He. apply ifelse_sim; apply bspec_of; assumption.
  - intros cnd body nxt _ Hb Hn. apply ifelif_sim; [apply bspec_of; exact Hb|exact Hn].
  - intros cnd body _ Hb. apply while_sim. apply bspec_of. exact Hb.
  - intros a0 b0 incl step nm collide body _ _ _ Hbody. apply from_sim. apply bspec_of. exact Hbody.
  - apply break_sim.
  - apply continue_sim.
  - intros [e|] _; [apply return_sim|apply return_none_sim].
Qed.
Theorem bspec_all : forall l, bspec l.
Proof. intros l. apply bspec_of. apply Forall_forall. intros st _. apply sspec_all. Qed.
End Act.
End Sim.
Arguments smid_run {prog name code b0 s0 a0 g0 b s a g}.
Arguments smid_adv {prog name code b0 s0 a0 g0 b s a g}.
Arguments smid_cb {prog name code cb b0 s0 a0 g0 b s a g}.
Arguments retpost_seq {path prog name code base b rets rets' s a g b1 s1 a1 g1 ov s'}.
Arguments retpost_here {path prog name code cb CD base SF P b B rets env s a g ov}.
Arguments retpost_fn {path prog name code cb base b rets s argv g1 ov s'}.
Arguments Cl_trc {path prog name cb CD base SF P b B env s g nm a i}.

Lemma ghost_all : forall path prog name code cb base SF c0, small (c0 + 2 * length code + 8) ->
  forall FU, (forall fuel', fuel' < FU -> call_sim path prog fuel') -> ghost_spec path prog name code cb base SF c0 FU.
Proof.
  intros path prog name code cb base SF c0 Hsm FU Hcall CD' x eb HxCD Hx b B d lr k0 fuel kp a g env s Hfu Hk Hb Hin Hd Hc Hend Hip Hcb Hops HC.
  assert (HP : forall y, assoc y CD' <> None -> y <> x) by (intros y Hy ->; exact (Hy HxCD)).
  pose proof (espec_all path prog name code cb CD' base SF c0 Hsm FU Hcall (fun y => y <> x) HP eb b B d lr k0 fuel kp a g env s KD
                Hfu Hk Hb Hin Hd Hc Hend Hip Hcb Hops HC) as H.
  destruct (eval fuel env eb s) as [v s1|s1|f s1|]; cbn [eres_ok] in H.
  - exact H.
  - destruct H as [H _]. discriminate H.
  - exact H.
  - exact Logic.I.
Qed.
