(* C07 / C01, closures -- non-vacuity: a closure program in the style of the C07 check (an owner variable with a reader and
   a writer closure, a factory instantiated twice whose stepping closure shares a cell with a second closure, depth-3
   nesting with a `modify` from the innermost function, a closure created in a block and kept, a function passed as an
   argument) is inside the decidable fragment, and the compiled code run by the VM model prints what the reference
   semantics prescribes. *)
From MS Require Import Lang.Eval.
From MS Require Import Vm.Model Lang.Syntax Compile.Compile Verify.Sound Compile.ExprBase Compile.ExprSim.
From MS Require Import Compile.StmtMach Compile.StmtRel Compile.StmtFrag Compile.StmtSim Compile.StmtFun Compile.StmtMod Compile.StmtExamples.
From MS Require Import Compile.ClosFrag Compile.ClosTop Compile.StmtFragB.
Open Scope nat_scope.

Definition cx0 : str := [120; 48]%N.                 (* x0 *)
Definition cget : str := [103; 101; 116]%N.          (* get *)
Definition cinc : str := [105; 110; 99]%N.           (* inc *)
Definition cmk : str := [109; 107]%N.                (* mk *)
Definition cstart : str := [115; 116]%N.
Definition cc : str := [99]%N.
Definition cpeek : str := [112; 101; 101; 107]%N.
Definition cstep : str := [115; 116; 101; 112]%N.
Definition cd : str := [100]%N.
Definition ca : str := [97; 49]%N.                   (* a1 *)
Definition cb1 : str := [98; 49]%N.                  (* b1 *)
Definition capply : str := [97; 112; 112; 108; 121; 50]%N.
Definition cf : str := [102]%N.
Definition couter : str := [111; 117; 116]%N.
Definition cn : str := [110]%N.
Definition cacc : str := [97; 99; 99]%N.
Definition cmid : str := [109; 105; 100]%N.
Definition ck : str := [107]%N.
Definition cadd : str := [97; 100; 100]%N.
Definition cr1 : str := [114; 49]%N.
Definition ckeep : str := [107; 101; 101; 112]%N.
Definition cbi : str := [98; 105]%N.
Definition cbk : str := [98; 107]%N.
Definition cbg : str := [98; 103]%N.

Definition call (f : str) (l : list expr) : expr := ECall (EVar f) l.

Definition nv_c07 : source :=
  [ (* an owner variable, a reader and a writer closure *)
    SAssign cx0 (EInt 2);
    SAssign cget (EFn [] [SReturn (Some (EVar cx0))]);
    SAssign cinc (EFn [cd] [SModify cx0 (EBin BAdd (EVar cx0) (EVar cd))]);
    (* a factory: each call creates a fresh cell c shared by two closures *)
    SAssign cmk (EFn [cstart] [
      SAssign cc (EVar cstart);
      SAssign cpeek (EFn [] [SReturn (Some (EVar cc))]);
      SAssign cstep (EFn [cd] [SModify cc (EBin BAdd (EVar cc) (EVar cd)); SReturn (Some (EBin BAdd (call cpeek []) (EInt 0)))]);
      SReturn (Some (EVar cstep))]);
    SAssign ca (call cmk [EInt 1]);
    SAssign cb1 (call cmk [EInt 12]);
    (* depth-3 nesting: the innermost function writes a variable of the outermost one *)
    SAssign couter (EFn [cn] [
      SAssign cacc (EInt 0);
      SAssign cmid (EFn [ck] [
        SAssign cadd (EFn [] [SModify cacc (EBin BAdd (EVar cacc) (EBin BAdd (EVar ck) (EVar cn)))]);
        SExpr (call cadd []); SExpr (call cadd []);
        SReturn (Some (EVar cacc))]);
      SAssign cr1 (call cmid [EInt 1]);
      SAssign cacc (EBin BAdd (EVar cacc) (EInt 100));
      SReturn (Some (EBin BAdd (EVar cr1) (call cmid [EInt 2])))]);
    SPrint (call ca [EInt 2]);
    SPrint (call cb1 [EInt 1]);
    SPrint (call ca [EInt 1]);
    SExpr (call cinc [EInt 3]);
    SPrint (call cget []);
    SAssign cx0 (EBin BMul (EVar cx0) (EInt 2));
    SPrint (call cget []);
    SPrint (call couter [EInt 3]);
    (* closures created in a loop body over a block-local variable; one of them is kept *)
    SAssign ckeep (EFn [] [SReturn (Some (EInt (-1)))]);
    SFrom (EInt 0) (EInt 3) false None (Some cbi) false [
      SAssign cbk (EBin BMul (EVar cbi) (EInt 7));
      SAssign cbg (EFn [] [SReturn (Some (EBin BAdd (EVar cbk) (EInt 1)))]);
      SIf (EBin BEq (EVar cbi) (EInt 1)) [SAssign ckeep (EVar cbg)]];
    SPrint (call ckeep []);
    (* a closure passed as an argument and called through the parameter *)
    SAssign capply (EFn [cf] [SReturn (Some (EBin BAdd (call cf [EInt 1]) (call cf [EInt 1])))]);
    SPrint (call capply [EVar ca]) ].

(* the fuel numeral (5000 nested S) is dear to elaborate and to check wherever it stands in a proof term: it is named first *)
Ltac name_fuel := match goal with |- context [run ?n _] => set (N := n) end.

Lemma frag2_both : forall p (Q : Prop), in_fragment2 nvp p = true -> Q -> in_fragment2 nvp p = true /\ in_fragment nvp p = true /\ Q.
Proof. intros p Q H HQ. split; [exact H|]. split; [|exact HQ]. unfold in_fragment. rewrite H. apply Bool.orb_true_r. Qed.

Example C07_nv_closure_program :
  in_fragment2 nvp nv_c07 = true /\ in_fragment nvp nv_c07 = true /\
  vm_out nv_c07 5000 = (fst (run 5000 nv_c07), Done) /\ snd (run 5000 nv_c07) = RODone /\
  fst (run 5000 nv_c07) = [[51]; [49; 51]; [52]; [53]; [49; 48]; [49; 50; 54]; [56]; [49; 49]]%N.
Proof.
  name_fuel.
  apply frag2_both; [vm_compute; reflexivity|].
  eapply (runs_agree (fun o => o = _)); [vm_compute; reflexivity|vm_compute; split; reflexivity|reflexivity].
Qed.
