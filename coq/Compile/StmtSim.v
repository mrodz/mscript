(* C01, statement level: the simulation.  Compiled statements of the first fragment (StmtFrag.v: ok_stmt), run by the
   interpreter loop (StmtMach.v: xrun = the `fix loop` of run_fn_gen, calls taken as whole steps), do what the reference
   semantics (Lang/Eval.v: exec / exec_block) prescribes: same output lines, same failure at the same statement, related
   environments afterwards.  `from` loops are rejected by ok_stmt; they are proved in ClosSim.v, on the lemmas about
   from_iter, lkeep and the loop registers that stand here.  Calls are discharged by the hypotheses Hcall / Hself
   (callee_ok at smaller fuel), which StmtFun.v and StmtMod.v establish.

   What the fields of Rg are for:
     Rg_fr / Rg_bij   lookup-based, suffix-closed relation of scopes and frames (StmtRel.v), one-to-one on cells
     Rg_base          the frames below the activation are untouched
     Rg_un / Rg_ns    scopes bind user names, function names in lfuns and the hidden name `hid` only; no shadowing
     Rg_pins / Rg_fpin  pinned cells (outside the relation: function values, captured data) keep their value
     Rg_nd            every frame binds a name at most once (a global invariant of the machine, StmtMach.xstep_nd)
     Rg_flook / Rg_dlook  function names / captured module-level variables resolve to their table cells at every level
     Rg_cur / Rg_cf / Rg_capd  the executing closure, its VM name, its captured data variables
   In Rst, a_ss is special_scopes.  In `post`, break / continue reach the loop's targets with the right number of block
   frames popped, return reaches a `ret` with the value on the stack; the scopes change only at the innermost level
   (same_tl) and the set B of bound names is tracked exactly. *)
From MS Require Import Lang.Eval.
From MS Require Import Vm.Model Lang.Syntax Compile.Compile Verify.Sound Compile.ExprBase Compile.ExprSim.
From MS Require Import Compile.StmtMach Compile.StmtRel Compile.StmtFrag.
From Coq Require Import Lia.
Open Scope nat_scope.
#[local] Arguments xrun_trans {_ _ _ _ _ _ _ _ _}.
#[local] Arguments xrun_fail {_ _ _ _ _ _ _ _ _}.

(* the environment a call-free expression is evaluated in: its own scopes without the hidden loop counters *)
Definition strip_sc (sc : scope) : scope := filter (fun kv => negb (str_eqb (fst kv) hid)) sc.
Lemma assoc_strip : forall x sc, x <> hid -> assoc x (strip_sc sc) = assoc x sc.
Proof.
  intros x. induction sc as [|[k v] sc IH]; intros Hx; [reflexivity|]. cbn [strip_sc filter fst assoc].
  destruct (str_eqb k hid) eqn:E; cbn [negb].
  - apply str_eqb_eq in E. subst k. rewrite str_eqb_neq by congruence. now apply IH.
  - cbn [assoc]. destruct (str_eqb k x); [reflexivity|now apply IH].
Qed.
Lemma assoc_strip_hid : forall sc, assoc hid (strip_sc sc) = None.
Proof.
  induction sc as [|[k v] sc IH]; [reflexivity|]. cbn [strip_sc filter fst].
  destruct (str_eqb k hid) eqn:E; cbn [negb]; [exact IH|]. cbn [assoc]. rewrite E. exact IH.
Qed.
Lemma lookup_strip : forall x l, x <> hid -> lookup_scopes x (map strip_sc l) = lookup_scopes x l.
Proof. intros x l Hx. induction l as [|sc l IH]; [reflexivity|]. cbn [map lookup_scopes]. now rewrite assoc_strip, IH. Qed.
Lemma lookup_strip_hid : forall l, lookup_scopes hid (map strip_sc l) = None.
Proof. induction l as [|sc l IH]; [reflexivity|]. cbn [map lookup_scopes]. now rewrite assoc_strip_hid. Qed.

Definition popn (m : nat) (env : fenv) : fenv :=
  {| locals := skipn m (locals env); captured := captured env; cur := cur env |}.

Definition ret_mod : instr := {| op := OP_RET_MOD; args := [] |}.

Lemma assoc_in_fnames : forall (T : ftab) f (r : list str * list stmt), assoc f T = Some r -> In f (fnames T).
Proof. intros T f r H. apply assoc_keys. congruence. Qed.

Lemma In_keys_assoc : forall A (sc : list (str * A)) x, In x (map fst sc) -> assoc x sc <> None.
Proof. intros A sc x. apply assoc_keys. Qed.

Lemma assoc_del_other : forall A k x (l : list (str * A)), x <> k -> assoc x (assoc_del k l) = assoc x l.
Proof.
  intros A k x l Hne. induction l as [|[k' v'] l IH]; [reflexivity|]. cbn [assoc_del assoc].
  destruct (str_eqb k' k) eqn:E.
  - apply str_eqb_eq in E. subst k'. rewrite (str_eqb_neq k x) by congruence. reflexivity.
  - cbn [assoc]. destruct (str_eqb k' x); [reflexivity|exact IH].
Qed.
Lemma assoc_set_absent : forall A k (v : A) l, assoc k l = None -> assoc_set k v l = l ++ [(k, v)].
Proof.
  intros A k v. induction l as [|[k' v'] l IH]; intros H; [reflexivity|]. cbn [assoc assoc_set app] in *.
  destruct (str_eqb k' k); [discriminate|]. now rewrite IH.
Qed.
Lemma assoc_del_absent : forall A k (l : list (str * A)), assoc k l = None -> assoc_del k l = l.
Proof.
  intros A k. induction l as [|[k' v'] l IH]; intros H; [reflexivity|]. cbn [assoc assoc_del] in *.
  destruct (str_eqb k' k); [discriminate|]. now rewrite IH.
Qed.
Lemma assoc_del_set_absent : forall A k (v : A) l, assoc k l = None -> assoc_del k (assoc_set k v l) = l.
Proof.
  intros A k v. induction l as [|[k' v'] l IH]; intros H; cbn [assoc assoc_set assoc_del] in *.
  - now rewrite str_eqb_refl.
  - destruct (str_eqb k' k) eqn:E; [discriminate|]. cbn [assoc_del]. rewrite E. now rewrite IH.
Qed.
Lemma assoc_del_set_comm : forall A x k (v : A) l, x <> k ->
  assoc_del x (assoc_set k v l) = assoc_set k v (assoc_del x l).
Proof.
  intros A x k v l Hne. induction l as [|[k' v'] l IH]; cbn [assoc_set assoc_del].
  - rewrite (str_eqb_neq k x) by congruence. reflexivity.
  - destruct (str_eqb k' k) eqn:E1, (str_eqb k' x) eqn:E2; cbn [assoc_set assoc_del].
    + apply str_eqb_eq in E1, E2. congruence.
    + rewrite E1. apply str_eqb_eq in E1. subst k'. rewrite (str_eqb_neq k x) by congruence. reflexivity.
    + rewrite E2. reflexivity.
    + rewrite E1, E2. now rewrite IH.
Qed.

Lemma unsnoc_app : forall A (l : list A) z, unsnoc (l ++ [z]) = Some (l, z).
Proof.
  intros A. induction l as [|x l IH]; intros z; [reflexivity|]. cbn [app]. 
  change (unsnoc (x :: l ++ [z])) with
    (match l ++ [z] with [] => Some ([], x) | _ :: _ => match unsnoc (l ++ [z]) with Some (i, y) => Some (x :: i, y) | None => None end end).
  rewrite IH. destruct (l ++ [z]) eqn:E; [destruct l; discriminate|reflexivity].
Qed.

Section Base.
Variable base : list frame.             (* the frames below the current activation: never touched *)
Variable FT : ftab.                     (* the module-level functions visible in the current activation *)
Local Notation funs := (fnames FT).
Local Notation uname := (StmtRel.uname (fnames FT)).
Local Notation look := (StmtRel.look (fnames FT)).
Local Notation Rfr := (StmtRel.Rfr (fnames FT)).
Local Notation pairs := (StmtRel.pairs (fnames FT)).
Local Notation bij := (StmtRel.bij (fnames FT)).
Local Notation pins_ok := (StmtRel.pins_ok (fnames FT)).
Variable lfuns : list str.              (* those of them that are bound in the activation's own scopes (module level) *)
(* where the function values live: f -> (source cell, VM cell, captured environment, captured cells) *)
Variable fcells : list (str * (N * N * list scope * option (list (str * N)))).
Variable floc : str -> str.             (* the VM name of the function's code *)
Variable cb : option (list (str * N)).  (* a_cb of the current activation *)
Hypothesis Hlfuns : forall f, In f lfuns -> In f funs.
Hypothesis Hfun0 : forall f, In f funs -> uname0 f.
Hypothesis Hfck : forall f, In f funs <-> assoc f fcells <> None.
Variable SP : option (list str).        (* the parameters of the executing function (None at module level) *)
Variable selfv : option rvalue.         (* `cur` of the activation: the closure being executed *)
Variable fnm : str.                     (* the VM name of the executing function *)
Hypothesis HSPself : forall ps, SP = Some ps -> exists body cenv, selfv = Some (RClos ps body cenv).
(* the cells holding function values, program-wide (a callee may see more functions than its caller): pinned *)
Variable fpins : pinset.
Hypothesis Hgpv : forall f c c' cenv cbf, assoc f fcells = Some (c, c', cenv, cbf) -> vpin fpins c' (VFun (floc f) cbf).
Hypothesis Hgps : forall f c c' cenv cbf ps body, assoc f fcells = Some (c, c', cenv, cbf) -> assoc f FT = Some (ps, body) ->
  spin fpins c (RClos ps body cenv).
(* the DATA variables the activation captures (by reference): name -> source cell, the VM cells are in cb; their values
   do not change while the activation runs (they are among the static pins) *)
Variable cdsc : scope.
Local Notation CD := (map fst cdsc).
Hypothesis Hcd : forall x c, assoc x cdsc = Some c ->
  uname x /\ exists c' v m, cb = Some m /\ assoc x m = Some c' /\ first_order v /\ spin fpins c v /\ vpin fpins c' (inj v).
(* module level: the data variables captured by some function so far keep their cells (name, source cell, VM cell) *)
Variable dtab : list (str * (N * N)).
Hypothesis Hdtab : forall x cc, In (x, cc) dtab -> uname x.
Definition strip_cap (env : fenv) : fenv := {| locals := map strip_sc (locals env); captured := [cdsc]; cur := cur env |}.
(* the data cell pairs (source, VM) that must hold related values when a callee is called: per callable function / for `self` *)
Variable fdn : str -> list (N * N).
Variable sdn : list (N * N).
Definition dpair_ok (p : N * N) : Prop :=
  (exists x, In (x, p) dtab) \/ (exists v, first_order v /\ spin fpins (fst p) v /\ vpin fpins (snd p) (inj v)).
Hypothesis Hdn : forall f p, In f funs -> In p (fdn f) -> dpair_ok p.
Hypothesis Hsdn : forall p, In p sdn -> dpair_ok p.

Lemma fun_name_neq : forall f x, In f funs -> uname x -> x <> f.
Proof. intros f x Hf Hx ->. exact (uname_nfun _ Hx Hf). Qed.


Section Pins.
Context {pins : pinset}.

Record Rg (env : fenv) (s : rstate) (g : gstate) : Prop := {
  Rg_fr : Rfr (store s) (cells g) (locals env) (frames g);
  Rg_bij : bij (locals env) (frames g);
  Rg_out : out g = rout s;
  Rg_base : skipn (length (locals env)) (frames g) = base;
  Rg_un : forall x, lookup_scopes x (locals env) <> None -> uname x \/ In x lfuns \/ x = hid;
  Rg_ns : NS (locals env);
  Rg_pins : pins_ok pins (locals env) (frames g) (store s) (cells g);
  Rg_nd : frames_nd (frames g);
  Rg_fpin : pins_ok fpins (locals env) (frames g) (store s) (cells g);
  Rg_flook : forall f c c' cenv cbf, assoc f fcells = Some (c, c', cenv, cbf) ->
             flook cb (captured env) (locals env) (frames g) f c c';
  Rg_cur : cur env = selfv;
  Rg_cf : current_function (frames g) = Some fnm;
  Rg_capd : forall x c, assoc x cdsc = Some c -> lookup_scopes x (captured env) = Some c;
  Rg_dlook : forall x c c', In (x, (c, c')) dtab -> flook None [] (locals env) (frames g) x c c'
}.

Definition Rst (env : fenv) (s : rstate) (a : act) (g : gstate) : Prop :=
  Rg env s g /\ a_ops a = [] /\ length (locals env) <= S (a_ss a).

(* B is EXACTLY the set of names bound in the current function's scopes (static scoping is exact in the fragment);
   the hidden counters of anonymous loops are not tracked *)
Definition bound_in (B : list str) (env : fenv) : Prop :=
  (forall x, x <> hid -> (lookup_scopes x (locals env) <> None <-> In x B \/ In x lfuns)) /\
  (forall x, In x B -> ~ In x funs /\ x <> hid).

Definition same_tl (env env' : fenv) : Prop := tl (locals env') = tl (locals env) /\ locals env' <> [].
Lemma same_tl_refl : forall env, locals env <> [] -> same_tl env env.
Proof. intros env H. split; [reflexivity|exact H]. Qed.
Lemma same_tl_trans : forall e1 e2 e3, same_tl e1 e2 -> same_tl e2 e3 -> same_tl e1 e3.
Proof. intros e1 e2 e3 [A1 A2] [B1 B2]. split; [congruence|exact B2]. Qed.
Lemma same_tl_length : forall e1 e2, locals e1 <> [] -> same_tl e1 e2 -> length (locals e2) = length (locals e1).
Proof.
  intros e1 e2 H1 [A B]. destruct (locals e1) as [|s1 l1]; [congruence|]. destruct (locals e2) as [|s2 l2]; [congruence|].
  cbn [tl] in A. subst l2. reflexivity.
Qed.

Definition act_same (a a' : act) : Prop := a_fn a' = a_fn a /\ a_args a' = a_args a /\ a_cb a' = a_cb a.

Lemma act_same_refl : forall a, act_same a a.
Proof. intros a. repeat split. Qed.
Lemma act_same_trans : forall a b c, act_same a b -> act_same b c -> act_same a c.
Proof. intros a b c (A1 & A2 & A3) (B1 & B2 & B3). repeat split; congruence. Qed.
Lemma act_same_upd : forall a a' ip ops, act_same a a' -> act_same a (upd a' ip ops).
Proof. intros a a' ip ops (A1 & A2 & A3). repeat split; assumption. Qed.
Lemma act_ext : forall a a1 ip ops, act_same a a1 -> a_ip a1 = ip -> a_ops a1 = ops -> a_ss a1 = a_ss a -> a1 = upd a ip ops.
Proof. intros [f0 i0 o0 ar0 c0 s0] [f1 i1 o1 ar1 c1 s1] ip ops (A1 & A2 & A3) H1 H2 H3. cbn in *. subst. reflexivity. Qed.

(* statement-level failures: an assertion reports its span; a dynamic type error (never in a typed program)
   may also surface as a failed assertion (`assert nil`) *)
Definition err_rel_s (f : failure) (e : err) : Prop :=
  match f with
  | FAssert sp => e = E_assert sp
  | FType _ => err_rel f e \/ exists sp, e = E_assert sp
  | _ => err_rel f e
  end.

(* FType 13 = a non-integer loop counter / bound of a `from` loop; FType 3 = the result of a function that returned
   no value is used (both excluded by the type checker): no claim *)
Definition fail_post (f : failure) (P : Prop) : Prop :=
  match f with FType 13%N => True | FType 3%N => True | _ => P end.
Lemma fail_post_other : forall f (P : Prop), f <> FType 13%N -> f <> FType 3%N -> fail_post f P = P.
Proof.
  intros f P H13 H3. destruct f as [| | | |n|]; try reflexivity.
  destruct n as [|p]; [reflexivity|]. do 4 (try destruct p as [p|p|]); try reflexivity; congruence.
Qed.
Lemma fail_post_spec : forall f (P : Prop), fail_post f P <-> ((f = FType 13%N \/ f = FType 3%N) \/ P).
Proof.
  intros f P.
  assert (Hdec : (f = FType 13%N \/ f = FType 3%N) \/ (f <> FType 13%N /\ f <> FType 3%N)).
  { destruct f as [| | | |n|]; try (right; split; discriminate).
    destruct (N.eq_dec n 13) as [->|H13]; [auto|]. destruct (N.eq_dec n 3) as [->|H3]; [auto|]. right. split; congruence. }
  destruct Hdec as [[-> | ->]|[H13 H3]]; [split; [auto|intros _; exact Logic.I]..|].
  rewrite (fail_post_other f P H13 H3). split; [auto|]. intros [[H|H]|H]; [contradiction..|exact H].
Qed.
Lemma fail_post_intro : forall f (P : Prop), P -> fail_post f P.
Proof. intros f P H. apply fail_post_spec. right. exact H. Qed.
Lemma fail_post_map : forall f (P Q : Prop), (P -> Q) -> fail_post f P -> fail_post f Q.
Proof. intros f P Q HPQ H. apply fail_post_spec in H. apply fail_post_spec. destruct H as [H|H]; [left; exact H|right; exact (HPQ H)]. Qed.
Lemma fail_post_inv : forall f (P : Prop), fail_post f P -> (f = FType 13%N \/ f = FType 3%N) \/ P.
Proof. intros f P. apply fail_post_spec. Qed.

Lemma fail_post_xrun : forall {prog name code a g a1 g1 f} {Q : err -> gstate -> Prop},
  xrun prog name code a g a1 g1 ->
  fail_post f (exists e g', xfail prog name code a1 g1 e g' /\ Q e g') ->
  fail_post f (exists e g', xfail prog name code a g e g' /\ Q e g').
Proof.
  intros prog name code a g a1 g1 f Q R. apply fail_post_map. intros (e & g' & Hf & Hq).
  exists e, g'. split; [exact (xrun_fail R Hf)|exact Hq].
Qed.

Lemma err_rel_s_of : forall f e, err_rel f e -> err_rel_s f e.
Proof. intros f e H. destruct f; cbn in *; auto; contradiction. Qed.

Lemma bound_in_uname : forall B env x, bound_in B env -> uname0 x -> In x B -> uname x.
Proof. intros B env x [_ H2] H0 Hin. split; [exact H0|exact (proj1 (H2 x Hin))]. Qed.
Lemma bound_in_look : forall B env x, bound_in B env -> In x B -> lookup_scopes x (locals env) <> None.
Proof. intros B env x [H1 H2] Hin. apply H1; [exact (proj2 (H2 x Hin))|now left]. Qed.

Lemma In_mem_str : forall x l, In x l -> mem_str x l = true.
Proof.
  induction l as [|y l IH]; intros H; [destruct H|]. cbn [mem_str]. destruct H as [->|H].
  - now rewrite str_eqb_refl.
  - rewrite IH by exact H. apply Bool.orb_true_r.
Qed.
Lemma uname_of_b : forall x, src_nameb x = true -> mem_str x funs = false -> uname x.
Proof.
  intros x H1 H2. split; [now apply src_nameb_ok|]. intros Hin. apply In_mem_str in Hin. congruence.
Qed.
Lemma bound_in_assign : forall B env env' x, bound_in B env -> uname x ->
  (forall y, lookup_scopes y (locals env') <> None <-> (y = x \/ lookup_scopes y (locals env) <> None)) ->
  bound_in (x :: B) env'.
Proof.
  intros B env env' x [H1 H2] Hx Hl. split.
  - intros y Hy. rewrite (Hl y), (H1 y Hy). cbn [In]. split; [intros [H|[H|H]]|intros [[H|H]|H]]; auto.
  - intros y [<-|Hy]; [split; [exact (uname_nfun _ Hx)|exact (uname_not_hid _ Hx)]|exact (H2 y Hy)].
Qed.

Lemma bound_in_eq : forall B env env', bound_in B env -> locals env' = locals env -> bound_in B env'.
Proof. intros B env env' [H1 H2] E. split; [intros x Hx; rewrite E; now apply H1|exact H2]. Qed.

Lemma Rg_top_same : forall env s g sc l f fs sc' vs extra tr,
  Rg env s g -> locals env = sc :: l -> frames g = f :: fs ->
  (forall y, y <> hid -> assoc y sc' = assoc y sc) ->
  (forall y, uname0 y -> assoc y vs = assoc y (vars f)) -> keys_nd vs ->
  Rg {| locals := sc' :: l; captured := captured env; cur := cur env |} s
     {| cells := cells g ++ extra; frames := {| lab := lab f; vars := vs |} :: fs; out := out g; trace := tr |}.
Proof.
  intros [l0 cap cu] [st ro] [cs fs0 o tr0] sc l f fs sc' vs extra tr [Hfr Hb Ho Hbase Hun Hns Hpins Hnd Hfp Hfl Hcur Hcf Hcapd Hdl] El Ef Hsc Hvs Hndv.
  cbn [locals captured cur store rout cells frames out trace] in *. subst l0 fs0.
  set (f' := {| lab := lab f; vars := vs |}).
  assert (Hs : forall x, uname x -> assoc x sc' = assoc x sc) by (intros x Hx; apply Hsc; exact (uname_not_hid _ Hx)).
  assert (Hfind : forall x, uname x -> find_in_function x (f' :: fs) = find_in_function x (f :: fs)).
  { intros x Hx. cbn [find_in_function f' vars lab]. now rewrite (Hvs x (proj1 Hx)). }
  assert (Hpairs : forall c0 c0', pairs (sc' :: l) (f' :: fs) c0 c0' -> pairs (sc :: l) (f :: fs) c0 c0').
  { intros c0 c0' Hp. apply (pairs_scope sc sc' l _ _ _ Hs) in Hp. apply (pairs_top (sc :: l) f f' fs _ _ Hfind) in Hp. exact Hp. }
  constructor; cbn [locals captured cur store rout cells frames out]; try assumption.
  - rewrite <- (app_nil_r st). apply Rfr_mono. apply (Rfr_scope _ _ sc); [|exact Hs]. eapply Rfr_top; [exact Hfr|reflexivity|exact Hfind].
  - eapply bij_scope; [|exact Hs]. eapply bij_top; eassumption.
  - intros y Hy. destruct (list_eq_dec N.eq_dec y hid) as [->|Hne]; [right; right; reflexivity|]. apply Hun.
    cbn [lookup_scopes] in *. now rewrite <- (Hsc y Hne).
  - cbn [NS] in *. destruct Hns as [H1 H2]. split; [|exact H2]. intros y Hyh Hy. apply H1; [exact Hyh|]. now rewrite <- (Hsc y Hyh).
  - rewrite <- (app_nil_r st). apply pins_mono_. eapply pins_sub_; [exact Hpins|exact Hpairs].
  - apply (nd_top f fs); assumption.
  - rewrite <- (app_nil_r st). apply pins_mono_. eapply pins_sub_; [exact Hfp|exact Hpairs].
  - intros f0 c0 c0' cenv cbf E. specialize (Hfl f0 c0 c0' cenv cbf E).
    assert (Hin : In f0 funs) by (apply Hfck; congruence). pose proof (Hfun0 f0 Hin) as H0.
    eapply flook_top; [exact Hfl|apply Hsc; exact (proj2 (proj2 H0))|].
    cbn [find_in_function f' vars lab]. now rewrite (Hvs f0 H0).
  - intros x0 c0 c0' Hin. specialize (Hdl x0 c0 c0' Hin). pose proof (proj1 (Hdtab _ _ Hin)) as H0.
    eapply flook_top; [exact Hdl|apply Hsc; exact (proj2 (proj2 H0))|].
    cbn [find_in_function f' vars lab]. now rewrite (Hvs x0 H0).
Qed.

Lemma Rg_ext : forall env s g g' d lo hi, Rg env s g -> ext d lo hi g g' -> frames_nd (frames g') -> Rg env s g'.
Proof.
  intros [l cap cu] s g [cs' fs' o' tr'] d lo hi HG He Hnd'.
  destruct (ext_cells _ _ _ _ _ He) as [extra Ec].
  pose proof (ext_labs _ _ _ _ _ He) as Hl. pose proof (ext_tail _ _ _ _ _ He) as Ht.
  pose proof (ext_top _ _ _ _ _ He) as Htop. pose proof (ext_out _ _ _ _ _ He) as Hout.
  destruct (Rfr_ne _ _ _ _ (Rg_fr _ _ _ HG)) as [Hne Hnf]. cbn [locals cells frames out] in *. subst cs' o'.
  destruct l as [|sc l]; [congruence|]. destruct (frames g) as [|f fs] eqn:Ef; [congruence|].
  destruct fs' as [|[lb vs] fs']; [discriminate|]. cbn [map tl lab] in Hl, Ht. subst fs'. injection Hl as ->.
  apply (Rg_top_same _ s g sc l f fs sc vs extra tr' HG eq_refl Ef); [reflexivity| |inversion Hnd'; assumption].
  intros y Hy. apply Htop. apply own_reg_not_src. exact (proj1 Hy).
Qed.

Lemma Rg_ne : forall env s g, Rg env s g -> locals env <> [].
Proof. intros env s g H. exact (proj1 (Rfr_ne _ _ _ _ (Rg_fr _ _ _ H))). Qed.
Lemma Rg_len : forall env s g, Rg env s g -> 1 <= length (locals env).
Proof. intros env s g H. pose proof (Rg_ne _ _ _ H). destruct (locals env); [congruence|cbn [length]; lia]. Qed.
Lemma Rst_same_tl : forall env s a g, Rst env s a g -> same_tl env env.
Proof. intros env s a g H. exact (same_tl_refl _ (Rg_ne _ _ _ (proj1 H))). Qed.

Lemma Rg_flook0 : forall env s g f c c' cenv cbf, Rg env s g -> assoc f fcells = Some (c, c', cenv, cbf) ->
  lookup_scopes f (locals env ++ captured env) = Some c /\ lookup_fs cb (frames g) f = Some c'.
Proof. intros env s g f c c' cenv cbf H E. exact (flook_0 _ _ _ _ _ _ _ (Rg_flook _ _ _ H f c c' cenv cbf E) (Rg_ne _ _ _ H)). Qed.
Lemma Rg_dlook0 : forall env s g x c c', Rg env s g -> In (x, (c, c')) dtab ->
  lookup_scopes x (locals env) = Some c /\ lookup_fs None (frames g) x = Some c'.
Proof.
  intros env s g x c c' H Hin. destruct (flook_0 _ _ _ _ _ _ _ (Rg_dlook _ _ _ H x c c' Hin) (Rg_ne _ _ _ H)) as [H1 H2].
  rewrite app_nil_r in H1. split; assumption.
Qed.

Lemma Rg_drop : forall env s g, Rg env s g -> drop_to_function (frames g) = base.
Proof. intros env s g H. rewrite (Rfr_drop _ _ _ _ (Rg_fr _ _ _ H)). exact (Rg_base _ _ _ H). Qed.

Lemma lookup_app_split : forall x l r, lookup_scopes x (l ++ r) = match lookup_scopes x l with Some c => Some c | None => lookup_scopes x r end.
Proof. intros x l r. induction l as [|sc l IH]; [reflexivity|]. cbn [app lookup_scopes]. destruct (assoc x sc); [reflexivity|exact IH]. Qed.

Lemma Rg_lookup : forall env s g x, Rg env s g -> uname x -> lookup_scopes x (locals env) <> None ->
  exists c c' v, lookup_scopes x (locals env) = Some c /\ find_in_function x (frames g) = Some c' /\
                 pairs (locals env) (frames g) c c' /\
                 sget s c = Some v /\ first_order v /\ cell_get g c' = Some (inj v).
Proof.
  intros env s g x [Hfr _ _ _ _ _ _ _ _ _] Hx Hb.
  pose proof (Rfr_look _ _ _ _ Hfr x Hx) as H.
  destruct (lookup_scopes x (locals env)) as [c|] eqn:E; [|congruence].
  destruct (find_in_function x (frames g)) as [c'|] eqn:E'; [|contradiction]. destruct H as (v & H1 & Hf & H2).
  exists c, c', v. repeat split; try assumption.
  destruct (locals env) as [|sc l]; [discriminate|]. destruct (frames g) as [|f fs]; [discriminate|].
  cbn [StmtRel.pairs]. left. exists x. auto.
Qed.

Lemma Rg_Renv : forall env s a g, Rg env s g -> a_cb a = cb -> Renv (strip_cap env) s a g.
Proof.
  intros env s a g HG Hacb x c v _ Hl Hg Hfo. cbn [strip_cap locals captured] in Hl. rewrite lookup_app_split in Hl.
  destruct (lookup_scopes x (map strip_sc (locals env))) as [c1|] eqn:E1.
  2:{ (* a captured data variable: its two cells are pinned *)
    cbn [lookup_scopes] in Hl. destruct (assoc x cdsc) as [c2|] eqn:E2; [|discriminate]. injection Hl as ->.
    destruct (Hcd x c E2) as (Hx & c' & v0 & m & Ecb & Em & Hfo0 & Hs & Hv).
    destruct (Rg_fpin _ _ _ HG) as [F1 F2]. destruct (F1 c' (inj v0) Hv) as [A1 _]. destruct (F2 c v0 Hs) as [A2 _].
    unfold sget in Hg. rewrite A2 in Hg. injection Hg as ->.
    rewrite (lookup_strip x _ (uname_not_hid _ Hx)) in E1.
    pose proof (Rfr_look _ _ _ _ (Rg_fr _ _ _ HG) x Hx) as H. rewrite E1 in H.
    destruct (find_in_function x (frames g)) as [cz|] eqn:E; [contradiction|].
    exists c'. split; [unfold lookup_var, load_cb; rewrite E, Hacb, Ecb; exact Em|exact A1]. }
  injection Hl as ->.
  assert (Hxn : x <> hid) by (intros ->; rewrite lookup_strip_hid in E1; discriminate).
  rewrite (lookup_strip x _ Hxn) in E1.
  assert (Hx : uname x).
  { destruct (Rg_un _ _ _ HG x ltac:(congruence)) as [Hx|[Hx|Hx]]; [exact Hx| |congruence]. exfalso.
    (* a function name: its cell holds a closure, not a first-order value *)
    apply Hlfuns in Hx. destruct (assoc x fcells) as [[[[c0 c0'] cenv] cbf]|] eqn:E; [|exact (proj1 (Hfck x) Hx E)].
    destruct (Rg_flook0 _ _ _ _ _ _ _ _ HG E) as [H1 _]. rewrite (lookup_app_some _ _ (captured env) _ E1) in H1. injection H1 as <-.
    destruct (assoc x FT) as [[ps body]|] eqn:Hft; [|exact (proj2 (assoc_keys _ FT x) Hx Hft)].
    destruct (proj2 (Rg_fpin _ _ _ HG) c (RClos ps body cenv) (Hgps x c c0' cenv cbf ps body E Hft)) as [Hv _].
    unfold sget in Hg. rewrite Hv in Hg. injection Hg as <-. exact Hfo. }
  destruct (Rg_lookup env s g x HG Hx ltac:(congruence)) as (c1 & c' & v0 & E1' & E2 & _ & E3 & _ & E4).
  exists c'. split; [unfold lookup_var; now rewrite E2|]. congruence.
Qed.

Lemma Rg_var_ok : forall env s g x, Rg env s g -> uname x -> lookup_scopes x (locals env) <> None -> var_ok env s x.
Proof.
  intros env s g x HG Hx Hb. destruct (Rg_lookup env s g x HG Hx Hb) as (c & c' & v & E1 & _ & _ & E3 & Hfo & _).
  split; [exact (uname_src _ Hx)|]. exists c, v. split; [now apply lookup_app_some|auto].
Qed.

Lemma update_rel : forall env s g c c' v, Rg env s g -> pairs (locals env) (frames g) c c' -> first_order v ->
  Rg env (sset s c v) (cell_set g c' (inj v)).
Proof.
  intros [l cap cu] [st ro] [cs fs o tr] c c' v [Hfr Hb Ho Hbase Hun Hns Hpins Hnd Hfp Hfl] Hp Hfo.
  cbn [locals captured store rout cells frames out] in *.
  destruct (cellrel_valid _ _ _ _ (pairs_cellrel _ _ _ _ _ _ Hfr Hp)) as [V1 V2].
  constructor; cbn [sset cell_set store cells frames out rout locals captured]; try assumption.
  - apply Rfr_update; try assumption. intros cy cy' Hq. exact (Hb _ _ _ _ Hq Hp).
  - eapply pins_update_; eassumption.
  - eapply pins_update_; eassumption.
Qed.

Lemma store_rel : forall env s g x v env' s', Rg env s g -> uname x -> first_order v ->
  assign env s x v = (env', s') ->
  exists g', store_var g x (inj v) = Some g' /\ Rg env' s' g' /\ same_tl env env' /\
             (forall y, lookup_scopes y (locals env') <> None <-> (y = x \/ lookup_scopes y (locals env) <> None)) /\
             tl (frames g') = tl (frames g) /\
             (forall z, z <> x -> find_in_function z (frames g') = find_in_function z (frames g)).
Proof.
  intros env s g x v env' s' HG Hx Hfo Ha. unfold assign in Ha. unfold store_var.
  destruct (lookup_scopes x (locals env)) as [cx|] eqn:E1.
  -
    destruct (Rg_lookup env s g x HG Hx ltac:(congruence)) as (c0 & cx' & v0 & E1' & E2 & Hp & _).
    rewrite E1 in E1'. injection E1' as <-. rewrite E2. injection Ha as <- <-. eexists. split; [reflexivity|].
    split; [exact (update_rel env s g cx cx' v HG Hp Hfo)|]. split; [exact (same_tl_refl _ (Rg_ne _ _ _ HG))|].
    split; [|split; reflexivity]. intros y. split; [auto|]. intros [->|H]; [congruence|exact H].
  -
    pose proof (Rfr_look _ _ _ _ (Rg_fr _ _ _ HG) x Hx) as Hl. rewrite E1 in Hl.
    destruct (find_in_function x (frames g)) as [cx'|] eqn:E2; [contradiction|]. clear Hl.
    destruct env as [l cap cu], s as [st ro], g as [cs fs o tr], HG as [Hfr Hb Ho Hbase Hun Hns Hpins Hnd Hfp Hfl Hcur Hcf Hcapd Hdl].
    cbn [locals captured store rout cells frames out] in *.
    destruct l as [|sc l]; [destruct (Rfr_ne _ _ _ _ Hfr); congruence|].
    destruct fs as [|f fs]; [cbn in Hfr; contradiction|].
    unfold declare, alloc in Ha. cbn [locals store rout captured cur] in Ha. inversion Ha; subst env' s'.
    unfold bind_local, cell_new. cbn [frames cells out trace with_frames].
    eexists. split; [reflexivity|]. cbn [locals]. split; [|split; [|split; [|split]]].
    + constructor; cbn [store cells frames out rout locals captured]; try assumption.
      * apply Rfr_declare; assumption.
      * apply (bij_declare st cs); assumption.
      * intros y Hy. cbn [lookup_scopes] in Hy. destruct (list_eq_dec N.eq_dec y x) as [->|Hne]; [left; exact Hx|].
        rewrite assoc_set_other in Hy by exact Hne. apply Hun. exact Hy.
      * apply NS_declare; [assumption|right; exact E1].
      * apply pins_declare_. exact Hpins.
      * apply (nd_top f fs); [exact Hnd|]. apply keys_nd_assoc_set. inversion Hnd; assumption.
      * apply pins_declare_. exact Hfp.
      * intros f0 c0 c0' cenv cbf E. specialize (Hfl f0 c0 c0' cenv cbf E).
        assert (Hne : f0 <> x) by (intros ->; apply (uname_nfun _ Hx); apply Hfck; congruence).
        eapply flook_top; [exact Hfl|now rewrite assoc_set_other|].
        cbn [find_in_function vars lab]. now rewrite assoc_set_other.
      * intros x0 c0 c0' Hin. specialize (Hdl x0 c0 c0' Hin).
        assert (Hne : x0 <> x).
        { intros ->. destruct (Hdl 0 ltac:(cbn; lia)) as [H1 _]. cbn [skipn] in H1. rewrite app_nil_r in H1. congruence. }
        eapply flook_top; [exact Hdl|now rewrite assoc_set_other|].
        cbn [find_in_function vars lab]. now rewrite assoc_set_other.
    + split; [reflexivity|discriminate].
    + intros y. cbn [lookup_scopes]. destruct (list_eq_dec N.eq_dec y x) as [->|Hne].
      * rewrite assoc_set_same. split; [auto|discriminate].
      * rewrite assoc_set_other by exact Hne. split; [auto|]. intros [E|H]; [congruence|exact H].
    + reflexivity.
    + intros z Hz. cbn [with_frames frames find_in_function vars lab]. now rewrite assoc_set_other.
Qed.

Lemma push_rel : forall env s g lb, Rg env s g -> special lb = true -> Rg (push_scope env) s (push_frame g lb).
Proof.
  intros [l cap cu] [st ro] [cs fs o tr] lb [Hfr Hb Ho Hbase Hun Hns Hpins Hnd Hfp Hfl Hcur Hcf Hcapd Hdl] Hs.
  constructor; cbn [push_scope push_frame with_frames locals captured store rout cells frames out] in *; try assumption.
  - apply Rfr_push; assumption.
  - apply bij_push; assumption.
  - apply NS_push; assumption.
  - apply pins_push_; assumption.
  - constructor; [constructor|exact Hnd].
  - apply pins_push_; assumption.
  - intros f0 c0 c0' cenv cbf E. apply flook_push; [exact (Hfl _ _ _ _ _ E)|exact (proj1 (Rfr_ne _ _ _ _ Hfr))|exact Hs].
  - cbn [current_function lab]. destruct lb; try discriminate Hs; assumption.
  - intros x0 c0 c0' Hin. apply flook_push; [exact (Hdl _ _ _ Hin)|exact (proj1 (Rfr_ne _ _ _ _ Hfr))|exact Hs].
Qed.

Lemma popn_rel : forall m env s g, Rg env s g -> m < length (locals env) ->
  exists g', pop_frames m g = Some g' /\ Rg (popn m env) s g' /\ frames g' = skipn m (frames g) /\
             cells g' = cells g /\ out g' = out g.
Proof.
  induction m as [|m IH]; intros env s g HR Hm.
  - exists g. split; [reflexivity|]. split; [|auto]. destruct env, HR. constructor; assumption.
  - destruct env as [l cap cu], s as [st ro], g as [cs fs o tr]. destruct HR as [Hfr Hb Ho Hbase Hun Hns Hpins Hnd Hfp Hfl Hcur Hcf Hcapd Hdl].
    cbn [locals captured store rout cells frames out] in *.
    destruct l as [|sc l]; [cbn in Hm; lia|]. destruct l as [|sc' l]; [cbn in Hm; lia|].
    destruct fs as [|f fs]; [cbn in Hfr; contradiction|].
    cbn [pop_frames pop_frame frames with_frames cells out trace].
    destruct (IH {| locals := sc' :: l; captured := cap; cur := cu |} {| store := st; rout := ro |}
                 {| cells := cs; frames := fs; out := o; trace := tr |}) as (g' & E & HR' & F & C & O).
    + constructor; cbn [locals captured store rout cells frames out]; try assumption.
      * eapply Rfr_pop; exact Hfr.
      * eapply bij_pop; exact Hb.
      * intros y Hy. apply Hun. cbn [lookup_scopes] in Hy |- *. destruct (assoc y sc); [discriminate|exact Hy].
      * exact (proj2 Hns).
      * eapply pins_pop_; exact Hpins.
      * inversion Hnd; assumption.
      * eapply pins_pop_; exact Hfp.
      * intros f0 c0 c0' cenv cbf E. eapply flook_pop. exact (Hfl _ _ _ _ _ E).
      * pose proof Hfr as Hfr'. cbn [StmtRel.Rfr] in Hfr'. destruct Hfr' as [_ [Hspf _]].
        cbn [current_function] in Hcf. destruct (lab f); try discriminate Hspf; exact Hcf.
      * intros x0 c0 c0' Hin. eapply flook_pop. exact (Hdl _ _ _ Hin).
    + cbn [locals length] in *. lia.
    + exists g'. split; [exact E|]. split; [exact HR'|]. auto.
Qed.

Lemma Rg_trc : forall env s g name a i, Rg env s g -> Rg env s (trc name a g i).
Proof. intros env s g name a i [A B D E F G H I0 J K]. constructor; assumption. Qed.

Lemma print_rel : forall env s g l, Rg env s g -> Rg env (sprint s l) (emit_line g l).
Proof.
  intros env s g l [A B D E F G H I0 J K]. constructor; cbn [sprint emit_line store cells frames out rout]; try assumption.
  now rewrite D.
Qed.

End Pins.
Arguments Rg : clear implicits.
Arguments Rst : clear implicits.

Lemma show_inj : forall v, first_order v -> exists l, rshow v = Some l /\ show (inj v) = Some l.
Proof. intros [z|[|]|t| |p b e] H; cbn in *; try contradiction; eexists; split; reflexivity. Qed.

Lemma arith5_arith_op : forall o, arith5 o = true -> arith_op o.
Proof. intros o H. split; intros ->; discriminate. Qed.

Lemma arith5_not_bool : forall o a b s r s', arith5 o = true -> binop_sem o a b s = EVal r s' ->
  match inj r with VBool _ => False | _ => True end.
Proof.
  intros o a b s r s' Ho H. unfold binop_sem, arith_res in H.
  destruct o; try discriminate Ho; destruct a; try discriminate H; destruct b; try discriminate H; cbn [rshow] in H;
    repeat match type of H with context [if ?c then _ else _] => destruct c end;
    try discriminate H; injection H as <- _; exact Logic.I.
Qed.

Lemma exec_SAssign : forall fuel env x e s, Eval.exec (S fuel) env (SAssign x e) s =
  match eval fuel env e s with
  | EVal v s => let '(e', s') := assign env s x v in SOk SigNormal e' s'
  | ENoVal s => SFailed (FType 3) s | EFail f s => SFailed f s | EFuel => SFuel end.
Proof. reflexivity. Qed.
Lemma exec_SOpAssign : forall fuel env x o e s, Eval.exec (S fuel) env (SOpAssign x o e) s =
  match eval fuel env e s with
  | EVal v s =>
    match lookup_scopes x (locals env ++ captured env) with
    | Some c => match sget s c with
                | Some cur_ => match binop_sem o cur_ v s with
                               | EVal r s => SOk SigNormal env (sset s c r)
                               | EFail f s => SFailed f s | _ => SFailed (FType 9) s end
                | None => SFailed (FUnbound x) s end
    | None => SFailed (FUnbound x) s end
  | ENoVal s => SFailed (FType 3) s | EFail f s => SFailed f s | EFuel => SFuel end.
Proof. reflexivity. Qed.
Lemma exec_SPrint : forall fuel env e s, Eval.exec (S fuel) env (SPrint e) s =
  match eval fuel env e s with
  | EVal v s => match rshow v with Some l => SOk SigNormal env (sprint s l) | None => SFailed (FType 10) s end
  | ENoVal s => SFailed (FType 3) s | EFail f s => SFailed f s | EFuel => SFuel end.
Proof. reflexivity. Qed.
Lemma exec_SAssert : forall fuel env e sp s, Eval.exec (S fuel) env (SAssert e sp) s =
  match eval fuel env e s with
  | EVal v s => match v with
                | RBool true => SOk SigNormal env s
                | RBool false => SFailed (FAssert sp) s
                | _ => SFailed (FType 11) s end
  | ENoVal s => SFailed (FType 3) s | EFail f s => SFailed f s | EFuel => SFuel end.
Proof. reflexivity. Qed.
Lemma exec_SExpr : forall fuel env e s, Eval.exec (S fuel) env (SExpr e) s =
  match eval fuel env e s with
  | EVal _ s | ENoVal s => SOk SigNormal env s | EFail f s => SFailed f s | EFuel => SFuel end.
Proof. reflexivity. Qed.

Definition in_block_ (fuel : nat) (body : list stmt) (e : fenv) (s : rstate) : sres_ :=
  match exec_block fuel (push_scope e) body s with
  | SOk g e s => SOk g (pop_scope e) s | r => r end.

Lemma exec_SIf : forall fuel env c body s, Eval.exec (S fuel) env (SIf c body) s =
  match eval fuel env c s with
  | EVal v s => match v with
                | RBool true => in_block_ fuel body env s
                | RBool false => SOk SigNormal env s
                | _ => SFailed (FType 12) s end
  | ENoVal s => SFailed (FType 3) s | EFail f s => SFailed f s | EFuel => SFuel end.
Proof. reflexivity. Qed.
Lemma exec_SIfElse : forall fuel env c body els s, Eval.exec (S fuel) env (SIfElse c body els) s =
  match eval fuel env c s with
  | EVal v s => match v with
                | RBool true => in_block_ fuel body env s
                | RBool false => in_block_ fuel els env s
                | _ => SFailed (FType 12) s end
  | ENoVal s => SFailed (FType 3) s | EFail f s => SFailed f s | EFuel => SFuel end.
Proof. reflexivity. Qed.
Lemma exec_SIfElif : forall fuel env c body nxt s, Eval.exec (S fuel) env (SIfElif c body nxt) s =
  match eval fuel env c s with
  | EVal v s => match v with
                | RBool true => in_block_ fuel body env s
                | RBool false => in_block_ fuel [nxt] env s
                | _ => SFailed (FType 12) s end
  | ENoVal s => SFailed (FType 3) s | EFail f s => SFailed f s | EFuel => SFuel end.
Proof. reflexivity. Qed.
Lemma exec_SWhile : forall fuel env c body s, Eval.exec (S fuel) env (SWhile c body) s =
  match eval fuel env c s with
  | EVal v s => match v with
                | RBool false => SOk SigNormal env s
                | RBool true =>
                  match in_block_ fuel body env s with
                  | SOk (SigNormal | SigContinue) e s => Eval.exec fuel e (SWhile c body) s
                  | SOk SigBreak e s => SOk SigNormal e s
                  | r => r end
                | _ => SFailed (FType 12) s end
  | ENoVal s => SFailed (FType 3) s | EFail f s => SFailed f s | EFuel => SFuel end.
Proof. reflexivity. Qed.
Lemma exec_block_cons : forall fuel env st l s, exec_block (S fuel) env (st :: l) s =
  match Eval.exec fuel env st s with
  | SOk SigNormal e s => exec_block fuel e l s
  | r => r end.
Proof. reflexivity. Qed.
Lemma exec_block_nil : forall fuel env s, exec_block (S fuel) env [] s = SOk SigNormal env s.
Proof. reflexivity. Qed.

Definition res_to (r : eres) (s' : rstate) : eres :=
  match r with EVal v _ => EVal v s' | ENoVal _ => ENoVal s' | EFail f _ => EFail f s' | EFuel => EFuel end.
Definition res_st (r : eres) (s : rstate) : Prop :=
  match r with EVal _ s0 | ENoVal s0 | EFail _ s0 => s0 = s | EFuel => True end.
Definition agree (env : fenv) (s : rstate) (env' : fenv) (s' : rstate) (x : str) : Prop :=
  exists c c' v, lookup_scopes x (locals env ++ captured env) = Some c /\ sget s c = Some v /\
                 lookup_scopes x (locals env' ++ captured env') = Some c' /\ sget s' c' = Some v.

Lemma binop_sem_to : forall o a b s s', res_st (binop_sem o a b s) s /\ binop_sem o a b s' = res_to (binop_sem o a b s) s'.
Proof.
  intros o a b s s'. unfold binop_sem, arith_res.
  destruct o; try (destruct (req a b); split; reflexivity); destruct a; try (split; reflexivity); destruct b; try (split; reflexivity);
    repeat match goal with |- context [if ?c then _ else _] => destruct c end; try (split; reflexivity).
  all: match goal with b0 : bool |- _ => destruct b0 end; split; reflexivity.
Qed.

Lemma all_app : forall A (P : A -> Prop) l1 l2, (forall x, In x (l1 ++ l2) -> P x) ->
  (forall x, In x l1 -> P x) /\ (forall x, In x l2 -> P x).
Proof. intros A P l1 l2 H. split; intros x Hx; apply H, in_or_app; [now left|now right]. Qed.

Definition congr_spec (e : expr) : Prop :=
  forall fuel env s env' s', (forall x, In x (used_e e) -> agree env s env' s' x) ->
    res_st (eval fuel env e s) s /\ eval fuel env' e s' = res_to (eval fuel env e s) s'.

Ltac congr_sub IH Hv fuel env s env' s' r :=
  let H1 := fresh "H1" in let H2 := fresh "H2" in
  destruct (IH fuel env s env' s' Hv) as [H1 H2]; rewrite H2; clear H2;
  destruct (eval fuel env r s) as [? ?|?|? ?|]; cbn [res_st res_to] in *; try subst;
  try (split; reflexivity).

Theorem eval_pure_congr : forall e, pure e = true -> congr_spec e.
Proof.
  induction e; intros Hp; cbn [pure] in Hp; try discriminate;
    try (apply Bool.andb_true_iff in Hp as [Hp1 Hp2]);
    intros fuel env sA env' sB Hv; (destruct fuel as [|fuel]; [split; reflexivity|]).
  - split; reflexivity.
  - split; reflexivity.
  - split; reflexivity.
  - split; reflexivity.
  - rewrite !eval_EVar. destruct (Hv x (or_introl eq_refl)) as (c0 & c0' & v & E1 & E2 & E3 & E4).
    rewrite E1, E2, E3, E4. split; reflexivity.
  - rewrite !eval_EBin. rewrite used_e_bin in Hv. apply all_app in Hv as [Hva Hvb].
    congr_sub (IHe1 Hp1) Hva fuel env sA env' sB e1.
    congr_sub (IHe2 Hp2) Hvb fuel env sA env' sB e2.
    apply binop_sem_to.
  - rewrite !eval_EAnd. rewrite used_e_and in Hv. apply all_app in Hv as [Hva Hvb].
    congr_sub (IHe1 Hp1) Hva fuel env sA env' sB e1.
    destruct v as [?|[|]|?| |? ? ?]; try (split; reflexivity).
    congr_sub (IHe2 Hp2) Hvb fuel env sA env' sB e2.
    destruct v; split; reflexivity.
  - rewrite !eval_EOr. rewrite used_e_or in Hv. apply all_app in Hv as [Hva Hvb].
    congr_sub (IHe1 Hp1) Hva fuel env sA env' sB e1.
    destruct v as [?|[|]|?| |? ? ?]; try (split; reflexivity).
    congr_sub (IHe2 Hp2) Hvb fuel env sA env' sB e2.
    destruct v; split; reflexivity.
  - rewrite !eval_ENot. rewrite used_e_not in Hv.
    congr_sub (IHe Hp) Hv fuel env sA env' sB e.
    destruct v; split; reflexivity.
  - rewrite !eval_ENeg. rewrite used_e_neg in Hv.
    congr_sub (IHe Hp) Hv fuel env sA env' sB e.
    destruct v; try (split; reflexivity). unfold arith_res. destruct (i32_ok (- z)); split; reflexivity.
  - rewrite !eval_ENilOr. rewrite used_e_nilor in Hv. apply all_app in Hv as [Hva Hvb].
    congr_sub (IHe1 Hp1) Hva fuel env sA env' sB e1.
    destruct v; try (split; reflexivity). exact (IHe2 Hp2 fuel env sA env' sB Hvb).
  - rewrite !eval_EGet. rewrite used_e_get in Hv.
    congr_sub (IHe Hp) Hv fuel env sA env' sB e.
    destruct v; split; reflexivity.
Qed.

Definition call_clos_ (fuel : nat) (f : rvalue) (vs : list rvalue) (s : rstate) : eres :=
  match f with
  | RClos ps body cenv =>
    match bind_params ps vs s [] with
    | None => EFail (FType 4) s
    | Some (sc, s) =>
      match exec_block fuel {| locals := [sc]; captured := cenv; cur := Some f |} body s with
      | SOk (SigReturn (Some v)) _ s => EVal v s
      | SOk _ _ s => ENoVal s
      | SFailed f s => EFail f s
      | SFuel => EFuel end
    end
  | _ => EFail (FType 5) s end.

Section Evals.
  Variables (fuel : nat) (e : fenv).
  Fixpoint evals_ (l : list expr) (s : rstate) (acc : list rvalue) : (list rvalue * rstate) + eres :=
    match l with
    | [] => inl (rev acc, s)
    | a :: l => match eval fuel e a s with
                | EVal v s => evals_ l s (v :: acc)
                | ENoVal s => inr (EFail (FType 3) s)
                | r => inr r end
    end.
End Evals.

Lemma eval_ECall : forall fuel e f l s, eval (S fuel) e (ECall f l) s =
  match eval fuel e f s with
  | EVal vf s => match evals_ fuel e l s [] with
                 | inl (vs, s) => call_clos_ fuel vf vs s
                 | inr r => r end
  | ENoVal s => EFail (FType 3) s | r => r end.
Proof. reflexivity. Qed.
Lemma eval_ESelf : forall fuel e l s, eval (S fuel) e (ESelf l) s =
  match evals_ fuel e l s [] with
  | inl (vs, s) => match cur e with Some f => call_clos_ fuel f vs s | None => EFail (FType 8) s end
  | inr r => r end.
Proof. reflexivity. Qed.

Section Sim.
  Variable prog : program.
  Variable name : str.
  Variable code : list instr.
  Variable c : nat.                        (* the statement-level register counter (the same at every nesting depth) *)
  Hypothesis Hsmall : small (c + 2 * length code + 8).

  (* what the callee (run_fn on the compiled function) must do for a call the reference semantics makes with `fuel`;
     assumed for fuel < FU, the specs below being for fuel <= FU, so that recursion closes by induction on FU *)
  Definition val_keep (s s' : rstate) (g g' : gstate) : Prop :=
    frames g' = frames g /\ out g' = rout s' /\
    (forall c0 v, sget s c0 = Some v -> sget s' c0 = Some v) /\
    (forall c0 w, cell_get g c0 = Some w -> cell_get g' c0 = Some w).
  Definition fvals (s : rstate) (g : gstate) : Prop :=
    (forall cy w, vpin fpins cy w -> cell_get g cy = Some w) /\ (forall c0 v, spin fpins c0 v -> sget s c0 = Some v).

  Definition drel (dn : list (N * N)) (s : rstate) (g : gstate) : Prop :=
    forall c0 c0', In (c0, c0') dn -> exists v, first_order v /\ sget s c0 = Some v /\ cell_get g c0' = Some (inj v).
  Definition callee_ok (fuel : nat) (ps : list str) (body : list stmt) (cenv : list scope) (loc : str)
             (cbf : option (list (str * N))) (dn : list (N * N)) : Prop :=
    forall vs s g1,
      Forall first_order vs -> length vs = length ps ->
      out g1 = rout s -> frames_nd (frames g1) -> fvals s g1 -> drel dn s g1 ->
      match call_clos_ fuel (RClos ps body cenv) vs s with
      | EVal v s' => first_order v /\ exists fuel' g2,
            run_fn fuel' prog loc (map inj vs) cbf g1 = RDone (Some (inj v)) g2 /\ val_keep s s' g1 g2
      | ENoVal s' => exists fuel' g2,
            run_fn fuel' prog loc (map inj vs) cbf g1 = RDone None g2 /\ val_keep s s' g1 g2
      | EFail fl s' => fail_post fl (exists fuel' e g2,
            run_fn fuel' prog loc (map inj vs) cbf g1 = RFail e g2 /\ err_rel_s fl e /\ out g2 = rout s')
      | EFuel => True
      end.
  Definition call_ok (fuel : nat) : Prop :=
    forall f ps body c0 c0' cenv cbf,
      assoc f FT = Some (ps, body) -> assoc f fcells = Some (c0, c0', cenv, cbf) ->
      callee_ok fuel ps body cenv (floc f) cbf (fdn f).
  Definition self_ok (fuel : nat) : Prop :=
    forall ps body cenv, selfv = Some (RClos ps body cenv) -> callee_ok fuel ps body cenv fnm cb sdn.

  Variable FU : nat.
  Hypothesis Hcall : forall fuel', fuel' < FU -> call_ok fuel'.
  Hypothesis Hself : forall fuel', fuel' < FU -> self_ok fuel'.

  (* a compiled item in the final code: `resolve` turns the break / continue placeholders into jmp_pop to the loop's
     targets bt / ct (items_at_resolve) *)
  Definition item_instr (bt ct pos : nat) (it : citem) : instr :=
    match it with
    | CI i => i
    | CBrk n => mkI OP_JMP_POP [sN (bt - pos); sN n]
    | CCont n => mkI OP_JMP_POP [sN (ct - pos); sN (n - 1)]
    end.
  Definition items_at (bt ct k : nat) (its : list citem) : Prop :=
    forall j it, nth_error its j = Some it -> nth_error code (k + j) = Some (item_instr bt ct (k + j) it).

  Lemma items_at_app : forall bt ct k l1 l2, items_at bt ct k (l1 ++ l2) ->
    items_at bt ct k l1 /\ items_at bt ct (k + length l1) l2.
  Proof.
    intros bt ct k l1 l2 H. split; intros j it Hj.
    - apply H. rewrite nth_error_app1; [exact Hj|]. apply nth_error_Some. congruence.
    - rewrite <- Nat.add_assoc. apply H. rewrite nth_error_app2 by lia.
      replace (length l1 + j - length l1) with j by lia. exact Hj.
  Qed.
  Lemma items_at_cons : forall bt ct k it l, items_at bt ct k (it :: l) ->
    nth_error code k = Some (item_instr bt ct k it) /\ items_at bt ct (S k) l.
  Proof.
    intros bt ct k it l H. split.
    - specialize (H 0 it eq_refl). now rewrite Nat.add_0_r in H.
    - intros j it' Hj. specialize (H (S j) it' Hj). now rewrite <- plus_n_Sm in H.
  Qed.
  Lemma items_at_CI : forall bt ct k l, items_at bt ct k (map CI l) -> code_at code k l.
  Proof.
    intros bt ct k l H j i Hj. apply (H j (CI i)). rewrite nth_error_map, Hj. reflexivity.
  Qed.

  (* statements at register level lr bind only L#(lr+1), L#(lr+2), ...: the registers of the enclosing loops stay *)
  Definition lkeep (lr : nat) (fs fs' : list frame) : Prop :=
    forall j, j <= lr -> find_in_function (lregn j) fs' = find_in_function (lregn j) fs.
  Lemma lkeep_refl : forall lr fs, lkeep lr fs fs.
  Proof. intros lr fs j _. reflexivity. Qed.
  Lemma lkeep_trans : forall lr f1 f2 f3, lkeep lr f1 f2 -> lkeep lr f2 f3 -> lkeep lr f1 f3.
  Proof. intros lr f1 f2 f3 H1 H2 j Hj. now rewrite (H2 j Hj), (H1 j Hj). Qed.
  Lemma lkeep_mono : forall lr lr' fs fs', lr <= lr' -> lkeep lr' fs fs' -> lkeep lr fs fs'.
  Proof. intros lr lr' fs fs' Hle H j Hj. apply H. lia. Qed.
  Lemma lkeep_eq : forall lr fs fs', fs' = fs -> lkeep lr fs fs'.
  Proof. intros lr fs fs' ->. apply lkeep_refl. Qed.
  Lemma lkeep_nonreg : forall lr fs fs', (forall y, (forall k, y <> reg k) -> src_name y \/ (exists j, y = lregn j) -> find_in_function y fs' = find_in_function y fs) -> lkeep lr fs fs'.
  Proof. intros lr fs fs' H j _. apply H; [intros k E; discriminate E|right; eauto]. Qed.

  (* expression code binds registers #k only; the second conjunct because delete_name_scoped looks in the top frame only *)
  Definition lkeepA (fs fs' : list frame) : Prop :=
    forall j, find_in_function (lregn j) fs' = find_in_function (lregn j) fs /\
              assoc (lregn j) (top_vars fs') = assoc (lregn j) (top_vars fs).
  Lemma lkeepA_refl : forall fs, lkeepA fs fs.
  Proof. intros fs j. split; reflexivity. Qed.
  Lemma lkeepA_trans : forall f1 f2 f3, lkeepA f1 f2 -> lkeepA f2 f3 -> lkeepA f1 f3.
  Proof. intros f1 f2 f3 H1 H2 j. destruct (H1 j) as [A1 B1], (H2 j) as [A2 B2]. split; congruence. Qed.
  Lemma lkeepA_lkeep : forall lr fs fs', lkeepA fs fs' -> lkeep lr fs fs'.
  Proof. intros lr fs fs' H j _. apply H. Qed.
  Lemma lkeep_other : forall lr fs fs' y, (forall k, y <> lregn k) -> (forall z, z <> y -> find_in_function z fs' = find_in_function z fs) -> lkeep lr fs fs'.
  Proof. intros lr fs fs' y Hy H j _. apply H. apply not_eq_sym. apply Hy. Qed.
  Lemma lkeepA_eq : forall fs fs', fs' = fs -> lkeepA fs fs'.
  Proof. intros fs fs' ->. apply lkeepA_refl. Qed.
  Lemma lregn_not_reg : forall j k, lregn j <> reg k.
  Proof. intros j k E. discriminate E. Qed.
  Lemma lkeepA_ext : forall d lo hi g g', ext d lo hi g g' -> lkeepA (frames g) (frames g').
  Proof.
    intros d lo hi g g' He j. split; [apply (ext_find _ _ _ _ _ He)|apply (ext_top _ _ _ _ _ He)]; intros (k & _ & _ & E); exact (lregn_not_reg _ _ E).
  Qed.
  Lemma lkeepA_other : forall fs fs' y, (forall k, y <> lregn k) -> (forall z, z <> y -> find_in_function z fs' = find_in_function z fs) ->
    (forall z, z <> y -> assoc z (top_vars fs') = assoc z (top_vars fs)) -> lkeepA fs fs'.
  Proof. intros fs fs' y Hy H H' j. split; [apply H|apply H']; apply not_eq_sym; apply Hy. Qed.

  Definition ncd (B' : list str) (env : fenv) : Prop :=
    forall y, In y CD -> lookup_scopes y (locals env) <> None -> In y B'.
  Lemma ncd_mono : forall B1 B2 env, (forall y, In y B1 -> In y B2) -> ncd B1 env -> ncd B2 env.
  Proof. intros B1 B2 env H H1 y Hy Hl. exact (H y (H1 y Hy Hl)). Qed.
  Lemma lookup_skipn_ne : forall m l x, lookup_scopes x (skipn m l) <> None -> lookup_scopes x l <> None.
  Proof.
    induction m as [|m IH]; intros l x H; [exact H|]. destruct l as [|sc l]; [exact H|]. cbn [skipn] in H.
    apply (lookup_tl_ne (sc :: l)). cbn [tl]. now apply IH.
  Qed.
  Lemma ncd_popn : forall B' env m, ncd B' env -> ncd B' (popn m env).
  Proof. intros B' env m H y Hy Hl. apply (H y Hy). cbn [popn locals] in Hl. exact (lookup_skipn_ne _ _ _ Hl). Qed.
  Lemma ncd_of_bound : forall B env, bound_in B env -> ncd B env.
  Proof.
    intros B env [H1 H2] y Hy Hl. pose proof (In_keys_assoc _ cdsc y Hy) as Ha.
    destruct (assoc y cdsc) as [c0|] eqn:E; [|congruence]. destruct (Hcd y c0 E) as [Hu _].
    destruct (proj1 (H1 y (uname_not_hid _ Hu)) Hl) as [Hin|Hin]; [exact Hin|]. exfalso. exact (uname_nfun _ Hu (Hlfuns _ Hin)).
  Qed.
  Lemma after_mono : forall B st y, In y B -> In y (after B st).
  Proof. intros B st y H. destruct st; cbn [after]; try exact H. now right. Qed.
  Lemma after_cd : forall il B st y, ok_stmt FT SP CD il B st = true -> In y CD -> In y (after B st) -> In y B.
  Proof.
    intros il B st y Hok Hy Hin. destruct st; cbn [after] in Hin; try exact Hin. destruct Hin as [<-|Hin]; [|exact Hin].
    cbn [ok_stmt] in Hok. rewrite !Bool.andb_true_iff in Hok. destruct Hok as [[_ Hsh] _].
    apply Bool.orb_true_iff in Hsh as [Hsh|Hsh]; [now apply mem_str_In|].
    apply Bool.negb_true_iff in Hsh. apply In_mem_str in Hy. congruence.
  Qed.

  Definition post (pins : pinset) (lr : nat) (sl : option nat) (bt ct fin : nat) (B' : list str) (env : fenv) (fs0 : list frame)
             (a : act) (g : gstate) (r : sres_) : Prop :=
    match r with
    | SOk sig env' s' =>
      same_tl env env' /\
      match sig with
      | SigNormal => bound_in B' env' /\
          exists a' g', xrun prog name code a g a' g' /\ a_ip a' = fin /\ Rst pins env' s' a' g' /\ act_same a a' /\
                        tl (frames g') = tl fs0 /\ lkeep lr fs0 (frames g')
      | SigBreak => exists m a' g', sl = Some m /\
          xrun prog name code a g a' g' /\ a_ip a' = bt /\ Rst pins (popn m env') s' a' g' /\ act_same a a' /\
          frames g' = skipn m fs0
      | SigContinue => exists m a' g', sl = Some m /\
          xrun prog name code a g a' g' /\ a_ip a' = ct /\ Rst pins (popn (m - 1) env') s' a' g' /\ act_same a a' /\
          tl (frames g') = skipn m fs0 /\ lkeep lr (skipn (m - 1) fs0) (frames g') /\ ncd B' (popn (m - 1) env')
      | SigReturn None => False
      | SigReturn (Some v) => exists env'' a' g',
          xrun prog name code a g a' g' /\ nth_error code (a_ip a') = Some (mkI OP_RET []) /\
          a_ops a' = [inj v] /\ first_order v /\ Rg pins env'' s' g' /\ act_same a a'
      end
    | SFailed f s' => fail_post f (exists e g', xfail prog name code a g e g' /\ err_rel_s f e /\ out g' = rout s')
    | SFuel => True
    end.

  (* inside a loop sl = Some m, m = block frames to pop on `break` (m-1 on `continue`) *)
  Definition lc_ok (il : bool) (sl : option nat) (bt ct : nat) (env : fenv) (hi : nat) : Prop :=
    (il = true -> sl <> None) /\
    forall m, sl = Some m -> 1 <= m /\ m < length (locals env) /\ hi <= ct /\ ct <= bt /\ bt < length code /\
                             m + hi <= length code.

  (* the code of a statement (list) ends strictly inside the function -- except that a `return` may be its last
     instruction (then the compiler appends no `void; ret`) *)
  Definition is_ret (st : stmt) : bool := match st with SReturn (Some _) => true | _ => false end.
  Fixpoint ends_ret (l : list stmt) : bool :=
    match l with [] => true | [st] => is_ret st | _ :: l' => ends_ret l' end.
  Definition endok (fin : nat) (r : bool) : Prop := fin < length code \/ (r = true /\ fin = length code).

  Definition stmt_spec (st : stmt) : Prop :=
    forall pins lr il sl bt ct fuel k a g env s B, fuel <= FU -> lr <= 2 * k ->
      ok_stmt FT SP CD il B st = true -> bound_in B env ->
      items_at bt ct k (sitems c lr sl st) -> endok (k + length (sitems c lr sl st)) (is_ret st) ->
      lc_ok il sl bt ct env (k + length (sitems c lr sl st)) ->
      a_ip a = k -> a_cb a = cb -> Rst pins env s a g ->
      post pins lr sl bt ct (k + length (sitems c lr sl st)) (after B st) env (frames g) a g (Eval.exec fuel env st s).

  Fixpoint after_l (B : list str) (l : list stmt) : list str :=
    match l with [] => B | st :: l => after_l (after B st) l end.

  Lemma after_l_mono : forall l B y, In y B -> In y (after_l B l).
  Proof. induction l as [|st l IH]; intros B y H; [exact H|]. cbn [after_l]. apply IH. now apply after_mono. Qed.
  Lemma after_l_cd : forall l il B y, ok_block FT SP CD il B l = true -> In y CD -> In y (after_l B l) -> In y B.
  Proof.
    induction l as [|st l IH]; intros il B y Hok Hy Hin; [exact Hin|]. cbn [ok_block] in Hok. apply Bool.andb_true_iff in Hok as [H1 H2].
    cbn [after_l] in Hin. exact (after_cd il B st y H1 Hy (IH il _ y H2 Hy Hin)).
  Qed.

  Definition block_spec (l : list stmt) : Prop :=
    forall pins lr il sl bt ct fuel k a g env s B, fuel <= FU -> lr <= 2 * k ->
      ok_block FT SP CD il B l = true -> bound_in B env ->
      items_at bt ct k (bitems c lr sl l) -> endok (k + length (bitems c lr sl l)) (ends_ret l) ->
      lc_ok il sl bt ct env (k + length (bitems c lr sl l)) ->
      a_ip a = k -> a_cb a = cb -> Rst pins env s a g ->
      post pins lr sl bt ct (k + length (bitems c lr sl l)) (after_l B l) env (frames g) a g (exec_block fuel env l s).

  Definition vsrc (env : fenv) (x : str) : Prop :=
    uname x /\ (lookup_scopes x (locals env) <> None \/ (lookup_scopes x (locals env) = None /\ assoc x cdsc <> None)).
  Lemma In_CD_assoc : forall x, In x CD -> assoc x cdsc <> None.
  Proof. intros x. apply In_keys_assoc. Qed.
  Lemma vsrc_of : forall B env x, bound_in B env -> uname0 x -> In x (B ++ CD) -> vsrc env x.
  Proof.
    intros B env x Hb H0 Hin. apply in_app_or in Hin as [Hin|Hin].
    - split; [eapply bound_in_uname; eassumption|left; eapply bound_in_look; eassumption].
    - pose proof (In_CD_assoc x Hin) as Ha. destruct (assoc x cdsc) as [c0|] eqn:E; [|congruence].
      destruct (Hcd x c0 E) as [Hx _]. split; [exact Hx|].
      destruct (lookup_scopes x (locals env)) eqn:El; [left; discriminate|right; split; [reflexivity|congruence]].
  Qed.
  Lemma ok_expr_vsrc : forall B env e, ok_expr (B ++ CD) e = true -> bound_in B env -> forall x, In x (used_e e) -> vsrc env x.
  Proof.
    intros B env e Hok Hb x Hx. apply ok_expr_parts in Hok as (_ & _ & Hu). destruct (Hu x Hx) as [H0 Hin].
    exact (vsrc_of B env x Hb H0 Hin).
  Qed.
  Lemma vsrc_local : forall env x, uname x -> lookup_scopes x (locals env) <> None -> vsrc env x.
  Proof. intros env x Hx Hl. split; [exact Hx|left; exact Hl]. Qed.

  Lemma vsrc_lookup : forall pins env s g x, Rg pins env s g -> vsrc env x ->
    exists c0 v, lookup_scopes x (locals env ++ captured env) = Some c0 /\ lookup_scopes x (map strip_sc (locals env) ++ [cdsc]) = Some c0 /\ sget s c0 = Some v /\ first_order v.
  Proof.
    intros pins env s g x HR [Hx [Hin|[Hn Hc]]].
    - destruct (Rg_lookup env s g x HR Hx Hin) as (c0 & c0' & v & E1 & _ & _ & E3 & Hfo & _).
      exists c0, v. split; [now apply lookup_app_some|]. split; [|auto].
      apply lookup_app_some. rewrite (lookup_strip x _ (uname_not_hid _ Hx)). exact E1.
    - destruct (assoc x cdsc) as [c0|] eqn:E; [|congruence].
      destruct (Hcd x c0 E) as (_ & c' & v & m & _ & _ & Hfo & Hs & _).
      destruct (Rg_fpin _ _ _ HR) as [_ F2]. destruct (F2 c0 v Hs) as [A2 _].
      exists c0, v. split; [|split; [|split; [exact A2|exact Hfo]]].
      + rewrite lookup_app_split, Hn. exact (Rg_capd _ _ _ HR x c0 E).
      + rewrite lookup_app_split, (lookup_strip x _ (uname_not_hid _ Hx)), Hn. cbn [lookup_scopes]. now rewrite E.
  Qed.

  Lemma expr_run_ext : forall pins e d fuel k a g env s,
    pure e = true -> lits_ok e = true ->
    (forall x, In x (used_e e) -> vsrc env x) -> d <= c + length code + 2 ->
    code_at code k (pcode d e) -> k + length (pcode d e) < length code ->
    a_ip a = k -> a_ops a = [] -> a_cb a = cb -> Rg pins env s g ->
    match eval fuel env e s with
    | EVal v s' => s' = s /\ first_order v /\
                   exists g', xrun prog name code a g (upd a (k + length (pcode d e)) [inj v]) g' /\ Rg pins env s g' /\
                              ext d k (k + length (pcode d e)) g g'
    | EFail f s' => s' = s /\ exists e0 g', xfail prog name code a g e0 g' /\ err_rel f e0 /\ out g' = rout s
    | EFuel => True
    | ENoVal _ => False
    end.
  Proof.
    intros pins e d fuel k a g env s Hp Hl Hu Hd Hc Hend Hip Hops Hacb HR.
    set (env0 := strip_cap env).
    assert (Hv : forall x, In x (used_e e) -> var_ok env0 s x).
    { intros x Hx. destruct (vsrc_lookup pins env s g x HR (Hu x Hx)) as (c0 & v & _ & E2 & E3 & Hfo).
      split; [exact (uname_src _ (proj1 (Hu x Hx)))|]. exists c0, v. cbn [env0 strip_cap locals captured]. auto. }
    assert (Hag : forall x, In x (used_e e) -> agree env0 s env s x).
    { intros x Hx. destruct (vsrc_lookup pins env s g x HR (Hu x Hx)) as (c0 & v & E1 & E2 & E3 & _).
      exists c0, c0, v. cbn [env0 strip_cap locals captured]. auto. }
    destruct (eval_pure_congr e Hp fuel env0 s env s Hag) as [Hst0 Ecg]. rewrite Ecg.
    assert (Hsm : small (d + length (pcode d e) + 3)) by (eapply small_le; [|exact Hsmall]; lia).
    assert (Hfr : frames g <> []) by (destruct (Rfr_ne _ _ _ _ (Rg_fr _ _ _ HR)); assumption).
    pose proof (sim_pure name code e Hp d fuel k a g env0 s Hl Hv Hsm Hc Hend Hip Hops Hfr (Rg_Renv env s a g HR Hacb)) as H.
    destruct (eval fuel env0 e s) as [v s1|s1|f s1|]; cbn [sim_post res_to] in H |- *; [|contradiction| |exact Logic.I].
    - destruct H as (-> & Hfo & g' & R). split; [reflexivity|]. split; [exact Hfo|]. exists g'. split.
      + eapply run_ok_xrun. exact R.
      + split; [eapply Rg_ext; [exact HR|exact (proj2 R)|]|exact (proj2 R)].
        eapply xreach_nd; [apply reaches_xreach_running; exact (proj1 R)|exact (Rg_nd _ _ _ HR)].
    - destruct H as (-> & e0 & g' & R & Hr & He). split; [reflexivity|]. exists e0, g'. split; [|split].
      + now apply reaches_xfail.
      + exact Hr.
      + rewrite (ext_out _ _ _ _ _ He). exact (Rg_out _ _ _ HR).
  Qed.

  Lemma expr_run : forall pins e d fuel k a g env s B,
    ok_expr (B ++ CD) e = true -> bound_in B env -> d <= S c ->
    code_at code k (pcode d e) -> k + length (pcode d e) < length code ->
    a_ip a = k -> a_ops a = [] -> a_cb a = cb -> Rg pins env s g ->
    match eval fuel env e s with
    | EVal v s' => s' = s /\ first_order v /\
                   exists g', xrun prog name code a g (upd a (k + length (pcode d e)) [inj v]) g' /\ Rg pins env s g' /\
                              tl (frames g') = tl (frames g) /\ lkeepA (frames g) (frames g')
    | EFail f s' => s' = s /\ exists e0 g', xfail prog name code a g e0 g' /\ err_rel f e0 /\ out g' = rout s
    | EFuel => True
    | ENoVal _ => False
    end.
  Proof.
    intros pins e d fuel k a g env s B Hok Hb Hd Hc Hend Hip Hops Hacb HR.
    destruct (ok_expr_parts _ _ Hok) as (Hp & Hl & _).
    pose proof (expr_run_ext pins e d fuel k a g env s Hp Hl (ok_expr_vsrc B env e Hok Hb) ltac:(lia) Hc Hend Hip Hops Hacb HR) as H.
    destruct (eval fuel env e s) as [v s1|s1|f s1|]; try exact H.
    destruct H as (-> & Hfo & g' & R & HG & He). split; [reflexivity|]. split; [exact Hfo|]. exists g'.
    split; [exact R|]. split; [exact HG|]. split; [exact (ext_tail _ _ _ _ _ He)|exact (lkeepA_ext _ _ _ _ _ He)].
  Qed.

  Lemma post_expr_fail : forall pins lr sl bt ct fin B' env fs0 a g f s e0 g',
    xfail prog name code a g e0 g' -> err_rel f e0 -> out g' = rout s ->
    post pins lr sl bt ct fin B' env fs0 a g (SFailed f s).
  Proof. intros. cbn [post]. apply fail_post_intro. exists e0, g'. split; [assumption|]. split; [now apply err_rel_s_of|assumption]. Qed.

  Lemma small_code : forall n, n <= length code -> small n.
  Proof. intros n H. eapply small_le; [|exact Hsmall]. lia. Qed.

  Lemma exec_store : forall x a g v g', a_ops a = [v] -> store_var g x v = Some g' ->
    exec_d (DStore x) a g = SNext (set_ops a []) g'.
  Proof. intros x a g v g' H1 H2. unfold exec_d. rewrite H1, H2. reflexivity. Qed.
  Lemma exec_void : forall a g, exec_d DVoid a g = SNext (set_ops a []) g.
  Proof. reflexivity. Qed.
  Lemma exec_print : forall a g v l, a_ops a = [v] -> show v = Some l -> exec_d DPrint a g = SNext a (emit_line g l).
  Proof. intros a g v l H1 H2. unfold exec_d. rewrite H1. cbn [join_show]. rewrite H2. reflexivity. Qed.
  Lemma exec_assert : forall sp a g v, a_ops a = [v] ->
    exec_d (DAssert (Some sp)) a g =
    match val_equals 100 v (VBool true) with
    | Some true => SNext (set_ops a []) g
    | Some false => SFail (E_assert sp)
    | None => SFail E_invalid_op end.
  Proof. intros sp a g v H. unfold exec_d. rewrite H. reflexivity. Qed.
  Definition op_base (sym : str) : str := match sym with [y; 61%N] => [y] | _ => [] end.
  Lemma op_base_arith5 : forall o, arith5 o = true -> op_base (binop_sym o ++ [61%N]) = binop_sym o.
  Proof. intros o H. destruct o; try discriminate; reflexivity. Qed.
  Lemma exec_bin_op_assign : forall sym x a g c' w cur_, lookup_var a g x = Some c' -> a_ops a = [w] ->
    cell_get g c' = Some cur_ ->
    exec_d (DBinOpAssign sym x) a g =
    match bin_op_sem (op_base sym) cur_ w with
    | OV (VBool _) => SFail (E_unsupported OP_BIN_OP_ASSIGN)
    | OV res => SNext (set_ops a [res]) (cell_set g c' res)
    | OE e => SFail e end.
  Proof. intros sym x a g c' w cur_ H1 H2 H3. unfold exec_d. rewrite H1, H2, H3. reflexivity. Qed.
  Lemma exec_if : forall off a g b, a_ops a = [VBool b] ->
    exec_d (DIf off) a g = if b then SPush LIf (set_ops a []) g else SGoto off (set_ops a []) g.
  Proof. intros off a g b H. unfold exec_d. rewrite H. reflexivity. Qed.
  Lemma exec_if_nb : forall off a g v, a_ops a = [v] -> (forall b, v <> VBool b) -> exec_d (DIf off) a g = SFail E_not_bool.
  Proof. intros off a g v H Hn. unfold exec_d. rewrite H. destruct v; try reflexivity. destruct (Hn b eq_refl). Qed.
  Lemma exec_while : forall off a g b, a_ops a = [VBool b] ->
    exec_d (DWhile off) a g = if b then SPush LWhile (set_ops a []) g else SGoto off (set_ops a []) g.
  Proof. intros off a g b H. unfold exec_d. rewrite H. reflexivity. Qed.
  Lemma exec_while_nb : forall off a g v, a_ops a = [v] -> (forall b, v <> VBool b) -> exec_d (DWhile off) a g = SFail E_not_bool.
  Proof. intros off a g v H Hn. unfold exec_d. rewrite H. destruct v; try reflexivity. destruct (Hn b eq_refl). Qed.

  Lemma exec_bin_op_gen : forall sym a g o x y, a_ops a = o ++ [x; y] ->
    exec_d (DBinOp sym) a g = match bin_op_sem sym x y with OV v => SNext (set_ops a [v]) g | OE e => SFail e end.
  Proof.
    intros sym a g o x y H. unfold exec_d. rewrite H.
    replace (o ++ [x; y]) with ((o ++ [x]) ++ [y]) by (now rewrite <- app_assoc).
    rewrite !unsnoc_app. reflexivity.
  Qed.
  Lemma exec_make_int : forall z a g, exec_d (DMakeInt z) a g = SNext (set_ops a (a_ops a ++ [VInt z])) g.
  Proof. reflexivity. Qed.
  Lemma items_at_resolve_gen : forall bt ct kb F S l, items_at bt ct kb (resolve F S 0 l) ->
    items_at (kb + F) (kb + F - S - 1) kb l.
  Proof.
    intros bt ct kb F S l H j it Hj. specialize (H j (resolve_item F S j it)).
    rewrite resolve_nth, Hj in H. specialize (H eq_refl). rewrite H. f_equal.
    destruct it as [i|n|n]; cbn [resolve_item item_instr I]; [reflexivity| |].
    - replace (kb + F - (kb + j)) with (F - (0 + j)) by lia. reflexivity.
    - replace (kb + F - S - 1 - (kb + j)) with (F - S - (0 + j) - 1) by lia. reflexivity.
  Qed.

  Lemma act_eta : forall a, upd a (a_ip a) (a_ops a) = a.
  Proof. intros [fn ip ops ar cb0 ss]. reflexivity. Qed.

  Lemma reg_not_uname0 : forall k, ~ uname0 (reg k).
  Proof. intros k [H _]. exact H. Qed.

  Lemma reg_bind : forall pins env s g k w, Rg pins env s g ->
    exists g', bind_local g (reg k) w = Some g' /\ Rg pins env s g' /\ tl (frames g') = tl (frames g) /\
               cells g' = cells g ++ [w] /\ out g' = out g /\
               find_in_function (reg k) (frames g') = Some (N.of_nat (length (cells g))) /\
               (forall y, y <> reg k -> find_in_function y (frames g') = find_in_function y (frames g) /\
                                        assoc y (top_vars (frames g')) = assoc y (top_vars (frames g))).
  Proof.
    intros pins [l cap cu] s g k w HG. destruct (Rfr_ne _ _ _ _ (Rg_fr _ _ _ HG)) as [Hne Hnf]. cbn [locals] in Hne.
    destruct l as [|sc l]; [congruence|]. destruct (frames g) as [|f fs] eqn:Ef; [congruence|].
    unfold bind_local. rewrite Ef. cbn [cell_new with_frames cells frames out trace]. eexists. split; [reflexivity|].
    cbn [with_frames frames cells out trace tl find_in_function vars lab top_vars]. rewrite assoc_set_same.
    split; [|repeat (split; [reflexivity|]); intros y Hy; now rewrite assoc_set_other].
    apply (Rg_top_same _ s g sc l f fs sc _ [w] (trace g) HG eq_refl Ef); [reflexivity| |].
    - intros y Hy. apply assoc_set_other. intros ->. exact (reg_not_uname0 k Hy).
    - apply keys_nd_assoc_set. pose proof (Rg_nd _ _ _ HG) as Hnd. rewrite Ef in Hnd. inversion Hnd; assumption.
  Qed.

  Definition rv (g : gstate) (k : nat) (v : value) : Prop :=
    exists cj, find_in_function (reg k) (frames g) = Some cj /\ cell_get g cj = Some v.

  Lemma rv_ext : forall d lo hi g g' k v, ext d lo hi g g' -> k < d -> small k -> rv g k v -> rv g' k v.
  Proof.
    intros d lo hi g g' k v He Hk Hs (cj & F1 & F2). exists cj. eapply ext_reg_keep; eassumption.
  Qed.
  Lemma rv_same : forall g g' k v, frames g' = frames g -> (forall cj w, cell_get g cj = Some w -> cell_get g' cj = Some w) ->
    rv g k v -> rv g' k v.
  Proof. intros g g' k v Hf Hc (cj & F1 & F2). exists cj. rewrite Hf. auto. Qed.

  Definition regkeep (d : nat) (g g' : gstate) : Prop := forall r0 v, r0 < d -> small r0 -> rv g r0 v -> rv g' r0 v.
  Lemma regkeep_refl : forall d g, regkeep d g g.
  Proof. intros d g r0 v _ _ H. exact H. Qed.
  Lemma regkeep_trans : forall d g1 g2 g3, regkeep d g1 g2 -> regkeep d g2 g3 -> regkeep d g1 g3.
  Proof. intros d g1 g2 g3 H1 H2 r0 v Hr Hs H. apply H2; [exact Hr|exact Hs|]. now apply H1. Qed.
  Lemma regkeep_mono : forall d d' g g', d <= d' -> regkeep d' g g' -> regkeep d g g'.
  Proof. intros d d' g g' Hle H r0 v Hr Hs Hv. apply H; [lia|exact Hs|exact Hv]. Qed.
  Lemma regkeep_same : forall d g g', frames g' = frames g -> (forall cj w, cell_get g cj = Some w -> cell_get g' cj = Some w) -> regkeep d g g'.
  Proof. intros d g g' Hf Hc r0 v _ _ H. eapply rv_same; eassumption. Qed.

  Definition keeps (d : nat) (g g' : gstate) : Prop :=
    tl (frames g') = tl (frames g) /\ lkeepA (frames g) (frames g') /\ regkeep d g g'.
  Lemma keeps_refl : forall d g, keeps d g g.
  Proof. intros d g. split; [reflexivity|]. split; [apply lkeepA_refl|apply regkeep_refl]. Qed.
  Lemma keeps_trans : forall {d g1 g2 g3}, keeps d g1 g2 -> keeps d g2 g3 -> keeps d g1 g3.
  Proof.
    intros d g1 g2 g3 (A1 & A2 & A3) (B1 & B2 & B3). split; [congruence|].
    split; [eapply lkeepA_trans; eassumption|eapply regkeep_trans; eassumption].
  Qed.
  Lemma keeps_mono : forall d d' {g g'}, d <= d' -> keeps d' g g' -> keeps d g g'.
  Proof. intros d d' g g' Hle (A1 & A2 & A3). split; [exact A1|]. split; [exact A2|exact (regkeep_mono _ _ _ _ Hle A3)]. Qed.
  Lemma keeps_same : forall d g g', frames g' = frames g -> (forall cj w, cell_get g cj = Some w -> cell_get g' cj = Some w) -> keeps d g g'.
  Proof. intros d g g' Hf Hc. split; [now rewrite Hf|]. split; [now apply lkeepA_eq|now apply regkeep_same]. Qed.
  Lemma keeps_trc : forall d a g i, keeps d g (trc name a g i).
  Proof. intros d a g i. apply keeps_same; [reflexivity|auto]. Qed.
  Lemma keeps_step : forall {d d' g g1} a i, keeps d' g g1 -> d <= d' -> keeps d g (trc name a g1 i).
  Proof. intros d d' g g1 a i K Hle. exact (keeps_mono d d' Hle (keeps_trans K (keeps_trc d' a g1 i))). Qed.
  Lemma keeps_ext : forall d lo hi g g', ext d lo hi g g' -> keeps d g g'.
  Proof.
    intros d lo hi g g' He. split; [exact (ext_tail _ _ _ _ _ He)|]. split; [exact (lkeepA_ext _ _ _ _ _ He)|].
    intros r0 v Hr Hs Hv. eapply rv_ext; eassumption.
  Qed.

  Lemma xstep_upd : forall a {g i dI ops' g'}, nth_error code (a_ip a) = Some i -> decode i = DOk dI ->
    exec_d dI a (trc name a g i) = SNext (set_ops a ops') g' -> xrun prog name code a g (upd a (S (a_ip a)) ops') g'.
  Proof. intros a g i dI ops' g' Hi Hd He. exact (xstep_next prog name code a g i dI (a_ip a) _ _ eq_refl Hi Hd He). Qed.

  Lemma fail_at : forall {a g a1 g1 i dI e0 f s1}, xrun prog name code a g a1 g1 ->
    nth_error code (a_ip a1) = Some i -> decode i = DOk dI -> exec_d dI a1 (trc name a1 g1 i) = SFail e0 ->
    err_rel_s f e0 -> out g1 = rout s1 ->
    fail_post f (exists e g', xfail prog name code a g e g' /\ err_rel_s f e /\ out g' = rout s1).
  Proof.
    intros a g a1 g1 i dI e0 f s1 R Hi Hd He Hr Ho. apply fail_post_intro. exists e0, (trc name a1 g1 i).
    split; [|split; [exact Hr|exact Ho]]. eapply xrun_fail; [exact R|]. exact (xstep_fail prog name code a1 g1 i dI _ e0 eq_refl Hi Hd He).
  Qed.

  Lemma reg_park : forall pins env s a1 g1 i dI d w, nth_error code (a_ip a1) = Some i -> decode i = DOk dI ->
    (forall g2, bind_local (trc name a1 g1 i) (reg d) w = Some g2 -> exec_d dI a1 (trc name a1 g1 i) = SNext (set_ops a1 []) g2) ->
    Rg pins env s g1 -> small d ->
    exists g2, xrun prog name code a1 g1 (upd a1 (S (a_ip a1)) []) g2 /\ Rg pins env s g2 /\ tl (frames g2) = tl (frames g1) /\
               lkeepA (frames g1) (frames g2) /\ rv g2 d w /\ out g2 = out g1 /\
               (forall r0 v, r0 <> d -> small r0 -> rv g1 r0 v -> rv g2 r0 v).
  Proof.
    intros pins env s a1 g1 i dI d w Hi Hd Hex HG Hsd.
    destruct (reg_bind pins env s (trc name a1 g1 i) d w (Rg_trc _ _ _ _ _ _ HG)) as (g2 & Hb2 & HG2 & Ht2 & Hc2 & Ho2 & Hf2 & Hk2).
    exists g2. split; [|split; [exact HG2|split; [exact Ht2|split; [|split; [|split; [exact Ho2|]]]]]].
    - exact (xstep_upd a1 Hi Hd (Hex g2 Hb2)).
    - apply (lkeepA_other _ _ (reg d)); [intros k E; discriminate E| |]; intros z Hz; apply (Hk2 z Hz).
    - exists (N.of_nat (length (cells (trc name a1 g1 i)))). split; [exact Hf2|].
      unfold cell_get. rewrite Hc2, Nnat.Nat2N.id, nth_error_app2, Nat.sub_diag by lia. reflexivity.
    - intros r0 v Hne Hs0 (cj & F1 & F2). exists cj. split.
      + rewrite (proj1 (Hk2 (reg r0) ltac:(intros E; apply reg_inj in E; [congruence|exact Hs0|exact Hsd]))). exact F1.
      + unfold cell_get in *. rewrite Hc2. rewrite nth_error_app1; [exact F2|]. apply nth_error_Some. cbn [trc add_trace cells]. congruence.
  Qed.
  Lemma parked_keeps : forall {d g1 g2}, tl (frames g2) = tl (frames g1) -> lkeepA (frames g1) (frames g2) ->
    (forall r0 v, r0 <> d -> small r0 -> rv g1 r0 v -> rv g2 r0 v) -> keeps d g1 g2.
  Proof. intros d g1 g2 Ht Hl Ho. split; [exact Ht|]. split; [exact Hl|]. intros r0 v Hr Hs Hv. apply Ho; [lia|exact Hs|exact Hv]. Qed.

  Lemma park : forall pins env s a1 g1 k1 d w, nth_error code k1 = Some (mkI OP_STORE_FAST [reg d]) ->
    a_ip a1 = k1 -> a_ops a1 = [w] -> Rg pins env s g1 -> small d ->
    exists g2, xrun prog name code a1 g1 (upd a1 (S k1) []) g2 /\ Rg pins env s g2 /\ tl (frames g2) = tl (frames g1) /\
               lkeepA (frames g1) (frames g2) /\ rv g2 d w /\ out g2 = out g1 /\
               (forall r0 v, r0 <> d -> small r0 -> rv g1 r0 v -> rv g2 r0 v).
  Proof.
    intros pins env s a1 g1 k1 d w Hi Hip Hops HG Hsd. subst k1.
    apply (reg_park pins env s a1 g1 _ _ d w Hi (dec_store_fast _)); [|exact HG|exact Hsd].
    intros g2 Hb. exact (exec_store_fast (reg d) a1 _ w g2 Hops Hb).
  Qed.
  Lemma load_fast_run : forall a g kk x cj w, nth_error code kk = Some (mkI OP_LOAD_FAST [x]) -> a_ip a = kk ->
    find_in_function x (frames g) = Some cj -> cell_get g cj = Some w ->
    xrun prog name code a g (upd a (S kk) (a_ops a ++ [w])) (trc name a g (mkI OP_LOAD_FAST [x])).
  Proof.
    intros a g kk x cj w Hi Hip F1 F2. subst kk. exact (xstep_upd a Hi (dec_load_fast _) (exec_load_fast x a (trc name a g _) cj w F1 F2)).
  Qed.
  Lemma unpark : forall a g kk d w, nth_error code kk = Some (mkI OP_LOAD_FAST [reg d]) -> a_ip a = kk -> rv g d w ->
    xrun prog name code a g (upd a (S kk) (a_ops a ++ [w])) (trc name a g (mkI OP_LOAD_FAST [reg d])).
  Proof. intros a g kk d w Hi Hip (cj & F1 & F2). exact (load_fast_run a g kk (reg d) cj w Hi Hip F1 F2). Qed.

  Lemma binop_run : forall o va vb s a g kop, nth_error code kop = Some (op_instr o) -> a_ip a = kop ->
    a_ops a = [inj va; inj vb] ->
    match binop_sem o va vb s with
    | EVal v s' => s' = s /\ first_order v /\ xrun prog name code a g (upd a (S kop) [inj v]) (trc name a g (op_instr o))
    | EFail f s' => s' = s /\ exists e0, xfail prog name code a g e0 (trc name a g (op_instr o)) /\ err_rel f e0
    | _ => False end.
  Proof.
    intros o va vb s a g kop Hi Hip Hops. subst kop.
    destruct (op_agrees o va vb s) as (dI & Hd & Hag). specialize (Hag a (trc name a g (op_instr o)) Hops).
    destruct (binop_sem o va vb s) as [v s1|s1|f s1|]; try contradiction.
    - destruct Hag as (-> & Hfo & Hx). exact (conj eq_refl (conj Hfo (xstep_upd a Hi Hd Hx))).
    - destruct Hag as (-> & e0 & Hx & Hrel). split; [reflexivity|]. exists e0. split; [|exact Hrel].
      exact (xstep_fail prog name code a g _ dI _ e0 eq_refl Hi Hd Hx).
  Qed.

  Definition reached (pins : pinset) (env : fenv) (d : nat) (a : act) (g : gstate) (k : nat) (ops : list value)
             (s : rstate) (g' : gstate) : Prop :=
    xrun prog name code a g (upd a k ops) g' /\ Rg pins env s g' /\ keeps d g g'.
  Lemma reached_mono : forall {pins env d d' a g k ops s g'}, d <= d' -> reached pins env d' a g k ops s g' ->
    reached pins env d a g k ops s g'.
  Proof. intros pins env d d' a g k ops s g' Hle (R & HG & K). exact (conj R (conj HG (keeps_mono d d' Hle K))). Qed.
  Lemma reached_step : forall {pins env d a g k ops s g' i dI ops'}, reached pins env d a g k ops s g' ->
    nth_error code k = Some i -> decode i = DOk dI ->
    exec_d dI (upd a k ops) (trc name (upd a k ops) g' i) = SNext (set_ops (upd a k ops) ops') (trc name (upd a k ops) g' i) ->
    reached pins env d a g (S k) ops' s (trc name (upd a k ops) g' i).
  Proof.
    intros pins env d a g k ops s g' i dI ops' (R & HG & K) Hi Hd Hx.
    split; [exact (xrun_trans R (xstep_upd (upd a k ops) Hi Hd Hx))|]. split; [apply Rg_trc; exact HG|exact (keeps_trans K (keeps_trc _ _ _ _))].
  Qed.
  Lemma reached_unpark : forall {pins env d a g k ops s g' r w}, reached pins env d a g k ops s g' -> rv g r w -> r < d -> small r ->
    nth_error code k = Some (mkI OP_LOAD_FAST [reg r]) ->
    reached pins env d a g (S k) (ops ++ [w]) s (trc name (upd a k ops) g' (mkI OP_LOAD_FAST [reg r])).
  Proof.
    intros pins env d a g k ops s g' r w H Hrv Hlt Hs Hi. pose proof H as (_ & _ & _ & _ & Hk).
    destruct (Hk r w Hlt Hs Hrv) as (cj & F1 & F2).
    exact (reached_step H Hi (dec_load_fast _) (exec_load_fast (reg r) (upd a k ops) (trc name (upd a k ops) g' _) cj w F1 F2)).
  Qed.

  Definition rhs_res (pins : pinset) (env : fenv) (d fin : nat) (a : act) (g : gstate) (r : eres) : Prop :=
    match r with
    | EVal v s' => first_order v /\ exists g', reached pins env d a g fin [inj v] s' g'
    | ENoVal s' => exists g', reached pins env d a g fin [] s' g'
    | EFail f s' => fail_post f (exists e0 g', xfail prog name code a g e0 g' /\ err_rel_s f e0 /\ out g' = rout s')
    | EFuel => True
    end.

  Definition rhs_spec (e : expr) : Prop :=
    forall pins d fuel k a g env s B,
    fuel <= FU -> ok_rhs FT SP (B ++ CD) e = true -> bound_in B env -> d + length (xcode d e) <= c + length code + 2 ->
    code_at code k (xcode d e) -> k + length (xcode d e) < length code ->
    a_ip a = k -> a_cb a = cb -> a_ops a = [] -> Rg pins env s g ->
    rhs_res pins env d (k + length (xcode d e)) a g (eval fuel env e s).

  Lemma rhs_val_intro : forall {pins env d fin a g v s' g'}, first_order v -> reached pins env d a g fin [inj v] s' g' ->
    rhs_res pins env d fin a g (EVal v s').
  Proof. intros pins env d fin a g v s' g' Hfo H. exact (conj Hfo (ex_intro _ g' H)). Qed.

  Lemma rhs_after : forall {pins env d fin a g k1 ops1 g1 r}, xrun prog name code a g (upd a k1 ops1) g1 -> keeps d g g1 ->
    rhs_res pins env d fin (upd a k1 ops1) g1 r -> rhs_res pins env d fin a g r.
  Proof.
    intros pins env d fin a g k1 ops1 g1 r R1 K1 H. destruct r as [v s'|s'|f s'|]; [| | |exact Logic.I].
    - destruct H as (Hfo & g' & R & HG & K).
      exact (rhs_val_intro Hfo (conj (xrun_trans R1 R) (conj HG (keeps_trans K1 K)))).
    - destruct H as (g' & R & HG & K). exists g'. exact (conj (xrun_trans R1 R) (conj HG (keeps_trans K1 K))).
    - exact (fail_post_xrun R1 H).
  Qed.

  (* i is store_fast, or a store_skip that does not skip *)
  Lemma rhs_park : forall {pins env d d' fin a g k1 w s1 g1 i dI r} dr,
    reached pins env d' a g k1 [w] s1 g1 -> d <= d' -> d <= dr -> small dr -> nth_error code k1 = Some i -> decode i = DOk dI ->
    (forall g2, bind_local (trc name (upd a k1 [w]) g1 i) (reg dr) w = Some g2 ->
       exec_d dI (upd a k1 [w]) (trc name (upd a k1 [w]) g1 i) = SNext (set_ops (upd a k1 [w]) []) g2) ->
    (forall g2, Rg pins env s1 g2 -> rv g2 dr w -> rhs_res pins env d fin (upd a (S k1) []) g2 r) ->
    rhs_res pins env d fin a g r.
  Proof.
    intros pins env d d' fin a g k1 w s1 g1 i dI r dr (R1 & HG1 & K1) Hle Hdr Hsd Hi Hdec Hx HK.
    destruct (reg_park pins env s1 (upd a k1 [w]) g1 i dI dr w Hi Hdec Hx HG1 Hsd) as (g2 & R2 & HG2 & Ht2 & Hlk2 & Hrv2 & _ & Hoth2).
    apply (rhs_after (k1 := S k1) (ops1 := []) (xrun_trans R1 R2)); [|exact (HK g2 HG2 Hrv2)].
    exact (keeps_trans (keeps_mono d d' Hle K1) (keeps_mono d dr Hdr (parked_keeps Ht2 Hlk2 Hoth2))).
  Qed.

  Lemma rhs_finish : forall {pins env d d' a g k1 ops1 g1 s1 i dI r},
    reached pins env d' a g k1 ops1 s1 g1 -> d <= d' -> nth_error code k1 = Some i -> decode i = DOk dI ->
    agrees s1 r (upd a k1 ops1) (trc name (upd a k1 ops1) g1 i) (exec_d dI (upd a k1 ops1) (trc name (upd a k1 ops1) g1 i)) ->
    rhs_res pins env d (S k1) a g r.
  Proof.
    intros pins env d d' a g k1 ops1 g1 s1 i dI r H Hle Hi Hdec Hag. destruct r as [v s2|s2|f s2|]; try contradiction.
    - destruct Hag as (-> & Hfo & Hx). exact (rhs_val_intro Hfo (reached_mono Hle (reached_step H Hi Hdec Hx))).
    - destruct H as (R1 & HG1 & _). destruct Hag as (-> & e0 & Hx & Hrel).
      exact (fail_at R1 Hi Hdec Hx (err_rel_s_of _ _ Hrel) (Rg_out _ _ _ HG1)).
  Qed.

  Lemma rhs_pure : forall e pins d fuel k a g env s B,
    ok_expr (B ++ CD) e = true -> bound_in B env -> d + length (pcode d e) <= c + length code + 2 ->
    code_at code k (pcode d e) -> k + length (pcode d e) < length code ->
    a_ip a = k -> a_cb a = cb -> a_ops a = [] -> Rg pins env s g ->
    rhs_res pins env d (k + length (pcode d e)) a g (eval fuel env e s).
  Proof.
    intros e pins d fuel k a g env s B Hoe Hb Hd Hc Hend Hip Hacb Hops HG.
    destruct (ok_expr_parts _ _ Hoe) as (Hp & Hl & _).
    pose proof (expr_run_ext pins e d fuel k a g env s Hp Hl (ok_expr_vsrc B env e Hoe Hb) ltac:(lia) Hc Hend Hip Hops Hacb HG) as He.
    destruct (eval fuel env e s) as [v s1|s1|f s1|]; [|contradiction| |exact Logic.I].
    - destruct He as (-> & Hfo & g1 & R1 & HG1 & He1). exact (rhs_val_intro Hfo (conj R1 (conj HG1 (keeps_ext _ _ _ _ _ He1)))).
    - destruct He as (-> & e0 & g' & Hf & Hr & Ho). apply fail_post_intro. exists e0, g'.
      split; [exact Hf|]. split; [now apply err_rel_s_of|exact Ho].
  Qed.

  Lemma rhs_spec_intro : forall e,
    (forall pins d fuel k a g env s B, S fuel <= FU -> ok_parts FT SP (B ++ CD) e -> bound_in B env ->
       d + length (ccode d e) <= c + length code + 2 -> code_at code k (ccode d e) -> k + length (ccode d e) < length code ->
       a_ip a = k -> a_cb a = cb -> a_ops a = [] -> Rg pins env s g ->
       rhs_res pins env d (k + length (ccode d e)) a g (eval (S fuel) env e s)) -> rhs_spec e.
  Proof.
    intros e H pins d fuel k a g env s B Hfu Hok Hb Hd Hc Hend Hip Hcb Hops HG.
    apply ok_cexpr_inv in Hok as [Hoe|Hop].
    - destruct (ok_expr_parts _ _ Hoe) as (Hp & _ & _). rewrite (xcode_pure d e Hp) in *.
      exact (rhs_pure e pins d fuel k a g env s B Hoe Hb Hd Hc Hend Hip Hcb Hops HG).
    - destruct fuel as [|fuel]; [exact Logic.I|]. exact (H pins d fuel k a g env s B Hfu Hop Hb Hd Hc Hend Hip Hcb Hops HG).
  Qed.

  (* the arguments of a call: evaluated left to right, each parked in its own register *)
  Definition args_res (env : fenv) (k0 fin : nat) (acc : list rvalue)
             (nargs : nat) (pins : pinset) (a : act) (g : gstate) (r : (list rvalue * rstate) + eres) : Prop :=
    match r with
    | inl (vs, s') =>
      exists vs', vs = rev acc ++ vs' /\ length vs' = nargs /\ Forall first_order vs' /\
        exists g', reached pins env k0 a g fin [] s' g' /\ (forall j v, nth_error vs' j = Some v -> rv g' (k0 + j) (inj v))
    | inr (EFail f s') => fail_post f (exists e0 g', xfail prog name code a g e0 g' /\ err_rel_s f e0 /\ out g' = rout s')
    | inr EFuel => True
    | inr _ => False
    end.

  Lemma args_run : forall args, Forall rhs_spec args -> forall k0 pos pins a g env s B acc fuel,
    fuel <= FU -> ok_cexprs FT SP (B ++ CD) args = true -> bound_in B env ->
    k0 + length (argcode k0 args) <= c + length code + 2 ->
    code_at code pos (argcode k0 args) -> pos + length (argcode k0 args) < length code ->
    a_ip a = pos -> a_cb a = cb -> a_ops a = [] -> Rg pins env s g ->
    args_res env k0 (pos + length (argcode k0 args)) acc (length args) pins a g (evals_ fuel env args s acc).
  Proof.
    induction args as [|e l IH]; intros HF k0 pos pins a g env s B acc fuel Hfu Hok Hb Hk0 Hc Hend Hip Hcb Hops HG.
    - cbn [evals_ argcode length args_res]. exists []. rewrite app_nil_r, Nat.add_0_r. split; [reflexivity|].
      split; [reflexivity|]. split; [constructor|]. exists g.
      split; [|intros j v Hj; destruct j; discriminate]. unfold reached. rewrite <- Hip, <- Hops, act_eta.
      exact (conj (xrun_refl _ _ _ _ _) (conj HG (keeps_refl _ _))).
    - pose proof (Forall_inv HF) as He0. pose proof (Forall_inv_tail HF) as Hl0.
      cbn [ok_cexprs] in Hok. apply Bool.andb_true_iff in Hok as [Hoe Hol].
      cbn [argcode] in Hk0, Hc, Hend |- *. rewrite !app_length in Hk0, Hend |- *. cbn [length] in Hk0, Hend |- *.
      apply code_at_app in Hc as [Hce Hc]. apply code_at_app in Hc as [Hi Hcl]. apply code_at_cons in Hi as [Hi _].
      set (le := length (ccode k0 e)) in *.
      assert (Hsk : small k0) by (eapply small_le; [|exact Hsmall]; lia).
      pose proof (He0 pins k0 fuel pos a g env s B Hfu Hoe Hb ltac:(unfold xcode; fold le; lia) Hce ltac:(unfold xcode; fold le; lia) Hip Hcb Hops HG) as He.
      unfold xcode in He. fold le in He. cbn [evals_].
      destruct (eval fuel env e s) as [v s1|s1|f s1|]; cbn [args_res]; [|exact Logic.I|exact He|exact Logic.I].
      destruct He as (Hfo & g1 & R1 & HG1 & K1).
      destruct (park pins env s1 (upd a (pos + le) [inj v]) g1 (pos + le) k0 (inj v) Hi eq_refl eq_refl HG1 Hsk)
        as (g2 & R2 & HG2 & Ht2 & Hlk2 & Hrv2 & _ & Hoth2).
      pose proof (parked_keeps Ht2 Hlk2 Hoth2) as K2.
      pose proof (IH Hl0 (S k0) (S (pos + le)) pins (upd a (S (pos + le)) []) g2 env s1 B (v :: acc) fuel Hfu Hol Hb ltac:(lia)
                    ltac:(replace (S (pos + le)) with (pos + le + 1) by lia; exact Hcl) ltac:(lia) eq_refl Hcb eq_refl HG2) as Hl2.
      replace (S (pos + le) + length (argcode (S k0) l)) with (pos + (le + S (length (argcode (S k0) l)))) in Hl2 by lia.
      destruct (evals_ fuel env l s1 (v :: acc)) as [[vs s2]|r]; cbn [args_res] in Hl2 |- *.
      + destruct Hl2 as (vs' & -> & Hlv & Hfos & g3 & (R3 & HG3 & K3) & Hreg3).
        exists (v :: vs'). split; [cbn [rev]; now rewrite <- app_assoc|].
        split; [cbn [length]; now rewrite Hlv|]. split; [constructor; assumption|]. exists g3.
        split; [exact (conj (xrun_trans R1 (xrun_trans R2 R3)) (conj HG3 (keeps_trans K1 (keeps_trans K2 (keeps_mono _ _ (Nat.le_succ_diag_r k0) K3)))))|].
        intros j v0 Hj. destruct j as [|j].
        * inversion Hj; subst v0. rewrite Nat.add_0_r. apply (proj2 (proj2 K3)); [lia|exact Hsk|exact Hrv2].
        * replace (k0 + S j) with (S k0 + j) by lia. now apply Hreg3.
      + destruct r as [? ?|?|f s2|]; try exact Hl2.
        exact (fail_post_xrun (xrun_trans R1 R2) Hl2).
  Qed.

  Lemma loads_run : forall (args : list expr) vs k0 pos a g,
    length args = length vs -> (forall j v, nth_error vs j = Some v -> rv g (k0 + j) v) ->
    code_at code pos (argloads k0 args) -> a_ip a = pos ->
    exists g', xrun prog name code a g (upd a (pos + length args) (a_ops a ++ vs)) g' /\ frames g' = frames g /\
               cells g' = cells g /\ (forall pins env s, Rg pins env s g -> Rg pins env s g').
  Proof.
    induction args as [|e l IH]; intros vs k0 pos a g Hlen Hrv Hc Hip; subst pos.
    - destruct vs; [|discriminate]. exists g. rewrite Nat.add_0_r, app_nil_r, act_eta.
      split; [apply xrun_refl|]. auto.
    - destruct vs as [|v vs]; [discriminate|]. cbn [length] in Hlen. cbn [argloads] in Hc.
      apply code_at_cons in Hc as [Hi Hc].
      pose proof (Hrv 0 v eq_refl) as Hv0. rewrite Nat.add_0_r in Hv0. pose proof (unpark a g (a_ip a) k0 v Hi eq_refl Hv0) as R1.
      set (g1 := trc name a g (mkI OP_LOAD_FAST [reg k0])) in *.
      destruct (IH vs (S k0) (S (a_ip a)) (upd a (S (a_ip a)) (a_ops a ++ [v])) g1 ltac:(lia)) as (g2 & R2 & Hf2 & Hc2 & HR2).
      + intros j v0 Hj. replace (S k0 + j) with (k0 + S j) by lia.
        apply (rv_same g g1); [reflexivity|auto|]. now apply (Hrv (S j)).
      + exact Hc.
      + reflexivity.
      + exists g2. cbn [length]. replace (a_ip a + S (length l)) with (S (a_ip a) + length l) by lia.
        replace (a_ops a ++ v :: vs) with ((a_ops a ++ [v]) ++ vs) by (now rewrite <- app_assoc).
        split; [exact (xrun_trans R1 R2)|]. split; [exact Hf2|]. split; [exact Hc2|].
        intros pins env s H. apply HR2. apply Rg_trc. exact H.
  Qed.

  Lemma argloads_length : forall l k, length (argloads k l) = length l.
  Proof. induction l as [|e l IH]; intros k; cbn [argloads length]; [reflexivity|now rewrite IH]. Qed.

  Lemma call_args_run : forall args, Forall rhs_spec args -> forall k0 pos pins a g env s B fuel,
    fuel <= FU -> ok_cexprs FT SP (B ++ CD) args = true -> bound_in B env ->
    k0 + length (argcode k0 args) <= c + length code + 2 ->
    code_at code pos (argcode k0 args ++ argloads k0 args) -> pos + length (argcode k0 args) + length args < length code ->
    a_ip a = pos -> a_cb a = cb -> a_ops a = [] -> Rg pins env s g ->
    match evals_ fuel env args s [] with
    | inl (vs, s') => length vs = length args /\ Forall first_order vs /\
        exists g', reached pins env k0 a g (pos + length (argcode k0 args) + length args) (map inj vs) s' g'
    | inr (EFail f s') => fail_post f (exists e0 g', xfail prog name code a g e0 g' /\ err_rel_s f e0 /\ out g' = rout s')
    | inr EFuel => True
    | inr _ => False
    end.
  Proof.
    intros args HF k0 pos pins a g env s B fuel Hfu Hok Hb Hk0 Hc Hend Hip Hcb Hops HG.
    apply code_at_app in Hc as [Hca Hcl].
    pose proof (args_run args HF k0 pos pins a g env s B [] fuel Hfu Hok Hb Hk0 Hca ltac:(lia) Hip Hcb Hops HG) as H.
    destruct (evals_ fuel env args s []) as [[vs s1]|r]; [|exact H].
    destruct H as (vs' & Evs & Hlv & Hfos & g3 & (R3 & HG3 & K3) & Hreg3). cbn [rev app] in Evs. subst vs'.
    split; [exact Hlv|]. split; [exact Hfos|].
    destruct (loads_run args (map inj vs) k0 (pos + length (argcode k0 args)) (upd a (pos + length (argcode k0 args)) []) g3
                ltac:(rewrite map_length; congruence)) as (g4 & R4 & Hf4 & Hc4 & HR4).
    { intros j v Hj. rewrite nth_error_map in Hj. destruct (nth_error vs j) as [v0|] eqn:Ev; [|discriminate].
      inversion Hj; subst v. now apply Hreg3. }
    { exact Hcl. }
    { reflexivity. }
    exists g4. split; [exact (xrun_trans R3 R4)|]. split; [exact (HR4 _ _ _ HG3)|].
    eapply keeps_trans; [exact K3|]. apply keeps_same; [exact Hf4|]. intros cj w Hw. unfold cell_get in *. now rewrite Hc4.
  Qed.

  Lemma Rg_val_keep : forall pins env s g s' g', Rg pins env s g -> val_keep s s' g g' -> Rg pins env s' g'.
  Proof.
    intros pins env s g s' g' [A B D E F0 G H I0 J K] (Hf & Ho & Hs0 & Hc0).
    assert (Hs : forall n v, nth_error (store s) n = Some v -> nth_error (store s') n = Some v).
    { intros n v Hn. specialize (Hs0 (N.of_nat n) v). unfold sget in Hs0. rewrite Nnat.Nat2N.id in Hs0. auto. }
    assert (Hc : forall n w, nth_error (cells g) n = Some w -> nth_error (cells g') n = Some w).
    { intros n w Hn. specialize (Hc0 (N.of_nat n) w). unfold cell_get in Hc0. rewrite Nnat.Nat2N.id in Hc0. auto. }
    constructor; rewrite ?Hf; try assumption.
    - eapply Rfr_vals; [exact Hs|exact Hc|exact A].
    - eapply pins_vals_; [exact Hs|exact Hc|exact H].
    - eapply pins_vals_; [exact Hs|exact Hc|exact J].
  Qed.

  Lemma lookup_var_fs : forall a g f, a_cb a = cb -> lookup_var a g f = lookup_fs cb (frames g) f.
  Proof. intros a g f H. unfold lookup_var, load_cb, lookup_fs. now rewrite H. Qed.

  Lemma Rg_fvals : forall pins env s g, Rg pins env s g -> fvals s g.
  Proof.
    intros pins env s g HG. destruct (Rg_fpin _ _ _ HG) as [H1 H2]. split.
    - intros cy w Hq. exact (proj1 (H1 cy w Hq)).
    - intros c0 v Hq. exact (proj1 (H2 c0 v Hq)).
  Qed.

  Lemma Rg_drel : forall pins env s g dn, Rg pins env s g -> (forall p, In p dn -> dpair_ok p) -> drel dn s g.
  Proof.
    intros pins env s g dn HG Hd c0 c0' Hin. destruct (Hd _ Hin) as [[x Hx]|(v & Hfo & Hs & Hv)]; cbn [fst snd] in *.
    - pose proof (Hdtab _ _ Hx) as Hun.
      destruct (Rg_dlook0 _ _ _ _ _ _ HG Hx) as [H1 H2].
      destruct (Rg_lookup env s g x HG Hun ltac:(congruence)) as (d0 & d0' & v & E1 & E2 & _ & E3 & Hfo & E4).
      unfold lookup_fs in H2. rewrite E2 in H2. exists v. split; [exact Hfo|]. split; congruence.
    - destruct (Rg_fpin _ _ _ HG) as [F1 F2]. exists v. split; [exact Hfo|]. split; [exact (proj1 (F2 _ _ Hs))|exact (proj1 (F1 _ _ Hv))].
  Qed.

  Lemma dec_call : decode (mkI OP_CALL []) = DOk (DCall None).
  Proof. reflexivity. Qed.
  Lemma exec_call : forall a g o loc cbf, a_ops a = o ++ [VFun loc cbf] ->
    exec_d (DCall None) a g = SCall loc cbf o (set_ops a []) g.
  Proof. intros a g o loc cbf H. unfold exec_d. rewrite H, unsnoc_app. reflexivity. Qed.

  Lemma do_call : forall {pins env d a g k5 ops5 g5 i dI loc cbf ps body cenv dn vs s1 fuel},
    reached pins env d a g k5 ops5 s1 g5 -> nth_error code k5 = Some i -> decode i = DOk dI ->
    exec_d dI (upd a k5 ops5) (trc name (upd a k5 ops5) g5 i)
      = SCall loc cbf (map inj vs) (set_ops (upd a k5 ops5) []) (trc name (upd a k5 ops5) g5 i) ->
    Forall first_order vs -> length vs = length ps ->
    (forall p, In p dn -> dpair_ok p) -> callee_ok fuel ps body cenv loc cbf dn ->
    rhs_res pins env d (S k5) a g (call_clos_ fuel (RClos ps body cenv) vs s1).
  Proof.
    intros pins env d a g k5 ops5 g5 i dI loc cbf ps body cenv dn vs s1 fuel (R5 & HG5 & K5) Hi Hd Hx Hfos Hlen Hdp Hcal.
    set (a5 := upd a k5 ops5) in *. set (g5t := trc name a5 g5 i) in *.
    assert (HG5t : Rg pins env s1 g5t) by (apply Rg_trc; exact HG5).
    specialize (Hcal vs s1 g5t Hfos Hlen (Rg_out _ _ _ HG5t) (Rg_nd _ _ _ HG5t) (Rg_fvals _ _ _ _ HG5t) (Rg_drel _ _ _ _ _ HG5t Hdp)).
    assert (Hret : forall rv0 g6 fuel' s2, run_fn fuel' prog loc (map inj vs) cbf g5t = RDone rv0 g6 -> val_keep s1 s2 g5t g6 ->
              reached pins env d a g (S k5) (match rv0 with Some v => [v] | None => [] end) s2 g6).
    { intros rv0 g6 fuel' s2 Hrun Hk. split; [|split].
      - eapply xrun_trans; [exact R5|]. eapply xr_call; [exact Hi|exact Hd|exact Hx|exact Hrun|]. destruct rv0; apply xr_refl.
      - eapply Rg_val_keep; [exact HG5t|exact Hk].
      - eapply keeps_trans; [exact K5|]. eapply keeps_trans; [apply keeps_trc|].
        apply keeps_same; [exact (proj1 Hk)|exact (proj2 (proj2 (proj2 Hk)))]. }
    destruct (call_clos_ fuel (RClos ps body cenv) vs s1) as [v s2|s2|fl s2|]; [| | |exact Logic.I].
    - destruct Hcal as (Hfov & fuel' & g6 & Hrun & Hk). exact (rhs_val_intro Hfov (Hret _ _ _ _ Hrun Hk)).
    - destruct Hcal as (fuel' & g6 & Hrun & Hk). exists g6. exact (Hret _ _ _ _ Hrun Hk).
    - cbn [rhs_res]. eapply fail_post_map; [|exact Hcal]. intros (fuel' & e0 & g6 & Hrun & Hr & Ho). exists e0, g6.
      split; [|split; assumption]. exists a5, g5. split; [exact R5|]. right.
      exists i, dI, loc, cbf, (map inj vs), (set_ops a5 []), g5t, fuel'. auto.
  Qed.

  (* only a call can return no value *)
  Lemma binop_noval : forall o va vb s s', binop_sem o va vb s <> ENoVal s'.
  Proof.
    intros o va vb s s' H. destruct (arith_op_dec o) as [->|[->|Hao]].
    - pose proof (eq_agree va vb s) as Hg. rewrite H in Hg. exact Hg.
    - pose proof (neq_agree va vb s) as Hg. rewrite H in Hg. exact Hg.
    - pose proof (binop_agree o va vb s Hao) as Hg. rewrite H in Hg. exact Hg.
  Qed.
  Definition op_shape (e : expr) : bool :=
    match e with EBin _ _ _ | EAnd _ _ | EOr _ _ | ENot _ | ENeg _ => true | _ => false end.
  Lemma op_noval : forall e, op_shape e = true -> forall fuel env s s', eval fuel env e s <> ENoVal s'.
  Proof.
    intros e He [|fuel] env s s' H; [discriminate|]. destruct e; try discriminate He.
    - rewrite eval_EBin in H. destruct (eval fuel env e1 s) as [va s1|s1|f s1|]; try discriminate.
      destruct (eval fuel env e2 s1) as [vb s2|s2|f s2|]; try discriminate. exact (binop_noval _ _ _ _ _ H).
    - rewrite eval_EAnd in H. destruct (eval fuel env e1 s) as [[?|[|]|?| |? ? ?] s1|s1|f s1|]; try discriminate.
      destruct (eval fuel env e2 s1) as [[?|?|?| |? ? ?] s2|s2|f s2|]; discriminate.
    - rewrite eval_EOr in H. destruct (eval fuel env e1 s) as [[?|[|]|?| |? ? ?] s1|s1|f s1|]; try discriminate.
      destruct (eval fuel env e2 s1) as [[?|?|?| |? ? ?] s2|s2|f s2|]; discriminate.
    - rewrite eval_ENot in H. destruct (eval fuel env e s) as [[?|?|?| |? ? ?] s1|s1|f s1|]; discriminate.
    - rewrite eval_ENeg in H. destruct (eval fuel env e s) as [[z|?|?| |? ? ?] s1|s1|f s1|]; try discriminate.
      unfold arith_res in H. destruct (i32_ok (- z)); discriminate.
  Qed.
  Lemma pure_noval : forall e, pure e = true -> forall fuel env s s', eval fuel env e s <> ENoVal s'.
  Proof.
    induction e; intros Hp fuel env st0 s' H; try discriminate Hp; destruct fuel as [|fuel]; try discriminate H; cbn [pure] in Hp.
    - rewrite eval_EVar in H. destruct (lookup_scopes x (locals env ++ captured env)); [|discriminate]. destruct (sget st0 n); discriminate.
    - exact (op_noval (EBin o e1 e2) eq_refl (S fuel) env st0 s' H).
    - exact (op_noval (EAnd e1 e2) eq_refl (S fuel) env st0 s' H).
    - exact (op_noval (EOr e1 e2) eq_refl (S fuel) env st0 s' H).
    - exact (op_noval (ENot e) eq_refl (S fuel) env st0 s' H).
    - exact (op_noval (ENeg e) eq_refl (S fuel) env st0 s' H).
    - apply Bool.andb_true_iff in Hp as [H1 H2]. rewrite eval_ENilOr in H.
      destruct (eval fuel env e1 st0) as [[?|?|?| |? ? ?] s1|s1|f s1|] eqn:E1; try discriminate.
      + exact (IHe2 H2 _ _ _ _ H).
      + exact (IHe1 H1 _ _ _ _ E1).
    - rewrite eval_EGet in H. destruct (eval fuel env e st0) as [[?|?|?| |? ? ?] s1|s1|f s1|] eqn:E1; try discriminate.
      exact (IHe Hp _ _ _ _ E1).
  Qed.
  Lemma operand_noval : forall B e, ok_cexpr FT SP B e = true -> is_call e = false ->
    forall fuel env s s', eval fuel env e s <> ENoVal s'.
  Proof.
    intros B e Hok Hc. apply ok_cexpr_inv in Hok as [Hoe|Hop].
    - apply pure_noval. now apply ok_expr_parts in Hoe as (Hp & _ & _).
    - apply op_noval. destruct e; try reflexivity; try contradiction; discriminate Hc.
  Qed.

  (* H speaks of a position that lia shows equal to the one in the goal *)
  Ltac atpos H := first [exact H | match type of H with
    | nth_error _ ?p = _ => match goal with |- nth_error _ ?q = _ => replace q with p by lia; exact H end
    | code_at _ ?p _ => match goal with |- code_at _ ?q _ => replace q with p by lia; exact H end end].

  (* an expression form whose code begins with that of a part e1 at register level S d: K gets the value of the part at
     the end k1 of its code, N the case of no value *)
  Lemma rhs_sub : forall {e1 rest pins env d fin k a g s fuel B} {K : rvalue -> rstate -> eres} {N : rstate -> eres},
    rhs_spec e1 -> fuel <= FU -> ok_cexpr FT SP (B ++ CD) e1 = true -> bound_in B env ->
    code_at code k (ccode (S d) e1 ++ rest) -> a_ip a = k -> a_cb a = cb -> a_ops a = [] -> Rg pins env s g -> rest <> [] ->
    d + length (ccode (S d) e1 ++ rest) <= c + length code + 2 -> fin = k + length (ccode (S d) e1 ++ rest) -> fin < length code ->
    (forall s1, eval fuel env e1 s = ENoVal s1 -> rhs_res pins env d fin a g (N s1)) ->
    (forall k1 v s1 g1, k1 + length rest = fin -> d + length rest <= c + length code + 2 ->
       first_order v -> reached pins env (S d) a g k1 [inj v] s1 g1 -> code_at code k1 rest -> rhs_res pins env d fin a g (K v s1)) ->
    rhs_res pins env d fin a g
      (match eval fuel env e1 s with EVal v s1 => K v s1 | ENoVal s1 => N s1 | EFail f s1 => EFail f s1 | EFuel => EFuel end).
  Proof.
    intros e1 rest pins env d fin k a g s fuel B K N IH Hfu Hok Hb Hc Hip Hcb Hops HG Hrest Hd -> Hend HN HK.
    apply code_at_app in Hc as [Hc1 Hcr]. rewrite app_length in Hd, Hend, HN, HK |- *.
    assert (Hr1 : 1 <= length rest) by (destruct rest; [congruence|cbn [length]; lia]).
    pose proof (IH pins (S d) fuel k a g env s B Hfu Hok Hb ltac:(unfold xcode; lia) Hc1 ltac:(unfold xcode; lia) Hip Hcb Hops HG) as H.
    unfold xcode in H. destruct (eval fuel env e1 s) as [v s1|s1|f s1|]; [|exact (HN s1 eq_refl)|exact H|exact Logic.I].
    destruct H as (Hfo & g1 & H). apply (HK (k + length (ccode (S d) e1)) v s1 g1); try assumption; lia.
  Qed.

  Lemma unop_run : forall i dI (sem : rvalue -> rstate -> eres) e ea, rhs_spec ea -> decode i = DOk dI ->
    (forall s v a g, a_ops a = [inj v] -> agrees s (sem v s) a g (exec_d dI a g)) ->
    (forall d, ccode d e = ccode (S d) ea ++ [i]) ->
    (forall fuel env s, eval (S fuel) env e s =
       match eval fuel env ea s with EVal v s1 => sem v s1 | ENoVal s1 => EFail (FType 7) s1 | EFail f s1 => EFail f s1 | EFuel => EFuel end) ->
    (forall B, ok_parts FT SP B e -> is_call ea = false /\ ok_cexpr FT SP B ea = true) ->
    rhs_spec e.
  Proof.
    intros i dI sem e ea IHa Hdec Hsem Hcode Hev Hparts. apply rhs_spec_intro.
    intros pins d fuel k a g env s B Hfu Hop Hb Hd Hc Hend Hip Hcb Hops HG. destruct (Hparts _ Hop) as [Hca Hoa].
    rewrite Hcode in Hd, Hc, Hend |- *. rewrite Hev.
    apply (rhs_sub IHa (Nat.lt_le_incl _ _ Hfu) Hoa Hb Hc Hip Hcb Hops HG ltac:(discriminate) Hd eq_refl Hend).
    - intros s1 E. exfalso. exact (operand_noval _ ea Hoa Hca _ _ _ _ E).
    - intros k1 v s1 g1 Hfin _ Hfo H1 Hc1. apply code_at_cons in Hc1 as [Hi1 _]. rewrite <- Hfin. cbn [length]. rewrite Nat.add_1_r.
      exact (rhs_finish H1 (Nat.le_succ_diag_r d) Hi1 Hdec (Hsem s1 v (upd a k1 [inj v]) _ eq_refl)).
  Qed.

  (* and / or : the two share everything but the constant *)
  Lemma rhs_logic : forall (p : bool) ea eb, rhs_spec ea -> rhs_spec eb -> rhs_spec (elogic p ea eb).
  Proof.
    intros p ea eb IHa IHb. apply rhs_spec_intro. intros pins d fuel k a g env s B Hfu Hop Hb Hd Hc Hend Hip Hcb Hops HG.
    assert (Hparts : is_call ea = false /\ is_call eb = false /\ ok_cexpr FT SP (B ++ CD) ea = true /\ ok_cexpr FT SP (B ++ CD) eb = true)
      by (destruct p; exact Hop).
    destruct Hparts as (Hca & Hcb' & Hoa & Hob). clear Hop.
    assert (Hcode : ccode d (elogic p ea eb) =
                    ccode (S d) ea ++ mkI OP_STORE_SKIP [reg d; if p then s_one else s_zero; sN (length (ccode (S d) eb) + 3)]
                      :: ccode (S d) eb ++ [mkI OP_LOAD_FAST [reg d]; mkI OP_BIN_OP [if p then op_or else op_and]])
      by (destruct p; reflexivity).
    rewrite Hcode in Hd, Hc, Hend |- *. clear Hcode.
    set (lb := length (ccode (S d) eb)) in *. set (fin := k + length _) in *.
    assert (Hsd : small d) by (eapply small_le; [|exact Hsmall]; lia).
    set (i1 := mkI OP_STORE_SKIP [reg d; if p then s_one else s_zero; sN (lb + 3)]) in *.
    set (i3 := mkI OP_BIN_OP [if p then op_or else op_and]) in *.
    rewrite eval_logic.
    apply (rhs_sub (fin := fin) IHa (Nat.lt_le_incl _ _ Hfu) Hoa Hb Hc Hip Hcb Hops HG ltac:(discriminate) Hd eq_refl Hend).
    { intros s1 E. exfalso. exact (operand_noval _ ea Hoa Hca _ _ _ _ E). }
    intros k1 va s1 g1 Hfin Hd1 Hfoa H1 Hc1. apply code_at_cons in Hc1 as [Hi1 Hc1]. cbn [length] in Hfin, Hd1.
    assert (Hfin' : k1 + (lb + 3) = fin) by (rewrite app_length in Hfin; cbn [length] in Hfin; fold lb in Hfin; lia).
    assert (Hsk : small (lb + 3)) by (apply small_code; lia).
    pose proof H1 as (R1 & HG1 & K1). pose proof (dec_store_skip (reg d) p _ Hsk) as Hdec1.
    pose proof (exec_store_skip (reg d) p (Z.of_nat (lb + 3)) (upd a k1 [inj va]) (trc name (upd a k1 [inj va]) g1 i1) (inj va) eq_refl) as He1.
    (* the left operand is not a boolean: store_skip rejects it *)
    assert (Hnb : (forall b, inj va <> VBool b) -> rhs_res pins env d fin a g (EFail (FType 6) s1)).
    { intros Hv. apply (fail_at (e0 := E_not_bool) R1 Hi1 Hdec1); [|cbn; auto|exact (Rg_out _ _ _ HG1)].
      rewrite He1. destruct (inj va); try reflexivity. exfalso. exact (Hv b eq_refl). }
    destruct va as [z|b|t| |p0 bd ev]; try (apply Hnb; intros b0; discriminate).
    cbn [inj] in He1, H1, R1. destruct (if p then b else negb b) eqn:Epb.
    { (* it decides: jump over the right operand *)
      apply (rhs_val_intro (v := RBool b) (g' := trc name (upd a k1 [VBool b]) g1 i1) Logic.I). split; [|split].
      - refine (xrun_trans R1 (xstep_goto prog name code (upd a k1 [VBool b]) g1 i1 _ k1 _ (upd a k1 [VBool b]) _ _ eq_refl Hi1 Hdec1 He1 _)).
        cbn [upd set_ip a_ip]. rewrite goto_fwd by lia. f_equal. exact Hfin'.
      - apply Rg_trc. exact HG1.
      - exact (keeps_step _ _ K1 (Nat.le_succ_diag_r d)). }
    (* it does not: park it, evaluate the right operand *)
    apply (rhs_park d H1 (Nat.le_succ_diag_r d) (le_n d) Hsd Hi1 Hdec1); [intros g2 Hb2; rewrite He1, Hb2; reflexivity|].
    intros g2 HG2 Hrv2.
    apply (rhs_sub (fin := fin) (a := upd a (S k1) []) IHb (Nat.lt_le_incl _ _ Hfu) Hob Hb Hc1 eq_refl Hcb eq_refl HG2 ltac:(discriminate) ltac:(lia) ltac:(lia) Hend).
    { intros s2 E. exfalso. exact (operand_noval _ eb Hob Hcb' _ _ _ _ E). }
    intros k2 vb s2 g3 Hfin2 _ Hfob H3 Hc2. apply code_at_cons in Hc2 as [Hi2 Hc2]. apply code_at_cons in Hc2 as [Hi3 _]. cbn [length] in Hfin2.
    (* reload the left operand, operate *)
    replace fin with (S (S k2)) by lia.
    exact (rhs_finish (reached_unpark H3 Hrv2 (Nat.lt_succ_diag_r d) Hsd Hi2) (Nat.le_succ_diag_r d) Hi3 (dec_bin_op _)
             (logic_agrees s2 p b vb (upd (upd a (S k1) []) (S k2) [inj vb; VBool b]) _ Epb eq_refl)).
  Qed.

  (* binary operators: the left operand is parked in register d while the right one is evaluated *)
  Lemma rhs_bin : forall o ea eb, rhs_spec ea -> rhs_spec eb -> rhs_spec (EBin o ea eb).
  Proof.
    intros o ea eb IHa IHb. apply rhs_spec_intro. intros pins d fuel k a g env s B Hfu [Hoa Hob] Hb Hd Hc Hend Hip Hcb Hops HG.
    rewrite eval_EBin. cbn [ccode] in Hd, Hc, Hend |- *. set (fin := k + length _) in *.
    assert (Hsd : small d) by (eapply small_le; [|exact Hsmall]; lia).
    apply (rhs_sub (fin := fin) IHa (Nat.lt_le_incl _ _ Hfu) Hoa Hb Hc Hip Hcb Hops HG ltac:(discriminate) Hd eq_refl Hend).
    { intros s1 _. exact Logic.I. }
    intros k1 va s1 g1 Hfin Hd1 Hfoa H1 Hc1. apply code_at_cons in Hc1 as [Hi1 Hc1]. cbn [app length] in Hfin, Hd1, Hc1.
    apply (rhs_park d H1 (Nat.le_succ_diag_r d) (le_n d) Hsd Hi1 (dec_store_fast _));
      [intros g2 Hb2; exact (exec_store_fast (reg d) (upd a k1 [inj va]) _ (inj va) g2 eq_refl Hb2)|].
    intros g2 HG2 Hrv2.
    apply (rhs_sub (fin := fin) (a := upd a (S k1) []) IHb (Nat.lt_le_incl _ _ Hfu) Hob Hb Hc1 eq_refl Hcb eq_refl HG2 ltac:(discriminate) ltac:(lia) ltac:(lia) Hend).
    { intros s2 _. exact Logic.I. }
    intros k2 vb s2 g3 Hfin2 _ Hfob H3 Hc2.
    apply code_at_cons in Hc2 as [Hi2 Hc2]. apply code_at_cons in Hc2 as [Hi3 Hc2]. apply code_at_cons in Hc2 as [Hi4 _]. cbn [app length] in Hfin2.
    (* reload the left operand, swap, operate *)
    pose proof (reached_step (reached_unpark H3 Hrv2 (Nat.lt_succ_diag_r d) Hsd Hi2) Hi3 dec_rev2
                  (exec_rev2 (upd _ _ _) _ (inj vb) (inj va) eq_refl)) as H5.
    destruct (op_agrees o va vb s2) as (dI & Hdec & Hag). replace fin with (S (S (S k2))) by lia.
    exact (rhs_finish H5 (Nat.le_succ_diag_r d) Hi4 Hdec (Hag (upd (upd a (S k1) []) (S (S k2)) [inj va; inj vb]) _ eq_refl)).
  Qed.

  (* f(args): the callee value waits in register d+1 while the arguments are evaluated *)
  Lemma rhs_call : forall fe args, Forall rhs_spec args -> rhs_spec (ECall fe args).
  Proof.
    intros fe args IHargs. apply rhs_spec_intro. intros pins d fuel k a g env s B Hfu Hop Hb Hd Hc Hend Hip Hcb Hops HG. subst k.
    destruct fe as [| | | |f| | | | | | | | | |]; try contradiction. destruct Hop as (ps & body & Eft & Har & Hoa).
    rewrite eval_ECall. destruct fuel as [|fuel]; [exact Logic.I|].
    pose proof (assoc_in_fnames FT f _ Eft) as Hin.
    destruct (assoc f fcells) as [[[[c0 c0'] cenv] cbf]|] eqn:Efc; [|exfalso; exact (proj1 (Hfck f) Hin Efc)].
    destruct (Rg_flook0 _ _ _ _ _ _ _ _ HG Efc) as [Hls Hlv].
    destruct (Rg_fpin _ _ _ HG) as [Hvp Hsp].
    destruct (Hsp c0 (RClos ps body cenv)) as [Hsv _]; [exact (Hgps f c0 c0' cenv cbf ps body Efc Eft)|].
    destruct (Hvp c0' (VFun (floc f) cbf)) as [Hvv _]; [exact (Hgpv f c0 c0' cenv cbf Efc)|].
    rewrite eval_EVar, Hls. unfold sget at 1. rewrite Hsv.
    rewrite ccode_ECall in Hd, Hc, Hend |- *. cbn [app] in Hc. rewrite !app_length in Hd, Hend |- *. cbn [length app] in Hd, Hend |- *. rewrite argloads_length in Hd, Hend |- *.
    set (k := a_ip a) in *. set (la := length (argcode (S (S d)) args)) in *.
    apply code_at_cons in Hc as [Hi1 Hc]. apply code_at_cons in Hc as [Hi2 Hc]. rewrite app_assoc in Hc.
    apply code_at_app in Hc as [Hca Hc]. rewrite app_length, argloads_length in Hc. fold la in Hc.
    apply code_at_cons in Hc as [Hi3 Hc]. apply code_at_cons in Hc as [Hi4 _].
    assert (Hsd1 : small (S d)) by (eapply small_le; [|exact Hsmall]; lia).
    assert (H1 : reached pins env (S d) a g (S k) [VFun (floc f) cbf] s (trc name a g (mkI OP_LOAD [f]))).
    { split; [|split; [apply Rg_trc; exact HG|apply keeps_trc]]. apply (xstep_upd a Hi1 (dec_load f)).
      pose proof (exec_load f a (trc name a g (mkI OP_LOAD [f])) c0' (VFun (floc f) cbf) ltac:(rewrite (lookup_var_fs a _ f Hcb); exact Hlv) Hvv) as Hx.
      rewrite Hops in Hx. exact Hx. }
    apply (rhs_park (S d) H1 (Nat.le_succ_diag_r d) (Nat.le_succ_diag_r d) Hsd1 Hi2 (dec_store_fast _));
      [intros g2 Hb2; exact (exec_store_fast (reg (S d)) (upd a (S k) [VFun (floc f) cbf]) _ _ g2 eq_refl Hb2)|].
    intros g2 HG2 Hrf2.
    pose proof (call_args_run args IHargs (S (S d)) (S (S k)) pins (upd a (S (S k)) []) g2 env s B (S fuel) ltac:(lia) Hoa Hb ltac:(fold la; lia)
                  Hca ltac:(fold la; lia) eq_refl Hcb eq_refl HG2) as Hargs. fold la in Hargs.
    destruct (evals_ (S fuel) env args s []) as [[vs s1]|r].
    2:{ destruct r as [? ?|?|fl s1|]; try contradiction; [exact Hargs|exact Logic.I]. }
    destruct Hargs as (Hlv' & Hfos & g4 & H4).
    replace (k + (2 + (la + (length args + 2)))) with (S (S (S (S k) + la + length args))) by lia.
    apply (do_call (dn := fdn f)
             (reached_mono (le_S _ _ (Nat.le_succ_diag_r d)) (reached_unpark H4 Hrf2 (Nat.lt_succ_diag_r (S d)) Hsd1 ltac:(atpos Hi3)))
             ltac:(atpos Hi4) dec_call
             (exec_call (upd (upd a (S (S k)) []) (S (S (S k) + la + length args)) (map inj vs ++ [VFun (floc f) cbf])) _ (map inj vs) (floc f) cbf eq_refl)).
    + exact Hfos.
    + congruence.
    + intros p Hp. exact (Hdn f p Hin Hp).
    + exact (Hcall (S fuel) ltac:(lia) f ps body c0 c0' cenv cbf Eft Efc).
  Qed.

  Lemma rhs_self : forall args, Forall rhs_spec args -> rhs_spec (ESelf args).
  Proof.
    intros args IHargs. apply rhs_spec_intro. intros pins d fuel k a g env s B Hfu (ps & ESP & Har & Hoa) Hb Hd Hc Hend Hip Hcb Hops HG. subst k.
    destruct (HSPself ps ESP) as (body & cenv & Eself).
    rewrite eval_ESelf. rewrite ccode_ESelf in Hd, Hc, Hend |- *. rewrite !app_length in Hd, Hend |- *. cbn [length] in Hd, Hend |- *. rewrite argloads_length in Hd, Hend |- *.
    set (k := a_ip a) in *. set (la := length (argcode (S d) args)) in *.
    rewrite app_assoc in Hc. apply code_at_app in Hc as [Hca Hc]. rewrite app_length, argloads_length in Hc. fold la in Hc.
    apply code_at_cons in Hc as [Hi4 _].
    pose proof (call_args_run args IHargs (S d) k pins a g env s B fuel ltac:(lia) Hoa Hb ltac:(fold la; lia)
                  Hca ltac:(fold la; lia) eq_refl Hcb Hops HG) as Hargs. fold la in Hargs.
    destruct (evals_ fuel env args s []) as [[vs s1]|r].
    2:{ destruct r as [? ?|?|fl s1|]; try contradiction; [exact Hargs|exact Logic.I]. }
    destruct Hargs as (Hlv' & Hfos & g4 & H4).
    rewrite (Rg_cur _ _ _ HG), Eself.
    replace (k + (la + (length args + 1))) with (S (k + la + length args)) by lia.
    apply (do_call (dI := DCallSelf) (loc := fnm) (cbf := cb) (dn := sdn) (reached_mono (Nat.le_succ_diag_r d) H4) ltac:(atpos Hi4) eq_refl).
    + unfold exec_d. rewrite (Rg_cf _ _ _ (Rg_trc _ _ _ _ _ _ (proj1 (proj2 H4)))). cbn [upd set_ip set_ops a_ops a_cb]. now rewrite Hcb.
    + exact Hfos.
    + congruence.
    + exact Hsdn.
    + exact (Hself fuel ltac:(lia) ps body cenv Eself).
  Qed.

  Theorem rhs_run : forall e, rhs_spec e.
  Proof.
    apply (expr_ind' rhs_spec (fun _ => True)); try (intros; exact Logic.I);
      try (intros; apply rhs_spec_intro; intros ? ? ? ? ? ? ? ? ? _ Hop; contradiction Hop).
    - exact rhs_bin.
    - intros ea eb IHa IHb. exact (rhs_logic false ea eb IHa IHb).
    - intros ea eb IHa IHb. exact (rhs_logic true ea eb IHa IHb).
    -
      intros ea IHa.
      exact (unop_run (mkI OP_NOT []) DNot (fun v s1 => match v with RBool b => EVal (RBool (negb b)) s1 | _ => EFail (FType 7) s1 end)
               (ENot ea) ea IHa dec_not not_agrees (fun _ => eq_refl) (fun _ _ _ => eq_refl) (fun _ H => H)).
    -
      intros ea IHa.
      exact (unop_run (mkI OP_NEG []) DNeg (fun v s1 => match v with RInt z => arith_res (- z) s1 | _ => EFail (FType 7) s1 end)
               (ENeg ea) ea IHa dec_neg neg_agrees (fun _ => eq_refl) (fun _ _ _ => eq_refl) (fun _ H => H)).
    - intros fe args _. apply rhs_call.
    - exact rhs_self.
  Qed.

  Lemma Rst_upd : forall pins env s a g ip, Rg pins env s g -> length (locals env) <= S (a_ss a) -> Rst pins env s (upd a ip []) g.
  Proof. intros pins env s a g ip HG Hss. split; [exact HG|]. split; [reflexivity|exact Hss]. Qed.

  Lemma post_normal : forall {pins lr sl bt ct fin B' env fs0 a g env' s' g'},
    same_tl env env' -> bound_in B' env' -> xrun prog name code a g (upd a fin []) g' -> Rg pins env' s' g' ->
    length (locals env') <= S (a_ss a) -> tl (frames g') = tl fs0 -> lkeep lr fs0 (frames g') ->
    post pins lr sl bt ct fin B' env fs0 a g (SOk SigNormal env' s').
  Proof.
    intros pins lr sl bt ct fin B' env fs0 a g env' s' g' Hd HB R HG Hss Hf Hlk. cbn [post]. split; [exact Hd|]. split; [exact HB|].
    exists (upd a fin []), g'.
    exact (conj R (conj eq_refl (conj (Rst_upd _ _ _ _ _ _ HG Hss) (conj (act_same_upd _ _ _ _ (act_same_refl a)) (conj Hf Hlk))))).
  Qed.
  Lemma post_normal_same : forall {pins lr sl bt ct fin B env a g s s' g'},
    Rst pins env s a g -> bound_in B env -> xrun prog name code a g (upd a fin []) g' -> Rg pins env s' g' ->
    tl (frames g') = tl (frames g) -> lkeepA (frames g) (frames g') ->
    post pins lr sl bt ct fin B env (frames g) a g (SOk SigNormal env s').
  Proof.
    intros pins lr sl bt ct fin B env a g s s' g' (HG & _ & Hss) Hb R HG' Hf Hlk.
    exact (post_normal (same_tl_refl _ (Rg_ne _ _ _ HG)) Hb R HG' Hss Hf (lkeepA_lkeep _ _ _ Hlk)).
  Qed.

  (* a statement that begins by evaluating e at register level d: K gets the value at the end k1 of e's code *)
  Lemma stmt_ev : forall {e d rest} {K : rvalue -> rstate -> sres_} {pins lr sl bt ct fin B' env fs0 fuel k a g s B r},
    fuel <= FU -> ok_rhs FT SP (B ++ CD) e = true -> bound_in B env -> d <= S c ->
    items_at bt ct k (map CI (xcode d e) ++ rest) -> fin = k + length (map CI (xcode d e) ++ rest) -> endok fin r -> rest <> [] ->
    a_ip a = k -> a_cb a = cb -> Rst pins env s a g ->
    (forall k1 v s1 g1, k1 = k + length (xcode d e) -> k1 + length rest = fin ->
       first_order v -> xrun prog name code a g (upd a k1 [inj v]) g1 ->
       Rg pins env s1 g1 -> tl (frames g1) = tl (frames g) -> lkeepA (frames g) (frames g1) -> items_at bt ct k1 rest ->
       post pins lr sl bt ct (k1 + length rest) B' env fs0 a g (K v s1)) ->
    post pins lr sl bt ct fin B' env fs0 a g
      (match eval fuel env e s with
       | EVal v s1 => K v s1 | ENoVal s1 => SFailed (FType 3) s1 | EFail f s1 => SFailed f s1 | EFuel => SFuel end).
  Proof.
    intros e d rest K pins lr sl bt ct fin B' env fs0 fuel k a g s B r Hfu Hoe Hb Hd Hit -> Hend Hrest Hip Hcb (HG & Hops & Hss) HK.
    assert (Hfin : k + length (xcode d e) + length rest = k + length (map CI (xcode d e) ++ rest))
      by (rewrite app_length, map_length; lia).
    apply items_at_app in Hit as [Hce Hi]. apply items_at_CI in Hce. rewrite map_length in Hi.
    assert (Hlt : k + length (xcode d e) < length code).
    { destruct rest; [congruence|]. cbn [length] in Hfin. destruct Hend as [H|[_ H]]; lia. }
    pose proof (rhs_run e pins d fuel k a g env s B Hfu Hoe Hb ltac:(lia) Hce Hlt Hip Hcb Hops HG) as He.
    destruct (eval fuel env e s) as [v s1|s1|f s1|]; [|exact Logic.I|exact He|exact Logic.I].
    destruct He as (Hfo & g1 & R1 & HG1 & (K1 & K2 & _)). rewrite <- Hfin. exact (HK _ v s1 g1 eq_refl Hfin Hfo R1 HG1 K1 K2 Hi).
  Qed.

  Lemma assign_correct : forall x e, stmt_spec (SAssign x e).
  Proof.
    intros x e pins lr il sl bt ct fuel k a g env s B Hfu Hlr Hok Hb Hit Hend Hlc Hip Hcb HR.
    destruct fuel as [|fuel]; [exact Logic.I|]. rewrite exec_SAssign.
    cbn [ok_stmt] in Hok. rewrite !Bool.andb_true_iff in Hok. destruct Hok as [[[Hx Hxf] _] Hoe].
    apply Bool.negb_true_iff in Hxf. pose proof (uname_of_b x Hx Hxf) as Hxu. cbn [sitems] in Hit, Hend |- *.
    apply (stmt_ev (Nat.lt_le_incl _ _ Hfu) Hoe Hb (Nat.le_succ_diag_r c) Hit eq_refl Hend ltac:(discriminate) Hip Hcb HR).
    intros k1 v s1 g1 _ _ Hfo R1 HG1 Hf1 Hlk1 Hi. apply items_at_cons in Hi as [Hi _]. cbn [item_instr] in Hi.
    set (a1 := upd a k1 [inj v]) in *.
    destruct (assign env s1 x v) as [env' s'] eqn:Ea.
    destruct (store_rel env s1 (trc name a1 g1 (mkI OP_STORE [x])) x v env' s' (Rg_trc _ _ _ _ _ _ HG1) Hxu Hfo Ea)
      as (g2 & Hst & HG2 & Hd & Hbx & Htl & Hoth).
    cbn [length]. rewrite Nat.add_1_r. apply (post_normal (g' := g2)).
    - exact Hd.
    - cbn [after]. eapply bound_in_assign; eassumption.
    - exact (xrun_trans R1 (xstep_upd a1 Hi (dec_store x) (exec_store x a1 _ (inj v) g2 eq_refl Hst))).
    - exact HG2.
    - rewrite (same_tl_length _ _ (Rg_ne _ _ _ (proj1 HR)) Hd). exact (proj2 (proj2 HR)).
    - exact (eq_trans Htl Hf1).
    - eapply lkeep_trans; [apply lkeepA_lkeep; exact Hlk1|].
      apply (lkeep_other _ _ _ x); [intros k0; exact (uname_not_lregn _ _ Hxu)|exact Hoth].
  Qed.

  Lemma print_correct : forall e, stmt_spec (SPrint e).
  Proof.
    intros e pins lr il sl bt ct fuel k a g env s B Hfu Hlr Hoe Hb Hit Hend Hlc Hip Hcb HR.
    destruct fuel as [|fuel]; [exact Logic.I|]. rewrite exec_SPrint. cbn [ok_stmt] in Hoe. cbn [sitems] in Hit, Hend |- *.
    apply (stmt_ev (Nat.lt_le_incl _ _ Hfu) Hoe Hb (Nat.le_succ_diag_r c) Hit eq_refl Hend ltac:(discriminate) Hip Hcb HR).
    intros k1 v s1 g1 _ _ Hfo R1 HG1 Hf1 Hlk1 Hi. apply items_at_cons in Hi as [Hi1 Hi]. apply items_at_cons in Hi as [Hi2 _]. cbn [item_instr] in Hi1, Hi2.
    set (a1 := upd a k1 [inj v]) in *.
    destruct (show_inj v Hfo) as (l & Hrs & Hsh). rewrite Hrs. cbn [after].
    set (g2 := emit_line (trc name a1 g1 (mkI OP_PRINTN [s_star])) l).
    cbn [length]. replace (k1 + 2) with (S (S k1)) by lia.
    apply (post_normal_same (g' := trc name (upd a (S k1) [inj v]) g2 (mkI OP_VOID [])) HR Hb).
    - refine (xrun_trans R1 (xrun_trans _ (xstep_upd (upd a (S k1) [inj v]) Hi2 dec_void (exec_void _ _)))).
      exact (xstep_upd a1 (ops' := [inj v]) Hi1 dec_printn (exec_print a1 _ (inj v) l eq_refl Hsh)).
    - apply Rg_trc. apply print_rel. apply Rg_trc. exact HG1.
    - exact Hf1.
    - exact Hlk1.
  Qed.
  Lemma expr_stmt_correct : forall e, stmt_spec (SExpr e).
  Proof.
    intros e pins lr il sl bt ct fuel k a g env s B Hfu Hlr Hoe Hb Hit Hend Hlc Hip Hcb HR.
    destruct fuel as [|fuel]; [exact Logic.I|]. rewrite exec_SExpr. cbn [ok_stmt] in Hoe.
    cbn [sitems] in Hit, Hend |- *. rewrite app_length, map_length in Hend |- *. cbn [length] in Hend |- *.
    apply items_at_app in Hit as [Hce Hi]. apply items_at_CI in Hce. rewrite map_length in Hi.
    apply items_at_cons in Hi as [Hi1 _]. cbn [item_instr] in Hi1.
    assert (Hend' : k + length (xcode c e) < length code) by (destruct Hend as [H|[_ H]]; lia).
    pose proof (rhs_run e pins c fuel k a g env s B ltac:(lia) Hoe Hb ltac:(lia) Hce Hend' Hip Hcb (proj1 (proj2 HR)) (proj1 HR)) as He.
    set (k1 := k + length (xcode c e)) in *. replace (k + (length (xcode c e) + 1)) with (S k1) by (unfold k1; lia).
    (* a value, if any, is dropped by `void` *)
    assert (Hdone : forall ops s1 g1, xrun prog name code a g (upd a k1 ops) g1 -> Rg pins env s1 g1 -> keeps c g g1 ->
              post pins lr sl bt ct (S k1) B env (frames g) a g (SOk SigNormal env s1)).
    { intros ops s1 g1 R1 HG1 (K1 & K2 & _). cbn [after].
      apply (post_normal_same (g' := trc name (upd a k1 ops) g1 (mkI OP_VOID [])) HR Hb).
      - exact (xrun_trans R1 (xstep_upd (upd a k1 ops) Hi1 dec_void (exec_void _ _))).
      - apply Rg_trc. exact HG1.
      - exact K1.
      - exact K2. }
    destruct (eval fuel env e s) as [v s1|s1|f s1|]; [| |exact He|exact Logic.I].
    - destruct He as (_ & g1 & R1 & HG1 & K1). exact (Hdone _ _ _ R1 HG1 K1).
    - destruct He as (g1 & R1 & HG1 & K1). exact (Hdone _ _ _ R1 HG1 K1).
  Qed.

  Lemma assert_correct : forall e sp, stmt_spec (SAssert e sp).
  Proof.
    intros e sp pins lr il sl bt ct fuel k a g env s B Hfu Hlr Hoe Hb Hit Hend Hlc Hip Hcb HR.
    destruct fuel as [|fuel]; [exact Logic.I|]. rewrite exec_SAssert. cbn [ok_stmt] in Hoe. cbn [sitems] in Hit, Hend |- *.
    apply (stmt_ev (Nat.lt_le_incl _ _ Hfu) Hoe Hb (Nat.le_succ_diag_r c) Hit eq_refl Hend ltac:(discriminate) Hip Hcb HR).
    intros k1 v s1 g1 _ _ Hfo R1 HG1 Hf1 Hlk1 Hi. apply items_at_cons in Hi as [Hi1 _]. cbn [item_instr] in Hi1.
    set (a1 := upd a k1 [inj v]) in *. cbn [length]. rewrite Nat.add_1_r.
    pose proof (exec_assert sp a1 (trc name a1 g1 (mkI OP_ASSERT [sp])) (inj v) eq_refl) as Hx.
    assert (Hfail : forall f e0, exec_d (DAssert (Some sp)) a1 (trc name a1 g1 (mkI OP_ASSERT [sp])) = SFail e0 -> err_rel_s f e0 ->
                                 post pins lr sl bt ct (S k1) (after B (SAssert e sp)) env (frames g) a g (SFailed f s1))
      by (intros f e0 Hex Hrel; exact (fail_at R1 Hi1 (dec_assert sp) Hex Hrel (Rg_out _ _ _ HG1))).
    destruct v as [z|[|]|t| |p bd ev]; cbn [inj val_equals] in Hx; try contradiction.
    - eapply Hfail; [exact Hx|]. cbn. auto.
    - apply (post_normal_same (g' := trc name a1 g1 (mkI OP_ASSERT [sp])) HR Hb).
      + exact (xrun_trans R1 (xstep_upd a1 Hi1 (dec_assert sp) Hx)).
      + apply Rg_trc. exact HG1.
      + exact Hf1.
      + exact Hlk1.
    - eapply Hfail; [exact Hx|]. reflexivity.
    - eapply Hfail; [exact Hx|]. cbn. auto.
    - eapply Hfail; [exact Hx|]. cbn. right. eexists. reflexivity.
  Qed.

  Lemma opassign_correct : forall x o e, stmt_spec (SOpAssign x o e).
  Proof.
    intros x o e pins lr il sl bt ct fuel k a g env s B Hfu Hlr Hok Hb Hit Hend Hlc Hip Hcb HR.
    destruct fuel as [|fuel]; [exact Logic.I|]. rewrite exec_SOpAssign.
    cbn [ok_stmt] in Hok. rewrite !Bool.andb_true_iff in Hok. destruct Hok as [[[Ho Hx] HxB] Hoe].
    apply src_nameb_ok in Hx. apply mem_str_In in HxB. cbn [sitems] in Hit, Hend |- *.
    apply (stmt_ev (Nat.lt_le_incl _ _ Hfu) Hoe Hb (le_n (S c)) Hit eq_refl Hend ltac:(discriminate) Hip Hcb HR).
    intros k1 v s1 g1 _ _ Hfo R1 HG1 Hf1 Hlk1 Hi. apply items_at_cons in Hi as [Hi1 Hi]. apply items_at_cons in Hi as [Hi2 _]. cbn [item_instr] in Hi1, Hi2.
    set (a1 := upd a k1 [inj v]) in *. set (i1 := mkI OP_BIN_OP_ASSIGN [binop_sym o ++ [61%N]; x]) in *.
    set (g1t := trc name a1 g1 i1).
    assert (HG1t : Rg pins env s1 g1t) by (apply Rg_trc; exact HG1).
    destruct (Rg_lookup env s1 g1t x HG1t (bound_in_uname B env x Hb Hx HxB) (bound_in_look B env x Hb HxB)) as (cx & cx' & cur_ & E1 & E2 & Hp & E3 & Hfc & E4).
    rewrite (lookup_app_some _ _ (captured env) _ E1), E3.
    assert (Hlv : lookup_var a1 g1t x = Some cx') by (unfold lookup_var; now rewrite E2).
    pose proof (exec_bin_op_assign (binop_sym o ++ [61%N]) x a1 g1t cx' (inj v) (inj cur_) Hlv eq_refl E4) as Hx1.
    rewrite (op_base_arith5 o Ho) in Hx1.
    pose proof (binop_agree o cur_ v s1 (arith5_arith_op o Ho)) as Hag.
    pose proof (arith5_not_bool o cur_ v s1) as Hnb.
    destruct (binop_sem o cur_ v s1) as [r s2|s2|f s2|]; try contradiction.
    - destruct Hag as (-> & Hfr & Hbo). rewrite Hbo in Hx1. specialize (Hnb r s1 Ho eq_refl).
      assert (Hx2 : exec_d (DBinOpAssign (binop_sym o ++ [61%N]) x) a1 g1t = SNext (set_ops a1 [inj r]) (cell_set g1t cx' (inj r)))
        by (rewrite Hx1; destruct (inj r); try reflexivity; contradiction).
      set (g2 := cell_set g1t cx' (inj r)). cbn [after length]. replace (k1 + 2) with (S (S k1)) by lia.
      apply (post_normal_same (g' := trc name (upd a (S k1) [inj r]) g2 (mkI OP_VOID [])) HR Hb).
      + exact (xrun_trans R1 (xrun_trans (xstep_upd a1 Hi1 (dec_bin_op_assign _ _) Hx2)
                                         (xstep_upd (upd a (S k1) [inj r]) Hi2 dec_void (exec_void _ _)))).
      + apply Rg_trc. apply update_rel; assumption.
      + exact Hf1.
      + exact Hlk1.
    - destruct Hag as (-> & e0 & Hbo & Hrel). rewrite Hbo in Hx1.
      exact (fail_at R1 Hi1 (dec_bin_op_assign _ _) Hx1 (err_rel_s_of _ _ Hrel) (Rg_out _ _ _ HG1)).
  Qed.
  Lemma exec_jmp_pop : forall off n a g, exec_d (DJmpPop off n) a g = SGotoPop off n a g.
  Proof. reflexivity. Qed.

  Lemma Rst_popn : forall pins m env s a g' t, Rg pins (popn m env) s g' -> a_ops a = [] -> length (locals env) <= S (a_ss a) ->
    Rst pins (popn m env) s (set_ip a t) g'.
  Proof.
    intros pins m env s a g' t HG Hops Hss. split; [exact HG|]. split; [exact Hops|].
    cbn [popn locals set_ip a_ss]. rewrite skipn_length. lia.
  Qed.

  Lemma tl_skipn : forall A n (l : list A), tl (skipn n l) = skipn (S n) l.
  Proof.
    intros A. induction n as [|n IH]; intros [|x l]; try reflexivity.
    cbn [skipn]. rewrite IH. reflexivity.
  Qed.

  Lemma jmp_pop_run : forall pins env s a g i off n t,
    nth_error code (a_ip a) = Some i -> decode i = DOk (DJmpPop off n) -> goto (length code) (a_ip a) off = Some t ->
    n < length (locals env) -> Rg pins env s g ->
    exists g2, xrun prog name code a g (set_ip a t) g2 /\ Rg pins (popn n env) s g2 /\ frames g2 = skipn n (frames g).
  Proof.
    intros pins env s a g i off n t Hi Hd Hg Hn HG.
    destruct (popn_rel n env s (trc name a g i) (Rg_trc _ _ _ _ _ _ HG) Hn) as (g2 & Hpop & HG2 & Hfr2 & _).
    exists g2. split; [|split; [exact HG2|exact Hfr2]].
    exact (xstep_gotopop prog name code a g i _ _ off n a _ t g2 eq_refl Hi Hd (exec_jmp_pop _ _ _ _) Hg Hpop).
  Qed.

  Lemma jump_out : forall pins env s a g t n,
    nth_error code (a_ip a) = Some (mkI OP_JMP_POP [sN (t - a_ip a); sN n]) -> a_ip a <= t -> t < length code ->
    n < length (locals env) -> n <= length code -> Rst pins env s a g ->
    exists g2, xrun prog name code a g (set_ip a t) g2 /\ Rst pins (popn n env) s (set_ip a t) g2 /\
               frames g2 = skipn n (frames g).
  Proof.
    intros pins env s a g t n Hi Hle Ht Hn Hnc (HG & Hops & Hss).
    destruct (jmp_pop_run pins env s a g _ _ n t Hi (dec_jmp_pop2 (t - a_ip a) n ltac:(apply small_code; lia) ltac:(apply small_code; lia))
                ltac:(rewrite goto_fwd by lia; f_equal; lia) Hn HG) as (g2 & R & HG2 & Hf2).
    exists g2. exact (conj R (conj (Rst_popn _ _ _ _ _ _ _ HG2 Hops Hss) Hf2)).
  Qed.

  Lemma break_correct : stmt_spec SBreak.
  Proof.
    intros pins lr il sl bt ct fuel k a g env s B Hfu Hlr Hok Hb Hit Hend [Hsl Hlc] Hip Hcb HR.
    destruct fuel as [|fuel]; [exact Logic.I|]. cbn [ok_stmt] in Hok.
    destruct sl as [m|]; [|destruct (Hsl Hok eq_refl)]. destruct (Hlc m eq_refl) as (Hm1 & Hm2 & Hct & Hbt & Hlen & Hmc).
    cbn [sitems length] in Hit, Hct, Hmc. apply items_at_cons in Hit as [Hi _]. cbn [item_instr] in Hi. subst k.
    destruct (jump_out pins env s a g bt m Hi ltac:(lia) Hlen Hm2 ltac:(lia) HR) as (g2 & R & HR2 & Hf2).
    change (Eval.exec (S fuel) env SBreak s) with (SOk SigBreak env s).
    split; [exact (Rst_same_tl _ _ _ _ HR)|].
    exists m, (set_ip a bt), g2. split; [reflexivity|]. split; [exact R|]. split; [reflexivity|]. split; [exact HR2|].
    split; [repeat split|exact Hf2].
  Qed.

  Lemma continue_correct : stmt_spec SContinue.
  Proof.
    intros pins lr il sl bt ct fuel k a g env s B Hfu Hlr Hok Hb Hit Hend [Hsl Hlc] Hip Hcb HR.
    destruct fuel as [|fuel]; [exact Logic.I|]. cbn [ok_stmt] in Hok.
    destruct sl as [m|]; [|destruct (Hsl Hok eq_refl)]. destruct (Hlc m eq_refl) as (Hm1 & Hm2 & Hct & Hbt & Hlen & Hmc).
    cbn [sitems length] in Hit, Hct, Hmc. apply items_at_cons in Hit as [Hi _]. cbn [item_instr] in Hi. subst k.
    destruct (jump_out pins env s a g ct (m - 1) Hi ltac:(lia) ltac:(lia) ltac:(lia) ltac:(lia) HR) as (g2 & R & HR2 & Hf2).
    change (Eval.exec (S fuel) env SContinue s) with (SOk SigContinue env s).
    split; [exact (Rst_same_tl _ _ _ _ HR)|].
    exists m, (set_ip a ct), g2. split; [reflexivity|]. split; [exact R|]. split; [reflexivity|]. split; [exact HR2|].
    split; [repeat split|]. rewrite Hf2, tl_skipn. split; [f_equal; lia|]. split; [apply lkeep_refl|].
    cbn [after]. apply ncd_popn. apply ncd_of_bound. exact Hb.
  Qed.
  Lemma post_seq : forall {pins lr sl bt ct fin B' env fs0 a g env1 a1 g1 r},
    xrun prog name code a g a1 g1 -> same_tl env env1 -> act_same a a1 ->
    post pins lr sl bt ct fin B' env1 fs0 a1 g1 r -> post pins lr sl bt ct fin B' env fs0 a g r.
  Proof.
    intros pins lr sl bt ct fin B' env fs0 a g env1 a1 g1 r R0 Hd Hact H.
    destruct r as [sig env' s'|f s'|]; [|exact (fail_post_xrun R0 H)|exact Logic.I].
    destruct H as [Hd' H]. split; [exact (same_tl_trans _ _ _ Hd Hd')|].
    destruct sig as [| | |[v|]]; [| | | |exact H].
    - destruct H as (HB & a' & g' & R & Hip & HR & Ha & Hf). split; [exact HB|]. exists a', g'.
      exact (conj (xrun_trans R0 R) (conj Hip (conj HR (conj (act_same_trans _ _ _ Hact Ha) Hf)))).
    - destruct H as (m & a' & g' & Hsl & R & Hip & HR & Ha & Hf). exists m, a', g'.
      exact (conj Hsl (conj (xrun_trans R0 R) (conj Hip (conj HR (conj (act_same_trans _ _ _ Hact Ha) Hf))))).
    - destruct H as (m & a' & g' & Hsl & R & Hip & HR & Ha & Hf). exists m, a', g'.
      exact (conj Hsl (conj (xrun_trans R0 R) (conj Hip (conj HR (conj (act_same_trans _ _ _ Hact Ha) Hf))))).
    - destruct H as (env'' & a' & g' & R & Hi & Ho & Hfo & HG & Ha). exists env'', a', g'.
      exact (conj (xrun_trans R0 R) (conj Hi (conj Ho (conj Hfo (conj HG (act_same_trans _ _ _ Hact Ha)))))).
  Qed.

  Lemma skipn_tl_eq : forall A m (l1 l2 : list A), 1 <= m -> tl l1 = tl l2 -> skipn m l1 = skipn m l2.
  Proof.
    intros A m l1 l2 Hm H. destruct m as [|m]; [lia|]. rewrite !skipn_S_tl. now rewrite H.
  Qed.

  (* the reference frames may be replaced by any list with the same tail (break / continue pop >= 1 frame) *)
  Lemma post_rebase : forall {pins lr sl bt ct fin B' env} fs1 {fs0 a g r},
    post pins lr sl bt ct fin B' env fs1 a g r -> tl fs1 = tl fs0 -> lkeep lr fs0 fs1 -> (forall m, sl = Some m -> 1 <= m) ->
    post pins lr sl bt ct fin B' env fs0 a g r.
  Proof.
    intros pins lr sl bt ct fin B' env fs1 fs0 a g r H Htl Hlk Hm.
    destruct r as [sig env' s'|f s'|]; [|exact H|exact Logic.I].
    destruct H as [Hd H]. split; [exact Hd|].
    destruct sig as [| | |rv]; [| | |exact H].
    - destruct H as (HB & a' & g' & R & Hip & HR & Ha & Hf & Hk). split; [exact HB|]. exists a', g'.
      exact (conj R (conj Hip (conj HR (conj Ha (conj (eq_trans Hf Htl) (lkeep_trans _ _ _ _ Hlk Hk)))))).
    - destruct H as (m & a' & g' & Hsl & R & Hip & HR & Ha & Hf). exists m, a', g'.
      rewrite <- (skipn_tl_eq _ m fs1 fs0 (Hm m Hsl) Htl). exact (conj Hsl (conj R (conj Hip (conj HR (conj Ha Hf))))).
    - destruct H as (m & a' & g' & Hsl & R & Hip & HR & Ha & Hf & Hk & Hn). exists m, a', g'.
      pose proof (Hm m Hsl) as Hm1. rewrite <- (skipn_tl_eq _ m fs1 fs0 Hm1 Htl).
      repeat (split; [assumption|]). split; [|exact Hn].
      destruct (m - 1) as [|m'] eqn:Em; [exact (lkeep_trans _ _ _ _ Hlk Hk)|].
      rewrite <- (skipn_tl_eq _ (S m') fs1 fs0 ltac:(lia) Htl). exact Hk.
  Qed.

  Lemma lc_ok_mono : forall il sl bt ct env env' hi hi', lc_ok il sl bt ct env hi -> hi' <= hi ->
    length (locals env') = length (locals env) -> lc_ok il sl bt ct env' hi'.
  Proof.
    intros il sl bt ct env env' hi hi' [H0 H] Hle Hlen. split; [exact H0|].
    intros m E. destruct (H m E) as (H1 & H2 & H3 & H4 & H5 & H6).
    rewrite Hlen. repeat split; try assumption; lia.
  Qed.

  Lemma lc_ok_m : forall il sl bt ct env hi, lc_ok il sl bt ct env hi -> forall m, sl = Some m -> 1 <= m.
  Proof. intros il sl bt ct env hi [_ H] m E. exact (proj1 (H m E)). Qed.

  Lemma sitems_pos : forall il B lr sl st, ok_stmt FT SP CD il B st = true -> 1 <= length (sitems c lr sl st).
  Proof.
    assert (Hl : forall (l : list citem) x r, 1 <= length (l ++ x :: r)) by (intros l x r; rewrite app_length; cbn [length]; lia).
    intros il B lr sl st H. destruct st as [| | | | | | | | | | | | |[e|]]; try discriminate H; try apply Hl; apply le_n.
  Qed.

  Lemma block_of_stmts : forall l, Forall stmt_spec l -> block_spec l.
  Proof.
    induction l as [|st l IH]; intros HF pins lr il sl bt ct fuel k a g env s B Hfu Hlr Hok Hb Hit Hend Hlc Hip Hcb HR;
      (destruct fuel as [|fuel]; [exact Logic.I|]).
    - rewrite exec_block_nil. cbn [bitems length after_l].
      split; [exact (Rst_same_tl _ _ _ _ HR)|]. split; [exact Hb|]. exists a, g.
      split; [apply xrun_refl|]. split; [lia|]. split; [exact HR|]. split; [apply act_same_refl|]. split; [reflexivity|apply lkeep_refl].
    - rewrite exec_block_cons. cbn [ok_block] in Hok. apply Bool.andb_true_iff in Hok as [Hok1 Hok2].
      cbn [bitems] in Hit, Hend, Hlc |- *. rewrite app_length in Hend, Hlc |- *. apply items_at_app in Hit as [Hit1 Hit2].
      set (n1 := length (sitems c lr sl st)) in *. set (n2 := length (bitems c lr sl l)) in *.
      (* the code of st ends where that of l begins: strictly inside the function unless l is empty *)
      assert (Hends : endok (k + n1) (is_ret st) /\ endok (k + n1 + n2) (ends_ret l)).
      { rewrite <- Nat.add_assoc. destruct l as [|st2 l2].
        - cbn [ends_ret] in Hend. change n2 with 0. rewrite Nat.add_0_r in *. split; [exact Hend|].
          destruct Hend as [H|[_ H]]; [left; exact H|right; auto].
        - split; [left|exact Hend]. cbn [ok_block] in Hok2. apply Bool.andb_true_iff in Hok2 as [Hk2 _].
          pose proof (sitems_pos il (after B st) lr sl st2 Hk2). unfold n2 in *. cbn [bitems] in *. rewrite app_length in *.
          destruct Hend as [H0|[_ H0]]; lia. }
      pose proof (Forall_inv HF pins lr il sl bt ct fuel k a g env s B ltac:(lia) Hlr Hok1 Hb Hit1 (proj1 Hends)
                    (lc_ok_mono il sl bt ct env env _ (k + n1) Hlc ltac:(lia) eq_refl) Hip Hcb HR) as H1.
      destruct (Eval.exec fuel env st s) as [[| | |rv] env1 s1|f s1|]; [|exact H1| |exact H1|exact H1|exact Logic.I].
      + destruct H1 as (Hd & HB1 & a1 & g1 & R1 & Hip1 & HR1 & Ha1 & Hf1 & Hlk1). rewrite Nat.add_assoc.
        apply (post_seq R1 Hd Ha1).
        apply (post_rebase (frames g1)); [|exact Hf1|exact Hlk1|exact (lc_ok_m _ _ _ _ _ _ Hlc)].
        apply (IH (Forall_inv_tail HF) pins lr il sl bt ct fuel (k + n1) a1 g1 env1 s1 (after B st)); try assumption; try lia.
        * exact (proj2 Hends).
        * eapply lc_ok_mono; [exact Hlc|lia|]. exact (same_tl_length _ _ (Rg_ne _ _ _ (proj1 HR)) Hd).
        * exact (eq_trans (proj2 (proj2 Ha1)) Hcb).
      + (* continue: what st leaves bound, l leaves bound *)
        destruct H1 as [Hd (m & a' & g' & Esl & R & Hip' & HR' & Ha' & Hf' & Hk' & Hn')]. split; [exact Hd|].
        exists m, a', g'. repeat (split; [assumption|]). cbn [after_l]. eapply ncd_mono; [|exact Hn']. intros y Hy. now apply after_l_mono.
  Qed.
  Lemma popn_1 : forall env, popn 1 env = pop_scope env.
  Proof. intros [l cap cu]. unfold popn, pop_scope. cbn [locals captured cur]. destruct l; reflexivity. Qed.
  Lemma popn_S_pop : forall m env, popn m (pop_scope env) = popn (S m) env.
  Proof. intros m [l cap cu]. unfold popn, pop_scope. cbn [locals captured cur]. now rewrite skipn_S_tl. Qed.

  Lemma exec_done : forall a g, exec_d DDone a g = SPopScope a g.
  Proof. reflexivity. Qed.
  Lemma exec_else : forall a g, exec_d DElse a g = SPush LElse a g.
  Proof. reflexivity. Qed.
  Lemma exec_jmp : forall off a g, exec_d (DJmp off) a g = SGoto off a g.
  Proof. reflexivity. Qed.

  Lemma post_extend : forall pins lr sl bt ct fin1 fin2 B' env fs0 a g r,
    post pins lr sl bt ct fin1 B' env fs0 a g r ->
    (forall env' s' a' g', a_ip a' = fin1 -> Rst pins env' s' a' g' ->
       exists a'' g'', xrun prog name code a' g' a'' g'' /\ a_ip a'' = fin2 /\ Rst pins env' s' a'' g'' /\ act_same a' a'' /\
                       frames g'' = frames g') ->
    post pins lr sl bt ct fin2 B' env fs0 a g r.
  Proof.
    intros pins lr sl bt ct fin1 fin2 B' env fs0 a g r H Hx.
    destruct r as [sig env' s'|f s'|]; cbn [post] in *; [|exact H|exact Logic.I].
    destruct H as [Hd H]. split; [exact Hd|]. destruct sig; try exact H.
    destruct H as (HB & a' & g' & R & Hip & HR & Ha & Hf). split; [exact HB|].
    destruct (Hx env' s' a' g' Hip HR) as (a'' & g'' & R' & Hip' & HR' & Ha' & Hf').
    exists a'', g''. split; [eapply xrun_trans; eassumption|]. split; [exact Hip'|]. split; [exact HR'|].
    split; [eapply act_same_trans; eassumption|]. rewrite Hf'. exact Hf.
  Qed.

  Lemma Rst_push : forall pins env s a g lb, Rst pins env s a g -> special lb = true ->
    Rst pins (push_scope env) s (set_ss a (S (a_ss a))) (push_frame g lb).
  Proof.
    intros pins env s a g lb (HG & Hops & Hss) Hlb. split; [exact (push_rel env s g lb HG Hlb)|]. split; [exact Hops|].
    cbn [push_scope locals length set_ss a_ss]. lia.
  Qed.
  Lemma same_tl_pop : forall env env2, locals env <> [] -> same_tl (push_scope env) env2 ->
    tl (locals env2) = locals env /\ same_tl env (pop_scope env2) /\ length (locals env2) = S (length (locals env)).
  Proof.
    intros env env2 Hne [Htl Hne2]. cbn [push_scope locals tl] in Htl. split; [exact Htl|]. split.
    - split; cbn [pop_scope locals]; rewrite Htl; [reflexivity|exact Hne].
    - destruct (locals env2) as [|sc2 l2]; [congruence|]. cbn [tl] in Htl. subst l2. reflexivity.
  Qed.
  Lemma done_run : forall pins env2 s2 a2 g2, nth_error code (a_ip a2) = Some (mkI OP_DONE []) ->
    Rst pins env2 s2 a2 g2 -> 2 <= length (locals env2) ->
    exists a3 g3, xrun prog name code a2 g2 a3 g3 /\ a_ip a3 = S (a_ip a2) /\ Rst pins (pop_scope env2) s2 a3 g3 /\
                  act_same a2 a3 /\ frames g3 = tl (frames g2).
  Proof.
    intros pins env2 s2 a2 g2 Hi (HG & Hops & Hss) Hlen. set (i1 := mkI OP_DONE []) in *.
    destruct (popn_rel 1 env2 s2 (trc name a2 g2 i1) (Rg_trc _ _ _ _ _ _ HG) ltac:(lia)) as (g3 & Hpop & HG3 & Hf3 & _).
    cbn [pop_frames] in Hpop. destruct (pop_frame (trc name a2 g2 i1)) as [g3'|] eqn:Epop; [|discriminate]. injection Hpop as ->.
    destruct (a_ss a2) as [|k'] eqn:Ess; [lia|]. rewrite popn_1 in HG3.
    exists (set_ip (set_ss a2 k') (S (a_ip a2))), g3. split; [|split; [reflexivity|split; [|split; [repeat split|]]]].
    - exact (xstep_popscope prog name code a2 g2 i1 _ _ a2 _ k' g3 eq_refl Hi dec_done (exec_done _ _) Ess Epop).
    - split; [exact HG3|]. split; [exact Hops|].
      cbn [pop_scope locals set_ip set_ss a_ss]. destruct (locals env2); cbn [tl length] in *; lia.
    - rewrite Hf3. cbn [trc add_trace frames]. exact (skipn_S_tl _ 0 _).
  Qed.

  Lemma option_map_S : forall sl m', option_map S sl = Some m' -> exists m, sl = Some m /\ m' = S m.
  Proof. intros [m|] m' E; [injection E as <-; eauto|discriminate]. Qed.

  (* a block of an `if`, from the push of its frame (if_stmt / else_stmt) on: the body, then `done` *)
  Lemma in_block_run : forall body, block_spec body ->
    forall lb {pins lr il sl bt ct fuel a g env s B kb g1 s1 fin},
      Rst pins env s a g -> xrun prog name code a g (set_ss (upd a kb []) (S (a_ss a))) (push_frame g1 lb) ->
      Rg pins env s1 g1 -> tl (frames g1) = tl (frames g) -> lkeepA (frames g) (frames g1) -> special lb = true -> a_cb a = cb ->
      items_at bt ct kb (bitems c lr (option_map S sl) body ++ [I OP_DONE []]) ->
      ok_block FT SP CD il B body = true -> bound_in B env -> fuel <= FU -> lr <= 2 * kb ->
      fin = kb + length (bitems c lr (option_map S sl) body) + 1 -> fin < length code -> lc_ok il sl bt ct env fin ->
      post pins lr sl bt ct fin B env (frames g) a g (in_block_ fuel body env s1).
  Proof.
    intros body Hbody lb pins lr il sl bt ct fuel a0 g0 env s0 B kb g s fin HR0 R0 HG Hf0 Hlk0 Hlb Hcb Hit Hok Hb Hfu Hlr -> Hend Hlc.
    apply (post_seq R0 (Rst_same_tl _ _ _ _ HR0)); [repeat split|].
    apply (post_rebase (frames g)); [|exact Hf0|exact (lkeepA_lkeep _ _ _ Hlk0)|exact (lc_ok_m _ _ _ _ _ _ Hlc)].
    set (a := upd a0 kb []). assert (HR : Rst pins env s a g) by exact (Rst_upd _ _ _ _ _ kb HG (proj2 (proj2 HR0))).
    assert (Hip : a_ip a = kb) by reflexivity. change (a_cb a = cb) in Hcb. change (a_ss a0) with (a_ss a). clearbody a. clear HR0 R0 Hf0 Hlk0 a0 g0 s0 HG.
    set (len := length (bitems c lr (option_map S sl) body)) in *.
    apply items_at_app in Hit as [Hitb Hid]. apply items_at_cons in Hid as [Hid _]. cbn [item_instr] in Hid. fold len in Hid.
    pose proof (Rg_ne _ _ _ (proj1 HR)) as Hne. pose proof (Rg_len _ _ _ (proj1 HR)) as Hl1.
    assert (Hlc0 : lc_ok il (option_map S sl) bt ct (push_scope env) (kb + len)).
    { destruct Hlc as [H0 H1]. split.
      - intros Hil. specialize (H0 Hil). destruct sl; [discriminate|congruence].
      - intros m' E. apply option_map_S in E as (m & E & ->). destruct (H1 m E) as (A1 & A2 & A3 & A4 & A5 & A6).
        cbn [push_scope locals length]. repeat split; try assumption; lia. }
    pose proof (Hbody pins lr il (option_map S sl) bt ct fuel kb (set_ss a (S (a_ss a))) (push_frame g lb) (push_scope env) s B
                  Hfu Hlr Hok Hb Hitb ltac:(left; fold len; lia) Hlc0 Hip Hcb (Rst_push _ _ _ _ _ lb HR Hlb)) as H.
    fold len in H. unfold in_block_.
    destruct (exec_block fuel (push_scope env) body s) as [sig env2 s2|f s2|]; [|exact H|exact Logic.I].
    destruct H as [Hd H]. destruct (same_tl_pop env env2 Hne Hd) as (Htl & Hd' & Hlen2).
    split; [exact Hd'|]. destruct sig as [| | |rv]; [| | |exact H].
    - destruct H as (_ & a2 & g2 & R2 & Hip2 & HR2 & Ha2 & Hf2 & _).
      destruct (done_run pins env2 s2 a2 g2 ltac:(rewrite Hip2; exact Hid) HR2 ltac:(lia)) as (a3 & g3 & R3 & Hip3 & HR3 & Ha3 & Hf3).
      assert (Ef3 : frames g3 = frames g) by (rewrite Hf3, Hf2; reflexivity).
      split; [exact (bound_in_eq B env (pop_scope env2) Hb Htl)|]. exists a3, g3.
      split; [exact (xrun_trans R2 R3)|]. split; [lia|]. split; [exact HR3|].
      split; [exact (act_same_trans _ _ _ Ha2 Ha3)|]. rewrite Ef3. split; [reflexivity|apply lkeep_refl].
    - (* break: one frame more was popped *)
      destruct H as (m' & a2 & g2 & Esl & R2 & Hip2 & HR2 & Ha2 & Hf2). apply option_map_S in Esl as (m & Esl & ->).
      exists m, a2, g2. rewrite popn_S_pop. exact (conj Esl (conj R2 (conj Hip2 (conj HR2 (conj Ha2 Hf2))))).
    - destruct H as (m' & a2 & g2 & Esl & R2 & Hip2 & HR2 & Ha2 & Hf2 & Hlk2 & Hn2). apply option_map_S in Esl as (m & Esl & ->).
      pose proof (proj1 (proj2 Hlc m Esl)) as Hm. replace (S m - 1) with (S (m - 1)) in HR2, Hlk2, Hn2 by lia.
      exists m, a2, g2. rewrite popn_S_pop. split; [exact Esl|]. split; [exact R2|]. split; [exact Hip2|]. split; [exact HR2|].
      split; [exact Ha2|]. split; [exact Hf2|]. split; [exact Hlk2|].
      intros y Hy Hl. exact (after_l_cd _ _ _ y Hok Hy (Hn2 y Hy Hl)).
  Qed.

  Lemma not_bool_inj : forall v, (forall b, v <> RBool b) -> forall b, inj v <> VBool b.
  Proof. intros v H b E. destruct v; cbn in E; try discriminate. inversion E; subst. now apply (H b). Qed.

  Lemma cond_run : forall (w : bool) {off pins lr sl bt ct fin B' env fs0 a g k1 v s1 g1} {T F : sres_},
    nth_error code k1 = Some (mkI (if w then OP_WHILE_LOOP else OP_IF_STMT) [sN off]) -> small off -> k1 + off < length code ->
    xrun prog name code a g (upd a k1 [inj v]) g1 -> Rg pins env s1 g1 ->
    (let g1t := trc name (upd a k1 [inj v]) g1 (mkI (if w then OP_WHILE_LOOP else OP_IF_STMT) [sN off]) in
     (xrun prog name code a g (set_ss (upd a (S k1) []) (S (a_ss a))) (push_frame g1t (if w then LWhile else LIf)) ->
      post pins lr sl bt ct fin B' env fs0 a g T) /\
     (xrun prog name code a g (upd a (k1 + off) []) g1t -> post pins lr sl bt ct fin B' env fs0 a g F)) ->
    post pins lr sl bt ct fin B' env fs0 a g (match v with RBool true => T | RBool false => F | _ => SFailed (FType 12) s1 end).
  Proof.
    intros w off pins lr sl bt ct fin B' env fs0 a g k1 v s1 g1 T F Hi Hso Hoff R1 HG1 HTF.
    set (i1 := mkI (if w then OP_WHILE_LOOP else OP_IF_STMT) [sN off]) in *. set (a1 := upd a k1 [inj v]) in *.
    set (dI := if w then DWhile (Z.of_nat off) else DIf (Z.of_nat off)).
    assert (Hdec : decode i1 = DOk dI) by (unfold i1, dI; destruct w; [apply dec_while|apply dec_if]; exact Hso).
    assert (Hnb : (forall b, v <> RBool b) -> post pins lr sl bt ct fin B' env fs0 a g (SFailed (FType 12) s1)).
    { intros Hv. apply (fail_at (e0 := E_not_bool) R1 Hi Hdec); [|cbn; auto|exact (Rg_out _ _ _ HG1)].
      unfold dI. destruct w; [apply (exec_while_nb _ a1 _ (inj v))|apply (exec_if_nb _ a1 _ (inj v))]; try reflexivity; now apply not_bool_inj. }
    destruct v as [z|b|t| |p bd ev]; try (apply Hnb; intros b0; discriminate).
    assert (Hx : exec_d dI a1 (trc name a1 g1 i1) =
                 if b then SPush (if w then LWhile else LIf) (set_ops a1 []) (trc name a1 g1 i1) else SGoto (Z.of_nat off) (set_ops a1 []) (trc name a1 g1 i1))
      by (unfold dI; destruct w; [apply exec_while|apply exec_if]; reflexivity).
    destruct HTF as [HT HF]. destruct b.
    - apply HT. eapply xrun_trans; [exact R1|]. exact (xstep_push prog name code a1 g1 i1 _ k1 _ (set_ops a1 []) _ eq_refl Hi Hdec Hx).
    - apply HF. eapply xrun_trans; [exact R1|].
      eapply (xstep_goto prog name code a1 g1 i1 _ k1 _ (set_ops a1 [])); [reflexivity|exact Hi|exact Hdec|exact Hx|]. apply goto_fwd. exact Hoff.
  Qed.

  Lemma if_correct : forall cnd body, block_spec body -> stmt_spec (SIf cnd body).
  Proof.
    intros cnd body Hbody pins lr il sl bt ct fuel k a g env s B Hfu Hlr Hok Hb Hit Hend Hlc Hip Hcb HR.
    destruct Hend as [Hend|[Hend _]]; [|discriminate Hend].
    destruct fuel as [|fuel]; [exact Logic.I|]. rewrite exec_SIf. cbn [after].
    rewrite ok_SIf in Hok. apply Bool.andb_true_iff in Hok as [Hoe Hokb].
    rewrite sitems_SIf in Hit, Hend, Hlc |- *. cbv zeta in Hit, Hend, Hlc |- *.
    set (bi := bitems c lr (option_map S sl) body) in *. set (fin := k + length _) in *.
    apply (stmt_ev (fin := fin) (r := false) (Nat.lt_le_incl _ _ Hfu) Hoe Hb (Nat.le_succ_diag_r c) Hit eq_refl (or_introl Hend) ltac:(discriminate) Hip Hcb HR).
    intros k1 v s1 g1 Hk1 Hfin Hfo R1 HG1 Hf1 Hlk1 Hi. apply items_at_cons in Hi as [Hi1 Hib]. cbn [item_instr I] in Hi1.
    rewrite Hfin. cbn [app length] in Hfin. rewrite app_length in Hfin, Hi1. cbn [length] in Hfin, Hi1.
    apply (cond_run false Hi1 ltac:(apply small_code; lia) ltac:(lia) R1 HG1).
    cbv zeta. set (g1t := trc name (upd a k1 [inj v]) g1 _). split; intros R2.
    -
      exact (in_block_run body Hbody LIf (fin := fin) HR R2 (Rg_trc _ _ _ _ _ _ HG1) Hf1 Hlk1 eq_refl Hcb Hib Hokb Hb (Nat.lt_le_incl _ _ Hfu)
               ltac:(lia) ltac:(fold bi; lia) Hend Hlc).
    -
      replace fin with (k1 + (length bi + 1 + 1)) by lia.
      exact (post_normal_same HR Hb R2 (Rg_trc _ _ _ _ _ _ HG1) Hf1 Hlk1).
  Qed.

  Lemma ifelse_correct : forall cnd body els, block_spec body -> block_spec els -> stmt_spec (SIfElse cnd body els).
  Proof.
    intros cnd body els Hbody Hels pins lr il sl bt ct fuel k a g env s B Hfu Hlr Hok Hb Hit Hend Hlc Hip Hcb HR.
    destruct Hend as [Hend|[Hend _]]; [|discriminate Hend].
    destruct fuel as [|fuel]; [exact Logic.I|]. rewrite exec_SIfElse. cbn [after].
    rewrite ok_SIfElse in Hok. rewrite !Bool.andb_true_iff in Hok. destruct Hok as [[Hoe Hokb] Hoke].
    rewrite sitems_SIfElse in Hit, Hend, Hlc |- *. cbv zeta in Hit, Hend, Hlc |- *.
    set (bi := bitems c lr (option_map S sl) body) in *. set (ei := bitems c lr (option_map S sl) els) in *.
    set (fin := k + length _) in *.
    apply (stmt_ev (fin := fin) (r := false) (Nat.lt_le_incl _ _ Hfu) Hoe Hb (Nat.le_succ_diag_r c) Hit eq_refl (or_introl Hend) ltac:(discriminate) Hip Hcb HR).
    intros k1 v s1 g1 Hk1 Hfin Hfo R1 HG1 Hf1 Hlk1 Hi.
    apply items_at_cons in Hi as [Hi1 Hi]. apply items_at_app in Hi as [Hib Hi].
    apply items_at_cons in Hi as [Hi2 Hi]. apply items_at_cons in Hi as [Hi3 Hie]. cbn [item_instr I] in Hi1, Hi2, Hi3.
    rewrite Hfin. cbn [app length] in Hfin, Hi2. repeat (rewrite app_length in Hfin; cbn [length] in Hfin).
    rewrite app_length in Hi1, Hi2, Hi3, Hie. rewrite app_length in Hi2. cbn [length] in Hi1, Hi2, Hi3, Hie.
    set (kj := S k1 + (length bi + 1)) in *.
    apply (cond_run false Hi1 ltac:(apply small_code; lia) ltac:(lia) R1 HG1).
    cbv zeta. set (g1t := trc name (upd a k1 [inj v]) g1 _). split; intros R2.
    -
      apply (post_extend pins lr sl bt ct kj).
      + exact (in_block_run body Hbody LIf (fin := kj) HR R2 (Rg_trc _ _ _ _ _ _ HG1) Hf1 Hlk1 eq_refl Hcb Hib Hokb Hb (Nat.lt_le_incl _ _ Hfu)
                 ltac:(lia) ltac:(fold bi; lia) ltac:(lia) (lc_ok_mono _ _ _ _ env env _ kj Hlc ltac:(lia) eq_refl)).
      + intros env' s' a' g' Hip' (HG' & Hops' & Hss').
        exists (set_ip a' fin), (trc name a' g' (mkI OP_JMP [sN (S (length ei + 1) + 1)])). split; [|split; [reflexivity|split; [|split; [repeat split|reflexivity]]]].
        * eapply (xstep_goto prog name code a' g' _ _ kj _ a'); [exact Hip'|exact Hi2|apply dec_jmp; apply small_code; lia|apply exec_jmp|].
          rewrite Hip', goto_fwd by lia. f_equal. lia.
        * split; [apply Rg_trc; exact HG'|]. split; [exact Hops'|exact Hss'].
    -
      set (ke := S kj) in *.
      assert (R3 : xrun prog name code a g (set_ss (upd a (S ke) []) (S (a_ss a))) (push_frame (trc name (upd a ke []) g1t (mkI OP_ELSE_STMT [])) LElse)).
      { refine (xrun_trans _ (xstep_push prog name code (upd a ke []) g1t _ _ ke LElse (upd a ke []) _ eq_refl Hi3 dec_else (exec_else _ _))).
        replace ke with (k1 + (length bi + 1 + 2)) by (unfold ke, kj; lia). exact R2. }
      exact (in_block_run els Hels LElse (fin := fin) HR R3 (Rg_trc _ _ _ _ _ _ (Rg_trc _ _ _ _ _ _ HG1)) Hf1 Hlk1 eq_refl Hcb Hie Hoke Hb (Nat.lt_le_incl _ _ Hfu)
               ltac:(unfold ke; lia) ltac:(fold ei; unfold ke; lia) Hend Hlc).
  Qed.

  Lemma ifelif_correct : forall cnd body nxt, block_spec body -> stmt_spec nxt -> stmt_spec (SIfElif cnd body nxt).
  Proof.
    intros cnd body nxt Hbody Hn.
    assert (Hels : block_spec [nxt]) by (apply block_of_stmts; constructor; [exact Hn|constructor]).
    pose proof (ifelse_correct cnd body [nxt] Hbody Hels) as H.
    intros pins lr il sl bt ct fuel k a g env s B Hfu Hlr Hok Hb Hit Hend Hlc Hip Hcb HR.
    assert (Es : sitems c lr sl (SIfElif cnd body nxt) = sitems c lr sl (SIfElse cnd body [nxt])).
    { rewrite sitems_SIfElif, sitems_SIfElse. cbv zeta. cbn [bitems]. rewrite app_nil_r. reflexivity. }
    assert (Ee : Eval.exec fuel env (SIfElif cnd body nxt) s = Eval.exec fuel env (SIfElse cnd body [nxt]) s).
    { destruct fuel; [reflexivity|]. rewrite exec_SIfElif, exec_SIfElse. reflexivity. }
    rewrite Es in *. rewrite Ee.
    apply (H pins lr il sl bt ct fuel k a g env s B); try assumption.
    rewrite ok_SIfElif in Hok. rewrite ok_SIfElse. cbn [ok_block]. rewrite Bool.andb_true_r. exact Hok.
  Qed.

  Lemma items_at_resolve : forall bt ct kb F l, items_at bt ct kb (resolve F 0 0 l) ->
    items_at (kb + F) (kb + F - 1) kb l.
  Proof. intros bt ct kb F l H. apply items_at_resolve_gen in H. now rewrite Nat.sub_0_r in H. Qed.

  Lemma popn_0 : forall env, popn 0 env = env.
  Proof. intros [l cap cu]. reflexivity. Qed.

  (* the back edge, whatever the operand stack holds: a from loop leaves the result of `+=` there *)
  Lemma back_edge_gen : forall pins kj n k env2 s2 a2 g2,
    nth_error code kj = Some (mkI OP_JMP_POP [neg_off n]) -> n <= length code -> kj < length code -> kj = k + n ->
    a_ip a2 = kj -> Rg pins env2 s2 g2 -> 2 <= length (locals env2) ->
    exists g3, xrun prog name code a2 g2 (set_ip a2 k) g3 /\ Rg pins (pop_scope env2) s2 g3 /\
               frames g3 = tl (frames g2).
  Proof.
    intros pins kj n k env2 s2 a2 g2 Hi Hn Hkj Hk Hip HG Hlen. rewrite <- Hip in Hi. rewrite Hk in Hip.
    destruct (jmp_pop_run pins env2 s2 a2 g2 _ _ 1 k Hi (dec_jmp_pop_back n ltac:(apply small_code; lia))
                ltac:(rewrite goto_back by lia; f_equal; lia) ltac:(lia) HG) as (g3 & R & HG3 & Hf3).
    rewrite popn_1 in HG3. exists g3. split; [exact R|]. split; [exact HG3|]. rewrite Hf3. exact (skipn_S_tl _ 0 _).
  Qed.

  Lemma back_edge : forall pins kj n k env2 s2 a2 g2,
    nth_error code kj = Some (mkI OP_JMP_POP [neg_off n]) -> n <= length code -> kj < length code -> kj = k + n ->
    a_ip a2 = kj -> Rst pins env2 s2 a2 g2 -> 2 <= length (locals env2) ->
    exists g3, xrun prog name code a2 g2 (set_ip a2 k) g3 /\ Rst pins (pop_scope env2) s2 (set_ip a2 k) g3 /\
               frames g3 = tl (frames g2).
  Proof.
    intros pins kj n k env2 s2 a2 g2 Hi Hn Hkj Hk Hip (HG & Hops & Hss) Hlen.
    destruct (back_edge_gen pins kj n k env2 s2 a2 g2 Hi Hn Hkj Hk Hip HG Hlen) as (g3 & R & HG3 & Hf3).
    exists g3. split; [exact R|]. split; [|exact Hf3]. split; [exact HG3|]. split; [exact Hops|].
    cbn [pop_scope locals set_ip a_ss]. destruct (locals env2); cbn [tl length] in *; lia.
  Qed.

  Lemma while_correct : forall cnd body, block_spec body -> stmt_spec (SWhile cnd body).
  Proof.
    intros cnd body Hbody pins lr il sl bt ct fuel k a g env s B Hfu Hlr Hok Hb Hit Hend Hlc Hip Hcb HR. destruct Hend as [Hend|[Hend _]]; [|discriminate Hend].
    rewrite ok_SWhile in Hok. apply Bool.andb_true_iff in Hok as [Hoe Hokb].
    rewrite sitems_SWhile in Hit, Hend, Hlc |- *. cbv zeta in Hit, Hend, Hlc |- *.
    set (cb0 := bitems c lr (Some 1) body) in *. set (fin := k + length _) in *. cbn [after].
    (* the loop, entered with any frames fs0 that have the tail and the loop registers of the present ones *)
    enough (Hloop : forall fs0 fuel a g env s, fuel <= FU -> bound_in B env -> lc_ok il sl bt ct env fin -> a_ip a = k -> a_cb a = cb ->
              Rst pins env s a g -> tl (frames g) = tl fs0 -> lkeep lr fs0 (frames g) ->
              post pins lr sl bt ct fin B env fs0 a g (Eval.exec fuel env (SWhile cnd body) s))
      by (apply Hloop; auto using lkeep_refl).
    clear a g env s Hb Hlc Hip Hcb HR Hfu fuel. intros fs0.
    induction fuel as [|fuel IH]; intros a g env s Hfu Hb Hlc Hip Hcb HR Hfs Hlk0; [exact Logic.I|].
    rewrite exec_SWhile.
    apply (stmt_ev (fin := fin) (r := false) (Nat.lt_le_incl _ _ Hfu) Hoe Hb (Nat.le_succ_diag_r c) Hit eq_refl (or_introl Hend) ltac:(discriminate) Hip Hcb HR).
    intros k1 v s1 g1 Hk1 Hfin Hfo R1 HG1 Hf1 Hlk1 Hi. rewrite Hfin.
    apply items_at_cons in Hi as [Hi1 Hi]. apply items_at_resolve in Hi. apply items_at_app in Hi as [Hib Hi2].
    apply items_at_cons in Hi2 as [Hi2 _]. cbn [item_instr I] in Hi1, Hi2.
    cbn [app length] in Hfin. rewrite resolve_length in Hfin. rewrite app_length in Hfin, Hi1, Hib. rewrite map_length in Hi2. cbn [length] in Hfin, Hi1, Hib.
    set (kj := S k1 + length cb0) in *.
    replace (S k1 + (length cb0 + 1)) with fin in Hib by lia. replace (fin - 1) with kj in Hib by lia.
    pose proof (Rg_ne _ _ _ (proj1 HR)) as Hne. pose proof (Rg_len _ _ _ (proj1 HR)) as Hl1.
    apply (cond_run true Hi1 ltac:(apply small_code; lia) ltac:(lia) R1 HG1).
    cbv zeta. set (g1t := trc name (upd a k1 [inj v]) g1 _).
    assert (HG1t : Rg pins env s1 g1t) by (apply Rg_trc; exact HG1).
    assert (Hf1t : tl (frames g1t) = tl fs0) by exact (eq_trans Hf1 Hfs).
    assert (Hlk1t : lkeep lr fs0 (frames g1t)) by (eapply lkeep_trans; [exact Hlk0|apply lkeepA_lkeep; exact Hlk1]).
    split; intros R0.
    2:{
      replace fin with (k1 + (length cb0 + 1 + 1)) by lia.
      exact (post_normal (same_tl_refl _ Hne) Hb R0 HG1t (proj2 (proj2 HR)) Hf1t Hlk1t). }
    (* the body's break target is fin, its continue target the back edge *)
    set (a0 := set_ss (upd a (S k1) []) (S (a_ss a))) in *. set (g0 := push_frame g1t LWhile) in *.
    apply (post_seq R0 (same_tl_refl _ Hne)); [repeat split|]. clear R0.
    assert (Hlc0 : lc_ok true (Some 1) fin kj (push_scope env) (S k1 + length cb0)).
    { split; [discriminate|]. intros m E. injection E as <-. cbn [push_scope locals length]. fold kj. repeat split; lia. }
    pose proof (Hbody pins lr true (Some 1) fin kj fuel (S k1) a0 g0 (push_scope env) s1 B ltac:(lia) ltac:(lia) Hokb Hb Hib
                  ltac:(left; fold cb0; lia) Hlc0 eq_refl Hcb
                  (Rst_push pins env s1 _ g1t LWhile (Rst_upd _ _ _ _ _ (S k1) HG1t (proj2 (proj2 HR))) eq_refl)) as H.
    fold cb0 in H. fold kj in H. unfold in_block_.
    destruct (exec_block fuel (push_scope env) body s1) as [sig env2 s2|f s2|]; [|exact H|exact Logic.I].
    destruct H as [Hd H]. destruct (same_tl_pop env env2 Hne Hd) as (Htl & Hd' & Hlen2).
    pose proof (bound_in_eq B env (pop_scope env2) Hb Htl) as Hb'.
    assert (Hnext : forall a2 g2, xrun prog name code a0 g0 a2 g2 -> a_ip a2 = kj -> Rst pins env2 s2 a2 g2 -> act_same a0 a2 ->
              tl (frames g2) = frames g1t ->
              post pins lr sl bt ct fin B env fs0 a0 g0 (Eval.exec fuel (pop_scope env2) (SWhile cnd body) s2)).
    { intros a2 g2 R2 Hip2 HR2 Ha2 Hf2.
      destruct (back_edge pins kj (1 + length cb0 + length (xcode c cnd)) k env2 s2 a2 g2 Hi2 ltac:(lia) ltac:(lia)
                  ltac:(unfold kj; lia) Hip2 HR2 ltac:(lia)) as (g3 & R3 & HR3 & Hf3).
      apply (post_seq (xrun_trans R2 R3) Hd' Ha2).
      apply IH; [lia|exact Hb'| |reflexivity|exact (eq_trans (proj2 (proj2 Ha2)) Hcb)|exact HR3| |]; try (rewrite Hf3, Hf2; assumption).
      eapply lc_ok_mono; [exact Hlc|lia|]. cbn [pop_scope locals]. now rewrite Htl. }
    destruct sig as [| | |[v0|]]; [| | | |destruct H].
    - destruct H as (_ & a2 & g2 & R2 & Hip2 & HR2 & Ha2 & Hf2 & _). exact (Hnext a2 g2 R2 Hip2 HR2 Ha2 Hf2).
    -
      destruct H as (m & a2 & g2 & Esl & R2 & Hip2 & HR2 & Ha2 & Hf2). injection Esl as <-. rewrite popn_1 in HR2.
      split; [exact Hd'|]. split; [exact Hb'|]. exists a2, g2.
      rewrite Hf2. exact (conj R2 (conj Hip2 (conj HR2 (conj Ha2 (conj Hf1t Hlk1t))))).
    -
      destruct H as (m & a2 & g2 & Esl & R2 & Hip2 & HR2 & Ha2 & Hf2 & _). injection Esl as <-.
      rewrite popn_0 in HR2. exact (Hnext a2 g2 R2 Hip2 HR2 Ha2 Hf2).
    -
      exact (conj Hd' H).
  Qed.

  (* from loops in the reference semantics, one iteration at a time (simulated in ClosSim.v) *)
  Section FromIter.
    Variables (fuel : nat) (incl : bool) (hi : Z) (step : option expr) (cname : str) (collide : bool) (body : list stmt).
    Fixpoint from_iter (n : nat) (e : fenv) (s : rstate) : sres_ :=
      match n with O => SFuel | S n =>
      match lookup_scopes cname (locals e) with
      | None => SFailed (FUnbound cname) s
      | Some c =>
        match sget s c with
        | Some (RInt i) =>
          if (if incl then i <=? hi else i <? hi)%Z then
            match in_block_ fuel body e s with
            | SOk (SigNormal | SigContinue) e s =>
              let bump (sv : rvalue) (s : rstate) : sres_ :=
                match sget s c, sv with
                | Some (RInt i'), RInt d => if i32_ok (i' + d)%Z then from_iter n e (sset s c (RInt (i' + d)%Z))
                                            else SFailed FOverflow s
                | _, _ => SFailed (FType 13) s end in
              match step with
              | None => bump (RInt 1) s
              | Some se => match eval fuel e se s with
                           | EVal sv s => bump sv s | ENoVal s => SFailed (FType 3) s
                           | EFail f s => SFailed f s | EFuel => SFuel end
              end
            | SOk SigBreak e s => SOk SigNormal (if collide then e else undeclare e cname) s
            | SOk g e s => SOk g (if collide then e else undeclare e cname) s
            | r => r end
          else SOk SigNormal (if collide then e else undeclare e cname) s
        | _ => SFailed (FType 13) s end
      end end.
  End FromIter.

  Lemma exec_SFrom : forall fuel env a b incl step nm collide body s,
    Eval.exec (S fuel) env (SFrom a b incl step nm collide body) s =
    match eval fuel env a s with
    | EVal va s =>
      match eval fuel env b s with
      | EVal vb s =>
        match va, vb with
        | RInt _, RInt hi =>
          let cname := match nm with Some x => x | None => [0%N] end in
          let '(e, s) := (if collide then assign env s cname va else declare env s cname va) in
          from_iter fuel incl hi step cname collide body fuel e s
        | _, _ => SFailed (FType 13) s end
      | ENoVal s => SFailed (FType 3) s | EFail f s => SFailed f s | EFuel => SFuel end
    | ENoVal s => SFailed (FType 3) s | EFail f s => SFailed f s | EFuel => SFuel end.
  Proof. reflexivity. Qed.

  Lemma from_iter_S : forall fuel incl hi step cname collide body n e s,
    from_iter fuel incl hi step cname collide body (S n) e s =
    match lookup_scopes cname (locals e) with
    | None => SFailed (FUnbound cname) s
    | Some c =>
      match sget s c with
      | Some (RInt i) =>
        if (if incl then i <=? hi else i <? hi)%Z then
          match in_block_ fuel body e s with
          | SOk (SigNormal | SigContinue) e s =>
            let bump (sv : rvalue) (s : rstate) : sres_ :=
              match sget s c, sv with
              | Some (RInt i'), RInt d => if i32_ok (i' + d)%Z then from_iter fuel incl hi step cname collide body n e (sset s c (RInt (i' + d)%Z))
                                          else SFailed FOverflow s
              | _, _ => SFailed (FType 13) s end in
            match step with
            | None => bump (RInt 1) s
            | Some se => match eval fuel e se s with
                         | EVal sv s => bump sv s | ENoVal s => SFailed (FType 3) s
                         | EFail f s => SFailed f s | EFuel => SFuel end
            end
          | SOk SigBreak e s => SOk SigNormal (if collide then e else undeclare e cname) s
          | SOk g e s => SOk g (if collide then e else undeclare e cname) s
          | r => r end
        else SOk SigNormal (if collide then e else undeclare e cname) s
      | _ => SFailed (FType 13) s end
    end.
  Proof. reflexivity. Qed.

  Lemma ok_expr_weaken : forall B x e, ok_expr B e = true -> ok_expr (x :: B) e = true.
  Proof.
    intros B x e H. unfold ok_expr in *. rewrite !Bool.andb_true_iff in *. destruct H as [[H1 H2] H3].
    split; [split; assumption|]. rewrite forallb_forall in *. intros y Hy. specialize (H3 y Hy).
    rewrite Bool.andb_true_iff in *. destruct H3 as [A B0]. split; [exact A|]. cbn [mem_str]. rewrite B0. apply Bool.orb_true_r.
  Qed.

  (* the loop head of a from loop; the operand stack may still hold the stale result of the last `+=` *)
  Lemma cmp_sem : forall (incl : bool) i hi,
    bin_op_sem (if incl then op_le else op_lt) (VInt i) (VInt hi) = OV (VBool (if incl then (i <=? hi)%Z else (i <? hi)%Z)).
  Proof. intros [|] i hi; reflexivity. Qed.

  Lemma from_cond_run : forall kc x endr (incl : bool) aL gL c0' ce i hi,
    nth_error code kc = Some (mkI OP_LOAD_FAST [x]) -> nth_error code (S kc) = Some (mkI OP_LOAD_FAST [endr]) ->
    nth_error code (S (S kc)) = Some (mkI OP_BIN_OP [if incl then op_le else op_lt]) ->
    a_ip aL = kc -> find_in_function x (frames gL) = Some c0' -> cell_get gL c0' = Some (VInt i) ->
    find_in_function endr (frames gL) = Some ce -> cell_get gL ce = Some (VInt hi) ->
    exists g', xrun prog name code aL gL (upd aL (S (S (S kc))) [VBool (if incl then (i <=? hi)%Z else (i <? hi)%Z)]) g' /\
               frames g' = frames gL /\ (forall pins env s, Rg pins env s gL -> Rg pins env s g').
  Proof.
    intros kc x endr incl aL gL c0' ce i hi H1 H2 H3 Hip Fx Cx Fe Ce.
    pose proof (load_fast_run aL gL kc x c0' (VInt i) H1 Hip Fx Cx) as R1.
    set (a1 := upd aL (S kc) (a_ops aL ++ [VInt i])) in *. set (g1 := trc name aL gL _) in *.
    pose proof (load_fast_run a1 g1 (S kc) endr ce (VInt hi) H2 eq_refl Fe Ce) as R2.
    set (a2 := upd a1 (S (S kc)) (a_ops a1 ++ [VInt hi])) in *. set (g2 := trc name a1 g1 _) in *.
    set (i3 := mkI OP_BIN_OP [if incl then op_le else op_lt]) in *.
    exists (trc name a2 g2 i3). split; [|split; [reflexivity|]].
    - refine (xrun_trans R1 (xrun_trans R2 (xstep_upd a2 H3 (dec_bin_op _) _))).
      rewrite (exec_bin_op_gen _ a2 _ (a_ops aL) (VInt i) (VInt hi)), cmp_sem; [reflexivity|].
      cbn [a2 a1 upd set_ip set_ops a_ops]. now rewrite <- app_assoc.
    - intros pins env s H. apply Rg_trc. apply Rg_trc. apply Rg_trc. exact H.
  Qed.

  Lemma from_add_run : forall p x d a2 g2 cxv i',
    nth_error code p = Some (mkI OP_BIN_OP_ASSIGN [[43%N; 61%N]; x]) ->
    a_ip a2 = p -> a_ops a2 = [VInt d] -> find_in_function x (frames g2) = Some cxv -> cell_get g2 cxv = Some (VInt i') ->
    if i32_ok (i' + d)%Z then
      exists g3', xrun prog name code a2 g2 (upd a2 (S p) [VInt (i' + d)%Z]) (cell_set g3' cxv (VInt (i' + d)%Z)) /\
                  frames g3' = frames g2 /\ (forall pins env s, Rg pins env s g2 -> Rg pins env s g3')
    else exists g3, xfail prog name code a2 g2 (E_overflow OP_BIN_OP) g3 /\ out g3 = out g2.
  Proof.
    intros p x d a2 g2 cxv i' H2 Hip Hops Fx Cx. subst p.
    set (i2 := mkI OP_BIN_OP_ASSIGN [[43%N; 61%N]; x]) in *. set (g2b := trc name a2 g2 i2).
    assert (Hlv : lookup_var a2 g2b x = Some cxv) by (unfold lookup_var; change (frames g2b) with (frames g2); now rewrite Fx).
    pose proof (exec_bin_op_assign [43%N; 61%N] x a2 g2b cxv (VInt d) (VInt i') Hlv Hops Cx) as Hx.
    change (bin_op_sem (op_base [43%N; 61%N]) (VInt i') (VInt d)) with (arith OP_BIN_OP (i' + d)%Z) in Hx. unfold arith in Hx.
    destruct (i32_ok (i' + d)%Z); exists g2b.
    - split; [exact (xstep_upd a2 H2 (dec_bin_op_assign _ _) Hx)|]. split; [reflexivity|]. intros pins env s H. apply Rg_trc. exact H.
    - split; [exact (xstep_fail prog name code a2 g2 i2 _ _ _ eq_refl H2 (dec_bin_op_assign _ _) Hx)|reflexivity].
  Qed.

  Definition step_expr (st : option expr) : expr := match st with Some e => e | None => EInt 1 end.
  Lemma step_code_expr : forall st, step_code c st = map CI (pcode c (step_expr st)).
  Proof. intros [e|]; reflexivity. Qed.
  Lemma step_ok_expr : forall B st, step_ok B st = true -> ok_expr B (step_expr st) = true.
  Proof. intros B [e|] H; [exact H|reflexivity]. Qed.

  Lemma assign_captured : forall env s x v env' s', assign env s x v = (env', s') -> captured env' = captured env.
  Proof.
    intros env s x v env' s' H. unfold assign in H. destruct (lookup_scopes x (locals env)); [inversion H; reflexivity|].
    unfold declare, alloc in H. destruct (locals env); inversion H; reflexivity.
  Qed.

  Lemma agree_of : forall pins env s g env' s' e B, Rg pins env s g -> ok_expr (B ++ CD) e = true -> bound_in B env ->
    captured env' = captured env ->
    (forall y, In y (used_e e) -> lookup_scopes y (locals env') = lookup_scopes y (locals env)) ->
    (forall c0 v, sget s c0 = Some v -> sget s' c0 = Some v) ->
    forall y, In y (used_e e) -> agree env s env' s' y.
  Proof.
    intros pins env s g env' s' e B HG Hok Hb Hc Hl Hs y Hy.
    destruct (vsrc_lookup pins env s g y HG (ok_expr_vsrc B env e Hok Hb y Hy)) as (c0 & v & E1 & _ & E3 & _).
    exists c0, c0, v. split; [exact E1|]. split; [exact E3|]. split; [|now apply Hs].
    rewrite lookup_app_split, Hc, (Hl y Hy), <- lookup_app_split. exact E1.
  Qed.

  (* hidden counters (anonymous from loops): the counter lives outside the data relation -- source name `hid` / VM
     register L#n -- in a pinned pair of cells *)
  Lemma Rg_pins_imp : forall P P' env s g, Rg P env s g ->
    (forall cy w, vpin P' cy w -> vpin P cy w) -> (forall c0 v, spin P' c0 v -> spin P c0 v) -> Rg P' env s g.
  Proof.
    intros P P' env s g [A B D E F0 G H I0 J K L M] Hv Hs. constructor; try assumption. exact (pins_imp_ P P' _ _ _ _ H Hv Hs).
  Qed.

  Lemma top_swap_rel : forall pins env s g sc l f fs sc' vs,
    Rg pins env s g -> locals env = sc :: l -> frames g = f :: fs ->
    (forall y, y <> hid -> assoc y sc' = assoc y sc) ->
    (forall y, uname0 y -> assoc y vs = assoc y (vars f)) -> keys_nd vs ->
    Rg pins {| locals := sc' :: l; captured := captured env; cur := cur env |} s
       (with_frames g ({| lab := lab f; vars := vs |} :: fs)).
  Proof.
    intros pins env s g sc l f fs sc' vs HG El Ef Hsc Hvs Hnd.
    pose proof (Rg_top_same env s g sc l f fs sc' vs [] (trace g) HG El Ef Hsc Hvs Hnd) as H. rewrite app_nil_r in H. exact H.
  Qed.

  Definition add_spin (P : pinset) (c0 : N) (v : rvalue) : pinset :=
    {| vpin := vpin P; spin := fun c1 v1 => (c1 = c0 /\ v1 = v) \/ spin P c1 v1 |}.

  Lemma alloc_rel : forall pins env s g v, Rg pins env s g ->
    Rg (add_spin pins (N.of_nat (length (store s))) v) env {| store := store s ++ [v]; rout := rout s |} g.
  Proof.
    intros pins [l cap cu] [st ro] [cs fs o tr] v [Hfr Hb Ho Hbase Hun Hns Hpins Hnd Hfp Hfl Hcur Hcf].
    cbn [locals captured cur store rout cells frames out trace] in *.
    constructor; cbn [locals captured cur store rout cells frames out]; try assumption.
    - rewrite <- (app_nil_r cs). apply Rfr_mono. exact Hfr.
    - assert (Hold : pins_ok pins l fs (st ++ [v]) (cs ++ [])) by (apply pins_mono_; exact Hpins).
      rewrite app_nil_r in Hold. destruct Hold as [H1 H2]. split; [exact H1|].
      intros c0 v0 [[-> ->]|Hq]; [|exact (H2 c0 v0 Hq)]. split.
      + rewrite Nnat.Nat2N.id, nth_error_app2, Nat.sub_diag by lia. reflexivity.
      + intros c0' Hp. apply (pairs_cellrel st cs _ _ _ _ Hfr) in Hp. apply cellrel_valid in Hp. lia.
    - rewrite <- (app_nil_r cs). apply pins_mono_. exact Hfp.
  Qed.

  (* the pins of a running anonymous loop: counter cells cx / c', end register cell ce *)
  Definition cpins (P : pinset) (cx c' : N) (i : Z) (ce : N) (hi : Z) : pinset :=
    {| vpin := fun cy w => (cy = c' /\ w = VInt i) \/ (cy = ce /\ w = VInt hi) \/ vpin P cy w;
       spin := fun c0 v => (c0 = cx /\ v = RInt i) \/ spin P c0 v |}.

  Lemma cpins_update : forall P cx c' i i' ce hi env s g, Rg (cpins P cx c' i ce hi) env s g ->
    (forall w, ~ vpin P c' w) -> (forall v, ~ spin P cx v) -> (forall w, ~ vpin fpins c' w) -> (forall v, ~ spin fpins cx v) ->
    ce <> c' ->
    Rg (cpins P cx c' i' ce hi) env (sset s cx (RInt i')) (cell_set g c' (VInt i')).
  Proof.
    intros P cx c' i i' ce hi [l cap cu] [st ro] [cs fs o tr] [Hfr Hb Ho Hbase Hun Hns Hpins Hnd Hfp Hfl Hcur Hcf] Hv Hs Hfv Hfs Hce.
    cbn [locals captured cur store rout cells frames out trace sset cell_set] in *.
    destruct Hpins as [P1 P2].
    destruct (P1 c' (VInt i) (or_introl (conj eq_refl eq_refl))) as [Hc'v Hc'p].
    destruct (P2 cx (RInt i) (or_introl (conj eq_refl eq_refl))) as [Hcxv Hcxp].
    assert (Hlc : N.to_nat c' < length cs) by (apply nth_error_Some; congruence).
    assert (Hlx : N.to_nat cx < length st) by (apply nth_error_Some; congruence).
    assert (Hoc : forall cy, cy <> c' -> nth_error (set_nth (N.to_nat c') (VInt i') cs) (N.to_nat cy) = nth_error cs (N.to_nat cy)).
    { intros cy Hne. apply nth_error_set_nth_other. intros E. apply Hne. symmetry. now apply N2Nat.inj. }
    assert (Hos : forall c0, c0 <> cx -> nth_error (set_nth (N.to_nat cx) (RInt i') st) (N.to_nat c0) = nth_error st (N.to_nat c0)).
    { intros c0 Hne. apply nth_error_set_nth_other. intros E. apply Hne. symmetry. now apply N2Nat.inj. }
    constructor; cbn [locals captured cur store rout cells frames out]; try assumption.
    - eapply Rfr_pairs_vals; [exact Hfr| |].
      + intros c0 c0' v Hp Hn. rewrite Hos; [exact Hn|]. intros ->. exact (Hcxp _ Hp).
      + intros c0 c0' w Hp Hn. rewrite Hoc; [exact Hn|]. intros ->. exact (Hc'p _ Hp).
    - split.
      + intros cy w [[-> ->]|[[-> ->]|Hq]].
        * split; [now apply nth_error_set_nth_same|exact Hc'p].
        * destruct (P1 ce (VInt hi) (or_intror (or_introl (conj eq_refl eq_refl)))) as [A B0]. split; [rewrite Hoc by exact Hce; exact A|exact B0].
        * destruct (P1 cy w (or_intror (or_intror Hq))) as [A B0]. split; [|exact B0]. rewrite Hoc; [exact A|]. intros ->. exact (Hv _ Hq).
      + intros c0 v [[-> ->]|Hq].
        * split; [now apply nth_error_set_nth_same|exact Hcxp].
        * destruct (P2 c0 v (or_intror Hq)) as [A B0]. split; [|exact B0]. rewrite Hos; [exact A|]. intros ->. exact (Hs _ Hq).
    - destruct Hfp as [F1 F2]. split.
      + intros cy w Hq. destruct (F1 cy w Hq) as [A B0]. split; [|exact B0]. rewrite Hoc; [exact A|]. intros ->. exact (Hfv _ Hq).
      + intros c0 v Hq. destruct (F2 c0 v Hq) as [A B0]. split; [|exact B0]. rewrite Hos; [exact A|]. intros ->. exact (Hfs _ Hq).
  Qed.

  Lemma dec_delete2 : forall x y, decode (mkI OP_DELETE_NAME_SCOPED [x; y]) = DOk (DDelete [x; y]).
  Proof. reflexivity. Qed.
  Lemma exec_delete2 : forall x y a g f fs cx cy, frames g = f :: fs -> x <> y ->
    assoc x (vars f) = Some cx -> assoc y (vars f) = Some cy ->
    exec_d (DDelete [x; y]) a g =
    SNext a (with_frames g ({| lab := lab f; vars := assoc_del y (assoc_del x (vars f)) |} :: fs)).
  Proof.
    intros x y a g f fs cx cy Hf Hne Hx Hy. unfold exec_d. rewrite Hf. cbn [delete_names]. rewrite Hx.
    rewrite assoc_del_other by congruence. rewrite Hy. reflexivity.
  Qed.
  Lemma undeclare_rel : forall pins pc pw env s g x sc l f fs vs,
    Rg (add_vpin pins pc pw) env s g -> locals env = sc :: l -> frames g = f :: fs -> uname x ->
    (forall y, uname0 y -> y <> x -> assoc y vs = assoc y (vars f)) -> assoc x vs = None ->
    assoc x (assoc_del x sc) = None -> lookup_scopes x l = None -> keys_nd vs ->
    (forall x0 cc, In (x0, cc) dtab -> x0 <> x) ->
    Rg pins (undeclare env x) s (with_frames g ({| lab := lab f; vars := vs |} :: fs)).
  Proof.
    intros pins pc pw [l0 cap cu] [st ro] [cs fs0 o tr] x sc l f fs vs [Hfr Hb Ho Hbase Hun Hns Hpins Hnd Hfp Hfl Hcur Hcf Hcapd Hdl] El Ef Hx Hvs Hxv Hxs Hxl Hndv Hdx.
    cbn [locals captured store rout cells frames out trace] in *. subst l0 fs0.
    unfold undeclare. cbn [locals captured cur with_frames frames cells out].
    assert (HxR : special (lab f) = true -> find_in_function x fs = None).
    { intros Hsp. cbn [StmtRel.Rfr] in Hfr. destruct Hfr as [_ Hfr]. destruct l as [|sc' l'].
      - rewrite Hsp in Hfr. discriminate.
      - destruct Hfr as [_ Hfr]. pose proof (Rfr_look _ _ _ _ Hfr x Hx) as H. rewrite Hxl in H.
        destruct (find_in_function x fs); [contradiction|reflexivity]. }
    assert (Hsrc : forall y, y <> x -> lookup_scopes y (assoc_del x sc :: l) = lookup_scopes y (sc :: l)).
    { intros y Hne. cbn [lookup_scopes]. now rewrite assoc_del_other. }
    assert (Hvm : forall y, uname y -> y <> x -> find_in_function y ({| lab := lab f; vars := vs |} :: fs) = find_in_function y (f :: fs)).
    { intros y Hy Hne. cbn [find_in_function vars lab]. now rewrite (Hvs y (proj1 Hy) Hne). }
    assert (Hsx : lookup_scopes x (assoc_del x sc :: l) = None) by (cbn [lookup_scopes]; now rewrite Hxs).
    assert (Hvx : find_in_function x ({| lab := lab f; vars := vs |} :: fs) = None).
    { cbn [find_in_function vars lab]. rewrite Hxv. destruct (special (lab f)) eqn:Es; [now apply HxR|reflexivity]. }
    assert (Hpairs : forall c1 c1', pairs (assoc_del x sc :: l) ({| lab := lab f; vars := vs |} :: fs) c1 c1' -> pairs (sc :: l) (f :: fs) c1 c1').
    { intros c1 c1' Hp. cbn [StmtRel.pairs] in Hp |- *. destruct Hp as [(y & Hy & E1 & E2)|Hp]; [|right; exact Hp].
      destruct (list_eq_dec N.eq_dec y x) as [->|Hne]; [congruence|].
      left. exists y. rewrite <- Hsrc, <- Hvm by assumption. auto. }
    constructor; cbn [locals captured store rout cells frames out with_frames]; try assumption.
    - cbn [StmtRel.Rfr] in Hfr |- *. destruct Hfr as [Hl Hrest]. split; [|exact Hrest].
      intros y Hy. destruct (list_eq_dec N.eq_dec y x) as [->|Hne].
      + rewrite Hsx, Hvx. exact Logic.I.
      + rewrite Hsrc, Hvm by assumption. exact (Hl y Hy).
    - intros c1 c1' c2 c2' H1 H2. exact (Hb _ _ _ _ (Hpairs _ _ H1) (Hpairs _ _ H2)).
    - intros y Hy. destruct (list_eq_dec N.eq_dec y x) as [->|Hne]; [left; exact Hx|]. apply Hun. now rewrite <- Hsrc.
    - exact (NS_undeclare _ _ _ Hns).
    - apply pins_weaken_ in Hpins. eapply pins_sub_; [exact Hpins|exact Hpairs].
    - apply (nd_top f fs); assumption.
    - eapply pins_sub_; [exact Hfp|exact Hpairs].
    - intros f0 c0 c0' cenv cbf E. specialize (Hfl f0 c0 c0' cenv cbf E).
      assert (Hin : In f0 funs) by (apply Hfck; congruence).
      assert (Hne : f0 <> x) by (intros ->; exact (uname_nfun _ Hx Hin)).
      eapply flook_top; [exact Hfl|now rewrite assoc_del_other|].
      cbn [find_in_function vars lab]. now rewrite (Hvs f0 (Hfun0 f0 Hin) Hne).
    - intros x0 c0 c0' Hin. specialize (Hdl x0 c0 c0' Hin). pose proof (Hdx _ _ Hin) as Hne.
      eapply flook_top; [exact Hdl|now rewrite assoc_del_other|].
      cbn [find_in_function vars lab]. now rewrite (Hvs x0 (proj1 (Hdtab _ _ Hin)) Hne).
  Qed.

  Lemma lregn_inj : forall a b, small a -> small b -> lregn a = lregn b -> a = b.
  Proof. intros a b Ha Hb E. unfold lregn in E. apply app_inv_head in E. now apply sN_inj. Qed.

  (* the VM evaluates the step expression of a from loop inside the loop-body scope, the reference semantics outside:
     its variables are not shadowed by the body's scope *)
  Lemma step_vars : forall pins envL env2 s2 g2 Bb body e,
    Rg pins env2 s2 g2 -> ok_expr (Bb ++ CD) e = true -> ok_block FT SP CD true Bb body = true ->
    bound_in Bb envL -> tl (locals env2) = locals envL -> locals env2 <> [] ->
    ncd (after_l Bb body) env2 ->
    (forall y, In y (used_e e) -> vsrc env2 y) /\ (forall y, In y (used_e e) -> agree (pop_scope env2) s2 env2 s2 y).
  Proof.
    intros pins envL env2 s2 g2 Bb body e HG Hok Hokb Hb Htl Hne Hn.
    apply ok_expr_parts in Hok as (_ & _ & Hu).
    assert (Hcore : forall y, In y (used_e e) -> vsrc env2 y /\ lookup_scopes y (tl (locals env2)) = lookup_scopes y (locals env2)).
    { intros y Hy. destruct (Hu y Hy) as [Hu0 Hin].
      destruct (in_dec (list_eq_dec N.eq_dec) y Bb) as [HyB|HyB].
      - pose proof (bound_in_uname _ _ _ Hb Hu0 HyB) as Hun. pose proof (bound_in_look _ _ _ Hb HyB) as Hl. rewrite <- Htl in Hl.
        destruct (lookup_scopes y (tl (locals env2))) as [c0|] eqn:E; [|congruence].
        assert (E2 : lookup_scopes y (locals env2) = Some c0).
        { pose proof (Rg_ns _ _ _ HG) as Hns. destruct (locals env2) as [|sc2 l2]; [congruence|]. cbn [tl] in E.
          apply NS_lookup_tl; [exact Hns|exact (uname_not_hid _ Hun)|exact E]. }
        split; [apply vsrc_local; [exact Hun|congruence]|congruence].
      - apply in_app_or in Hin as [Hin|Hin]; [contradiction|].
        assert (E2 : lookup_scopes y (locals env2) = None).
        { destruct (lookup_scopes y (locals env2)) eqn:E; [|reflexivity]. exfalso. apply HyB.
          eapply after_l_cd; [exact Hokb|exact Hin|]. apply (Hn y Hin). congruence. }
        assert (E1 : lookup_scopes y (tl (locals env2)) = None).
        { destruct (lookup_scopes y (tl (locals env2))) eqn:E; [|reflexivity]. exfalso.
          apply (lookup_tl_ne (locals env2) y); congruence. }
        split; [|congruence]. pose proof (In_CD_assoc y Hin) as Ha. destruct (assoc y cdsc) as [c0|] eqn:E; [|congruence].
        split; [exact (proj1 (Hcd y c0 E))|]. right. split; [exact E2|congruence]. }
    split; [intros y Hy; exact (proj1 (Hcore y Hy))|].
    intros y Hy. destruct (Hcore y Hy) as [Hv He]. destruct (vsrc_lookup pins env2 s2 g2 y HG Hv) as (c0 & v & E1 & _ & E3 & _).
    exists c0, c0, v. split; [|split; [exact E3|split; [exact E1|exact E3]]].
    cbn [pop_scope locals captured]. rewrite lookup_app_split, He, <- lookup_app_split. exact E1.
  Qed.

  Lemma lregn_not_uname0 : forall n, ~ uname0 (lregn n).
  Proof. intros n [_ [H _]]. exact H. Qed.

  Lemma exec_SReturn : forall fuel env e s, Eval.exec (S fuel) env (SReturn (Some e)) s =
    match eval fuel env e s with
    | EVal v s => SOk (SigReturn (Some v)) env s
    | ENoVal s => SFailed (FType 3) s | EFail f s => SFailed f s | EFuel => SFuel end.
  Proof. reflexivity. Qed.

  Lemma return_correct : forall e, stmt_spec (SReturn (Some e)).
  Proof.
    intros e pins lr il sl bt ct fuel k a g env s B Hfu Hlr Hoe Hb Hit Hend Hlc Hip Hcb HR.
    destruct fuel as [|fuel]; [exact Logic.I|]. rewrite exec_SReturn. cbn [ok_stmt] in Hoe. cbn [sitems] in Hit, Hend |- *.
    apply (stmt_ev (Nat.lt_le_incl _ _ Hfu) Hoe Hb (Nat.le_succ_diag_r c) Hit eq_refl Hend ltac:(discriminate) Hip Hcb HR).
    intros k1 v s1 g1 _ _ Hfo R1 HG1 Hf1 Hlk1 Hi. apply items_at_cons in Hi as [Hi1 _]. cbn [item_instr I] in Hi1.
    split; [exact (Rst_same_tl _ _ _ _ HR)|]. exists env, (upd a k1 [inj v]), g1.
    exact (conj R1 (conj Hi1 (conj eq_refl (conj Hfo (conj HG1 (act_same_upd _ _ _ _ (act_same_refl a))))))).
  Qed.

  Theorem stmt_sim : forall st, stmt_spec st.
  Proof.
    apply (stmt_ind' (fun _ => True) stmt_spec); try (intros; exact Logic.I).
    - intros x e _. apply assign_correct.
    - intros x e _ pins lr il sl bt ct fuel k a g env s B Hfu Hlr Hok. discriminate.
    - intros x o e _. apply opassign_correct.
    - intros e _. apply print_correct.
    - intros e sp _. apply assert_correct.
    - intros e _. apply expr_stmt_correct.
    - intros cnd b _ Hb. apply if_correct. now apply block_of_stmts.
    - intros cnd b e _ Hb He. apply ifelse_correct; now apply block_of_stmts.
    - intros cnd b n _ Hb Hn. apply ifelif_correct; [now apply block_of_stmts|exact Hn].
    - intros cnd b _ Hb. apply while_correct. now apply block_of_stmts.
    - intros a b incl step nm col body _ _ _ Hbody pins lr il sl bt ct fuel k a0 g env s B Hfu Hlr Hok. rewrite ok_SFrom in Hok. discriminate.
    - apply break_correct.
    - apply continue_correct.
    - intros [e|] _; [apply return_correct|]. intros pins lr il sl bt ct fuel k a g env s B Hfu Hlr Hok. discriminate.
  Qed.

  Theorem block_sim : forall l, block_spec l.
  Proof. intros l. apply block_of_stmts. apply Forall_forall. intros st _. apply stmt_sim. Qed.

End Sim.


Lemma resolve_all_CI : forall F S l idx, Forall is_CI (resolve F S idx l).
Proof.
  intros F S. induction l as [|it l IH]; intros idx; cbn [resolve]; [constructor|].
  destruct it; constructor; try exact Logic.I; apply IH.
Qed.
Lemma map_CI_all : forall l, Forall is_CI (map CI l).
Proof. induction l; cbn [map]; constructor; [exact Logic.I|assumption]. Qed.

Definition ci_spec (c : nat) (st : stmt) : Prop :=
  forall B lr sl, ok_stmt FT SP CD false B st = true -> Forall is_CI (sitems c lr sl st).

Lemma bitems_CI : forall c l, Forall (ci_spec c) l ->
  forall B lr sl, ok_block FT SP CD false B l = true -> Forall is_CI (bitems c lr sl l).
Proof.
  intros c. induction l as [|st l IH]; intros HF B lr sl Hok; [constructor|].
  cbn [ok_block] in Hok. apply Bool.andb_true_iff in Hok as [H1 H2]. cbn [bitems].
  apply Forall_app. split; [exact (Forall_inv HF B lr sl H1)|exact (IH (Forall_inv_tail HF) _ lr sl H2)].
Qed.

Ltac ci_tac := repeat (first [ apply map_CI_all | apply resolve_all_CI | assumption
                             | apply Forall_app; split | apply Forall_cons | apply Forall_nil | exact Logic.I ]).

Theorem sitems_CI : forall c st, ci_spec c st.
Proof.
  intros c. apply (stmt_ind' (fun _ => True) (ci_spec c)); try (intros; exact Logic.I); unfold ci_spec.
  - intros x e _ B lr sl H. cbn [sitems]. ci_tac.
  - intros x e _ B lr sl H. discriminate.
  - intros x o e _ B lr sl H. cbn [sitems]. ci_tac.
  - intros e _ B lr sl H. cbn [sitems]. ci_tac.
  - intros e sp _ B lr sl H. cbn [sitems]. ci_tac.
  - intros e _ B lr sl H. cbn [sitems]. ci_tac.
  - intros cnd b _ Hb B lr sl H. rewrite ok_SIf in H. apply Bool.andb_true_iff in H as [H1 H2].
    rewrite sitems_SIf. cbv zeta. pose proof (bitems_CI c b Hb B lr (option_map S sl) H2). ci_tac.
  - intros cnd b e _ Hb He B lr sl H. rewrite ok_SIfElse in H. rewrite !Bool.andb_true_iff in H. destruct H as [[H1 H2] H3].
    rewrite sitems_SIfElse. cbv zeta.
    pose proof (bitems_CI c b Hb B lr (option_map S sl) H2). pose proof (bitems_CI c e He B lr (option_map S sl) H3). ci_tac.
  - intros cnd b n _ Hb Hn B lr sl H. rewrite ok_SIfElif in H. rewrite !Bool.andb_true_iff in H. destruct H as [[H1 H2] H3].
    rewrite sitems_SIfElif. cbv zeta.
    pose proof (bitems_CI c b Hb B lr (option_map S sl) H2). pose proof (Hn B lr (option_map S sl) H3). ci_tac.
  - intros cnd b _ Hb B lr sl H. rewrite sitems_SWhile. cbv zeta. ci_tac.
  - intros a b incl step nm col body _ _ _ _ B lr sl H. rewrite ok_SFrom in H. discriminate H.
  - intros B sl H. discriminate.
  - intros B sl H. discriminate.
  - intros [e|] _ B lr sl H; [|discriminate]. cbn [sitems]. ci_tac.
Qed.

Lemma bitems_all_CI : forall c l B lr sl, ok_block FT SP CD false B l = true -> Forall is_CI (bitems c lr sl l).
Proof. intros c l. apply bitems_CI. apply Forall_forall. intros st _. apply sitems_CI. Qed.

Lemma CI_strip : forall its, Forall is_CI its -> map CI (strip its) = its.
Proof.
  induction its as [|it its IH]; intros H; [reflexivity|].
  pose proof (Forall_inv H) as H1. pose proof (Forall_inv_tail H) as H2.
  destruct it; cbn in H1; try contradiction. cbn [strip map]. now rewrite IH.
Qed.

Lemma items_at_strip : forall code bt ct k its, Forall is_CI its -> code_at code k (strip its) ->
  items_at code bt ct k its.
Proof.
  intros code bt ct k its HF Hc j it Hj. rewrite <- (CI_strip its HF) in Hj.
  rewrite nth_error_map in Hj. destruct (nth_error (strip its) j) as [i|] eqn:E; [|discriminate].
  cbn [option_map] in Hj. inversion Hj; subst it. cbn [item_instr]. exact (Hc j i E).
Qed.

(* what the code of a module has to do from (a, g) on: stop at the final `ret_mod` (or at a top-level `return v`) with
   nothing but the activation's own frames, or fail alike *)
Definition mod_end (prog : program) (name : str) (code : list instr) (a : act) (g : gstate) (r : sres_) : Prop :=
  match r with
  | SOk SigNormal _ s' => exists a' g',
        xrun prog name code a g a' g' /\ nth_error code (a_ip a') = Some ret_mod /\
        a_ops a' = [] /\ out g' = rout s' /\ drop_to_function (frames g') = []
  | SOk (SigReturn (Some v)) _ s' => exists a' g',
        xrun prog name code a g a' g' /\ nth_error code (a_ip a') = Some (mkI OP_RET []) /\
        a_ops a' = [inj v] /\ out g' = rout s' /\ drop_to_function (frames g') = []
  | SOk _ _ _ => False
  | SFailed f s' => fail_post f (exists e g', xfail prog name code a g e g' /\ err_rel_s f e /\ out g' = rout s')
  | SFuel => True
  end.

Lemma mod_end_xrun : forall prog name code a g a1 g1 r,
  xrun prog name code a g a1 g1 -> mod_end prog name code a1 g1 r -> mod_end prog name code a g r.
Proof.
  intros prog name code a g a1 g1 r R H. destruct r as [sig env' s'|f s'|]; cbn [mod_end] in *; [|eapply fail_post_xrun; eassumption|exact Logic.I].
  destruct sig as [| | |[v|]]; try contradiction; destruct H as (a' & g' & R' & H); exists a', g';
    (split; [exact (xrun_trans R R')|exact H]).
Qed.

Section Top.
Variable path : str.

Theorem cblock_correct : forall l B, ok_block FT SP CD false B l = true ->
  forall c st pins prog name pre post_ a g env s fuel,
  let mid := strip (fst (cblockT path c None l st)) in
  let code := pre ++ mid ++ post_ in
  let fin := length pre + length mid in
  (post_ <> [] \/ ends_ret l = true) -> small (c + 2 * length code + 8) -> lreg st <= 2 * length pre ->
  a_ip a = length pre -> a_cb a = cb -> Rst pins env s a g -> bound_in B env ->
  (forall fuel', fuel' < fuel -> call_ok prog fuel') ->
  (forall fuel', fuel' < fuel -> self_ok prog fuel') ->
  match exec_block fuel env l s with
  | SOk SigNormal env' s' => exists a' g',
        xrun prog name code a g a' g' /\ a_ip a' = fin /\
        Rst pins env' s' a' g' /\ act_same a a' /\ same_tl env env' /\ bound_in (after_l B l) env' /\
        tl (frames g') = tl (frames g)
  | SOk (SigReturn (Some v)) env' s' => exists env'' a' g',
        xrun prog name code a g a' g' /\ nth_error code (a_ip a') = Some (mkI OP_RET []) /\
        a_ops a' = [inj v] /\ first_order v /\ Rg pins env'' s' g' /\ act_same a a'
  | SOk _ _ _ => False
  | SFailed f s' => fail_post f (exists e g',
        xfail prog name code a g e g' /\ err_rel_s f e /\ out g' = rout s')
  | SFuel => True
  end.
Proof.
  intros l B Hok c st pins prog name pre post_ a g env s fuel mid code fin Hpost Hsm Hlr Hip Hcb HR Hb Hcall Hself.
  pose proof (bitems_all_CI c l B (lreg st) None Hok) as HCI.
  assert (Emid : mid = strip (bitems c (lreg st) None l)) by (unfold mid; now rewrite (cblockT_ok path c l FT SP CD false B None st Hok)).
  assert (Elen : length mid = length (bitems c (lreg st) None l)) by (rewrite Emid; now apply strip_CI_length).
  pose proof (block_sim prog name code c Hsm fuel Hcall Hself l pins (lreg st) false None 0 0 fuel (length pre) a g env s B (le_n _) Hlr Hok Hb) as H.
  rewrite <- Elen in H. fold fin in H.
  assert (Hit : items_at code 0 0 (length pre) (bitems c (lreg st) None l)).
  { apply items_at_strip; [exact HCI|]. rewrite <- Emid. apply code_at_embed. }
  assert (Hend : endok code fin (ends_ret l)).
  { destruct post_ as [|i0 post0].
    - right. destruct Hpost as [Hp|Hp]; [congruence|]. split; [exact Hp|]. unfold fin, code. rewrite !app_length. cbn [length]. lia.
    - left. apply embed_length. discriminate. }
  assert (Hlc : lc_ok code false None 0 0 env fin) by (split; [discriminate|intros m E; discriminate]).
  specialize (H Hit Hend Hlc Hip Hcb HR).
  destruct (exec_block fuel env l s) as [sig env' s'|f s'|]; [| |exact Logic.I].
  - cbn [post] in H. destruct H as [Hd H]. destruct sig as [| | |rv].
    + destruct H as (HB' & a' & g' & R & Hip' & HR' & Ha). exists a', g'. split; [exact R|]. split; [exact Hip'|]. split; [exact HR'|]. split; [exact (proj1 Ha)|]. split; [exact Hd|]. split; [exact HB'|exact (proj1 (proj2 Ha))].
    + destruct H as (m & ? & ? & E & _). discriminate.
    + destruct H as (m & ? & ? & E & _). discriminate.
    + destruct rv as [v|]; exact H.
  - cbn [post] in H. eapply fail_post_map; [|exact H]. intros (e & g' & R & Hr & Ho). exists e, g'. auto.
Qed.
(* the block is the tail of a module's code, reached by a run from (a0, g00) *)
Lemma cblock_end : forall l B, ok_block FT SP CD false B l = true ->
  forall c st pins prog name pre a0 g00 a g env s fuel,
  let mid := strip (fst (cblockT path c None l st)) in
  let code := pre ++ mid ++ [ret_mod] in
  base = [] -> small (c + 2 * length code + 8) -> lreg st <= 2 * length pre ->
  a_ip a = length pre -> a_cb a = cb -> Rst pins env s a g -> bound_in B env ->
  (forall fuel', fuel' < fuel -> call_ok prog fuel') ->
  (forall fuel', fuel' < fuel -> self_ok prog fuel') ->
  xrun prog name code a0 g00 a g ->
  mod_end prog name code a0 g00 (exec_block fuel env l s).
Proof.
  intros l B Hok c st pins prog name pre a0 g00 a g env s fuel mid code Hbase Hsm Hlr Hip Hcb HR Hb Hcall Hself R0.
  apply (mod_end_xrun _ _ _ _ _ _ _ _ R0).
  pose proof (cblock_correct l B Hok c st pins prog name pre [ret_mod] a g env s fuel
                ltac:(left; discriminate) Hsm Hlr Hip Hcb HR Hb Hcall Hself) as H.
  cbv zeta in H. fold mid code in H.
  destruct (exec_block fuel env l s) as [sig env' s'|f s'|]; cbn [mod_end]; [|exact H|exact Logic.I].
  destruct sig as [| | |[v|]]; try contradiction.
  - destruct H as (a' & g' & R & Hip' & (HG & Hops & _) & _). exists a', g'.
    split; [exact R|]. split; [|split; [exact Hops|split; [exact (Rg_out _ _ _ HG)|rewrite <- Hbase; exact (Rg_drop _ _ _ HG)]]].
    rewrite Hip'. unfold code. rewrite app_assoc, nth_error_app2 by (rewrite app_length; lia).
    rewrite app_length, Nat.sub_diag. reflexivity.
  - destruct H as (env'' & a' & g' & R & Hi & Hops & _ & HG & _). exists a', g'.
    split; [exact R|]. split; [exact Hi|]. split; [exact Hops|]. split; [exact (Rg_out _ _ _ HG)|rewrite <- Hbase; exact (Rg_drop _ _ _ HG)].
Qed.
End Top.

End Base.
Arguments Rg : clear implicits.
Arguments Rst : clear implicits.

Lemma Rst_init : forall name fpins, (forall c w, ~ vpin fpins c w) -> (forall c v, ~ spin fpins c v) ->
  Rst [] [] [] [] None None name fpins [] [] no_pins {| locals := [[]]; captured := []; cur := None |} {| store := []; rout := [] |}
      (act0 name [] None) (push_frame g0 (LFun name)).
Proof.
  intros name fpins Hv Hs. split; [|split; [reflexivity|cbn; lia]].
  constructor; cbn [locals captured store rout cells frames out push_frame with_frames g0 length skipn]; try reflexivity.
  - cbn [StmtRel.Rfr]. split; [|reflexivity]. intros x Hx. cbn. exact Logic.I.
  - intros c1 c1' c2 c2' H1. cbn in H1. destruct H1 as [(x & _ & E & _)|[]]. discriminate.
  - intros x Hx. cbn in Hx. congruence.
  - cbn. split; [intros y Hy; congruence|exact Logic.I].
  - split; intros ? ? [].
  - repeat constructor.
  - split; [intros cy w H; destruct (Hv _ _ H)|intros c0 v H; destruct (Hs _ _ H)].
  - intros f c0 c0' cenv cbf E. discriminate.
  - intros x c0 E. discriminate.
  - intros x c0 c0' [].
Qed.

Section Program.
Variable path : str.

Lemma cblock0_eq : forall l st, cblock0 path l st = cblockT path 0 None l st.
Proof.
  induction l as [|s l IH]; intros st; [reflexivity|]. cbn [cblock0 cblockT].
  destruct (cstmt path 0 None s st) as [cs st1]. now rewrite IH.
Qed.

Definition module_code (p : source) : list instr := strip (bitems 0 0 None p) ++ [ret_mod].

Lemma cprogram_frag : forall p, ok_block [] None [] false [] p = true -> cprogram path p = [(s_module_fn path, module_code p)].
Proof.
  intros p H. unfold cprogram. rewrite cblock0_eq, (cblockT_ok path 0 p [] None [] false [] None _ H). reflexivity.
Qed.

Definition vm_outcome_ok (r : routcome) (o : outcome) : Prop :=
  match r, o with
  | RODone, Done => True
  | ROFail f, RuntimeErr e _ => err_rel_s f e
  | _, _ => False
  end.

(* the failures fail_post makes no claim about (both rejected by the type checker) *)
Definition no_claim (r : routcome) : Prop :=
  match r with ROFail f => f = FType 13%N \/ f = FType 3%N | _ => False end.

Lemma module_finish : forall P name code p fuel,
  assoc name P = Some code ->
  mod_end P name code (act0 name [] None) (push_frame g0 (LFun name))
          (exec_block fuel {| locals := [[]]; captured := []; cur := None |} p {| store := []; rout := [] |}) ->
  snd (run fuel p) <> ROFuel -> no_claim (snd (run fuel p)) \/
  exists fuel', fst (fst (execute fuel' P name)) = fst (run fuel p) /\
                vm_outcome_ok (snd (run fuel p)) (snd (fst (execute fuel' P name))).
Proof.
  intros P name code p fuel Ecode H Hnf. unfold run in *.
  destruct (exec_block fuel _ p _) as [sig env' s'|f s'|]; cbn [mod_end fst snd] in *; [| |congruence].
  - right. destruct sig as [| | |[v|]]; try contradiction; destruct H as (a' & g' & R & Hi & Hops & Hout & Hdrop).
    + destruct (run_fn_ret P name code [] None g0 a' g' ret_mod DRetMod (Some VModule) a' _ Ecode R Hi eq_refl
                  ltac:(cbn [exec_d]; rewrite Hops; reflexivity)) as [fuel' Hrun].
      exists fuel'. unfold execute. rewrite Hrun. cbn [with_frames frames out trc add_trace]. rewrite Hdrop. cbn [fst snd].
      split; [exact Hout|exact Logic.I].
    + destruct (run_fn_ret P name code [] None g0 a' g' (mkI OP_RET []) DRet (Some (inj v)) (set_ops a' []) _ Ecode R Hi eq_refl
                  ltac:(cbn [exec_d]; rewrite Hops; reflexivity)) as [fuel' Hrun].
      exists fuel'. unfold execute. rewrite Hrun. cbn [with_frames frames out trc add_trace]. rewrite Hdrop. cbn [fst snd].
      split; [exact Hout|exact Logic.I].
  - apply fail_post_inv in H. destruct H as [H|(e & g' & Hf & Hr & Ho)]; [left; exact H|right].
    destruct (run_fn_fail P name code [] None g0 e g' Ecode Hf) as [fuel' Hrun].
    exists fuel'. unfold execute. rewrite Hrun. cbn [fst snd]. split; [exact Ho|exact Hr].
Qed.

(* C01 on the fragment: the compiled module, run by the VM model, prints exactly the lines the reference semantics
   prints and ends the same way (done with an empty call stack / the related run-time error after the same
   output prefix) *)
Theorem module_correct : forall p, ok_block [] None [] false [] p = true -> small (2 * length (module_code p) + 8) ->
  forall fuel, snd (run fuel p) <> ROFuel -> no_claim (snd (run fuel p)) \/
  exists fuel', fst (fst (execute fuel' (cprogram path p) (s_module_fn path))) = fst (run fuel p) /\
                vm_outcome_ok (snd (run fuel p)) (snd (fst (execute fuel' (cprogram path p) (s_module_fn path)))).
Proof.
  intros p Hok Hsm fuel.
  set (name := s_module_fn path).
  set (P := cprogram path p).
  (* Section Base with no function and no captured variable: its hypotheses hold for want of instances *)
  pose proof (cblock_end [] [] [] [] (fun f => f) None ltac:(intros f []) ltac:(intros f []) ltac:(intros f; cbn; split; [intros []|congruence])
                None None name ltac:(intros ps E; discriminate) no_pins ltac:(intros f c0 c0' cenv cbf E; discriminate)
                ltac:(intros f c0 c0' cenv cbf ps body E; discriminate)
                [] ltac:(intros x c0 E; discriminate) [] ltac:(intros x cc [])
                (fun _ => []) [] ltac:(intros f p0 []) ltac:(intros p0 [])
                path p [] Hok 0 {| fid := 0; lreg := 0; fbuf := [] |} no_pins P name []
                (act0 name [] None) (push_frame g0 (LFun name)) (act0 name [] None) (push_frame g0 (LFun name))
                {| locals := [[]]; captured := []; cur := None |} {| store := []; rout := [] |} fuel) as H.
  cbv zeta in H. rewrite (cblockT_ok path 0 p [] None [] false [] None _ Hok) in H. cbn [fst app length Nat.add lreg] in H.
  fold (module_code p) in H.
  specialize (H eq_refl Hsm (le_n _) eq_refl eq_refl (Rst_init name no_pins (fun _ _ H => H) (fun _ _ H => H)) ltac:(split; [intros x _; cbn; split; [congruence|intros [[]|[]]]|intros x []])
                ltac:(intros fuel' _ f ps body c0 c0' cenv cbf E; discriminate)
                ltac:(intros fuel' _ ps body cenv E; discriminate) (xrun_refl _ _ _ _ _)).
  apply (module_finish P name (module_code p)); [|exact H].
  unfold P. rewrite (cprogram_frag p Hok). cbn [assoc]. fold name. now rewrite str_eqb_refl.
Qed.
End Program.
