(* C01 / C07 with first-class functions: every related closure does what call_clos does (call_sim_all: induction on the fuel
   of the reference semantics, which ClosSim assumes for less fuel), hence whole modules (closure_module_correct). *)
From Coq Require Import List Arith ZArith Lia Bool.
Import ListNotations.
From MS Require Import Base.Str Vm.Model Lang.Syntax Lang.Eval Compile.Compile Compile.ExprBase Compile.ExprSim.
From MS Require Import Verify.Sound Compile.StmtMach Compile.StmtRel Compile.StmtFrag Compile.StmtSim Compile.StmtFun.
From MS Require Import Compile.ClosFrag Compile.ClosRel Compile.ClosSim.
From MS Require Compile.CaptureSpec.
Open Scope nat_scope.

Section Last.
Variable path : str.
Variable SF : sfk.

Lemma tailc_snoc : forall l i, tailc (l ++ [i]) = if (op i =? OP_RET)%N then [] else [mkI OP_VOID []; mkI OP_RET []].
Proof. intros l i. unfold tailc. rewrite rev_app_distr. reflexivity. Qed.

Lemma sc_all_CI : forall st B CD r c lr sl k, kstmt SF false B CD st = Some r -> Forall is_CI (fst (sc path c lr sl k st)).
Proof.
  intros st B CD r c lr sl k H.
  exact (proj2 (proj2 (comp_both path) st SF false B CD r H c sl {| fid := k; lreg := lr; fbuf := [] |}) eq_refl).
Qed.
Lemma bc_all_CI : forall l B CD r c lr sl k, kblock SF false B CD l = Some r -> Forall is_CI (fst (bc path c lr sl k l)).
Proof.
  intros l B CD r c lr sl k H.
  exact (proj2 (comp_block path l ltac:(apply Forall_forall; intros st _; apply (proj2 (comp_both path))) SF false B CD r H c sl {| fid := k; lreg := lr; fbuf := [] |}) eq_refl).
Qed.

Lemma bc_app : forall c lr sl l1 l2 k, fst (bc path c lr sl k (l1 ++ l2)) =
  fst (bc path c lr sl k l1) ++ fst (bc path c lr sl (k + length (snd (bc path c lr sl k l1))) l2).
Proof.
  intros c lr sl. induction l1 as [|st l1 IH]; intros l2 k.
  - cbn [app bc fst snd length]. now rewrite Nat.add_0_r.
  - cbn [app bc]. destruct (sc path c lr sl k st) as [cs fs]. specialize (IH l2 (k + length fs)).
    destruct (bc path c lr sl (k + length fs) (l1 ++ l2)) as [cl fl]. destruct (bc path c lr sl (k + length fs) l1) as [cl1 fl1].
    cbn [fst snd] in *. rewrite IH, app_length, Nat.add_assoc, app_assoc. reflexivity.
Qed.

Lemma kblock_snoc : forall l il B CD st B' rets, kblock SF il B CD (l ++ [st]) = Some (B', rets) -> exists B1 B2 r2, kstmt SF il B1 CD st = Some (B2, r2).
Proof.
  induction l as [|x l IH]; intros il B CD st B' rets H; cbn [app kblock] in H.
  - destruct (kstmt SF il B CD st) as [[B1 r1]|] eqn:E; [|discriminate]. eauto.
  - destruct (kstmt SF il B CD x) as [[B1 r1]|]; [|discriminate]. destruct (kblock SF il B1 CD (l ++ [st])) as [[B3 r3]|] eqn:E; [|discriminate]. eauto.
Qed.

Lemma bc_ends_ret : forall body B CD B' rets c lr k, kblock SF false B CD body = Some (B', rets) ->
  tailc (strip (fst (bc path c lr None k body))) = [] -> endsret body = true.
Proof.
  intros body B CD B' rets c lr k Hk Ht.
  destruct (rev body) as [|st rl] eqn:E.
  - apply (f_equal (@rev stmt)) in E. rewrite rev_involutive in E. subst body. discriminate.
  - apply (f_equal (@rev stmt)) in E. rewrite rev_involutive in E. cbn [rev] in E. subst body.
    rewrite endsret_snoc. destruct (kblock_snoc _ _ _ _ _ _ _ Hk) as (B1 & B2 & r2 & Hst).
    rewrite bc_app in Ht.
    set (k' := k + length (snd (bc path c lr None k (rev rl)))) in *.
    assert (E1 : fst (bc path c lr None k' [st]) = fst (sc path c lr None k' st)).
    { cbn [bc]. destruct (sc path c lr None k' st) as [cs fs]. cbn [fst]. now rewrite app_nil_r. }
    rewrite E1 in Ht. destruct (sc_last path CD SF st false B1 B2 r2 c lr None k' Hst) as (pre & [i| |] & Es & Hl); try discriminate Hl.
    rewrite Es, app_assoc, strip_snoc in Ht. cbn [strip] in Ht. rewrite tailc_snoc in Ht.
    apply Hl. destruct (op i =? OP_RET)%N eqn:Eo; [now apply N.eqb_eq|discriminate].
Qed.
End Last.

Lemma last_ret_sig : forall l fuel env s env' s', last_ret l = true -> exec_block fuel env l s = SOk SigNormal env' s' -> False.
Proof.
  induction l as [|st l IH]; intros fuel env s env' s' Hl He; [discriminate Hl|].
  destruct fuel as [|fuel]; [discriminate He|]. rewrite exec_block_cons in He.
  destruct l as [|st2 l2].
  - cbn [last_ret] in Hl. destruct st as [| | | | | | | | | | | | |[e|]]; try discriminate Hl.
    destruct fuel as [|fuel]; [discriminate He|]. rewrite exec_SReturn in He.
    destruct (eval fuel env e s) as [v s1|s1|f s1|]; discriminate He.
  - destruct (Eval.exec fuel env st s) as [[| | |rv] e1 s1|f s1|]; try discriminate He.
    eapply IH; [exact Hl|exact He].
Qed.

Section Calls.
Variable path : str.
Variable prog : program.

Local Notation vrel := (ClosRel.vrel path prog).
Local Notation heap_ok := (ClosRel.heap_ok path prog).
Local Notation clos_ok := (ClosRel.clos_ok path prog).
Local Notation installed := (ClosRel.installed prog).

Lemma Cl_entry : forall b s g1 G cenv loc cbf selfv SF,
  heap_ok b s g1 -> out g1 = rout s -> frames_nd (frames g1) ->
  (forall x kx, In (x, kx) G -> uname0 x /\ exists c c', lookup_scopes x cenv = Some c /\ cbget cbf x = Some c' /\ b c c' kx) ->
  cur_ok path prog cbf loc SF b {| locals := [[]]; captured := cenv; cur := selfv |} ->
  Cl path prog allP cbf G (frames g1) loc SF b [] {| locals := [[]]; captured := cenv; cur := selfv |} s (push_frame g1 (LFun loc)).
Proof.
  intros b s g1 G cenv loc cbf selfv SF Hh Ho Hnd HG Hcur.
  constructor; cbn [locals captured cur push_frame with_frames frames out cells length skipn]; try assumption; try reflexivity.
  - cbn [Rfr2]. split; [|reflexivity]. intros x Hx. cbn. exact Logic.I.
  - intros x k E. discriminate.
  - intros x k E. apply HG. clear -E. induction G as [|[y ky] t IH]; [discriminate|]. cbn [assoc] in E.
    destruct (str_eqb y x) eqn:Exy; [apply str_eqb_eq in Exy; subst y; inversion E; now left|right; now apply IH].
  - cbn [NS]. split; [intros y _ _; reflexivity|exact Logic.I].
  - constructor; [constructor|exact Hnd].
Qed.

Section Params.
Variable name : str.
Variable code : list instr.
Variable cb : option (list (str * N)).
Variable CD : kctx.
Variable base : list frame.
Variable SF : sfk.
Local Notation ClA := (Cl path prog allP cb CD base name SF).

Lemma params_sim : forall ps pk vs ws k Bk acc b a g env s allws,
  code_at code (2 * k) (pcodeP k ps) -> a_ip a = 2 * k -> a_args a = allws -> a_ops a = [] ->
  (forall j w, nth_error ws j = Some w -> nth_error allws (k + j) = Some w) ->
  ClA b Bk env s g -> locals env = [acc] -> bound2 Bk env ->
  NoDup ps -> (forall x, In x ps -> ~ In x (map fst Bk)) -> forallb src_nameb ps = true ->
  vrels path prog b pk vs ws -> length ps = length pk -> small (k + length ps) -> 2 * (k + length ps) <= length code ->
  match bind_params ps vs s acc with
  | Some (sc, s') => exists a' g' env' b',
      smid prog name code b s a g b' s' a' g' /\ a_ip a' = 2 * (k + length ps) /\ a_ops a' = [] /\
      ClA b' (rev (combine ps pk) ++ Bk) env' s' g' /\
      locals env' = [sc] /\ captured env' = captured env /\ cur env' = cur env /\
      bound2 (rev (combine ps pk) ++ Bk) env'
  | None => False
  end.
Proof.
  induction ps as [|p ps IH]; intros pk vs ws k Bk acc b a g env s allws Hc Hip Hargs Hops Hnth HC El Hb Hnd Hfresh Hsrc Hvs Hlen Hsm Hend.
  - destruct pk; [|discriminate]. destruct vs; [|destruct ws; contradiction]. destruct ws; [|contradiction]. cbn [bind_params].
    exists a, g, env, b. cbn [length rev combine app] in *.
    split; [apply smid_refl|]. split; [lia|]. split; [exact Hops|]. split; [exact HC|]. split; [exact El|]. split; [reflexivity|].
    split; [reflexivity|exact Hb].
  - destruct pk as [|k1 pk]; [discriminate|]. destruct vs as [|v vs]; [destruct ws; contradiction|]. destruct ws as [|w ws]; [contradiction|].
    cbn [vrels] in Hvs. destruct Hvs as [Hv Hvs]. cbn [length] in *. cbn [bind_params].
    cbn [forallb] in Hsrc. apply andb_true_iff in Hsrc as [Hsp Hsrc].
    apply NoDup_cons_iff in Hnd as [Hpn Hnd'].
    cbn [pcodeP] in Hc. apply code_at_cons in Hc as [Hi1 Hc]. apply code_at_cons in Hc as [Hi2 Hc].
    pose proof (src_nameb_ok p Hsp) as Hpu.
    set (i1 := mkI OP_ARG [sN k]) in *.
    set (a1 := set_ip (set_ops a [w]) (S (a_ip a))).
    set (g1 := trc name a g i1).
    assert (R1 : xrun prog name code a g a1 g1).
    { eapply (xstep_next prog name code a g i1 _ (a_ip a) (set_ops a [w])); [reflexivity|rewrite Hip; exact Hi1| |].
      - apply dec_arg. eapply small_le; [|exact Hsm]. lia.
      - unfold exec_d. rewrite Hargs. replace k with (k + 0) at 1 by lia. rewrite (Hnth 0 w eq_refl). now rewrite Hops. }
    (* store p : the parameter is a fresh name of the function scope *)
    assert (Hpn0 : lookup_scopes p (locals env) = None).
    { destruct (lookup_scopes p (locals env)) eqn:E; [|reflexivity]. exfalso.
      apply (Hfresh p (or_introl eq_refl)). apply (bound2_in _ _ _ Hb (proj2 (proj2 Hpu))). congruence. }
    set (i2 := mkI OP_STORE [p]) in *.
    set (g1t := trc name a1 g1 i2).
    assert (HC1t : ClA b Bk env s g1t) by (eapply Cl_same; [exact HC|reflexivity|reflexivity|reflexivity]).
    destruct (frames g1t) as [|f fs] eqn:Ef; [exact (False_ind _ (proj2 (Rfr2_ne _ _ _ _ (cl_fr HC1t)) Ef))|].
    destruct (Cl_declare path prog allP cb CD base name SF b Bk env s g1t p k1 v w acc [] f fs HC1t Hpu Hv El Ef Hpn0 (trace g1t)) as [HC2 He2].
    cbv zeta in HC2, He2.
    match type of HC2 with Cl _ _ _ _ _ _ _ _ _ _ ?E ?S ?G => set (env1 := E) in *; set (s1 := S) in *; set (g2 := G) in * end.
    set (a2 := set_ip (set_ops a1 []) (S (a_ip a1))).
    assert (SM2 : smid prog name code b s a g (add_pair b (N.of_nat (length (store s))) (N.of_nat (length (cells g1t))) k1) s1 a2 g2).
    { constructor; [|exact (adv_alloc (s' := s1) (g' := g2) He2 eq_refl eq_refl)|cbn [g2 frames tl]; change (frames g) with (frames g1t); now rewrite Ef|
                    repeat split|apply le_n].
      eapply xrun_trans; [exact R1|].
      eapply (xstep_next prog name code a1 g1 i2 _ (a_ip a1) (set_ops a1 [])); [reflexivity| |apply dec_store|].
      - cbn [a1 set_ip a_ip]. rewrite Hip. exact Hi2.
      - apply (exec_store p a1 g1t w g2); [reflexivity|].
        assert (Hf : find_in_function p (frames g1t) = None).
        { pose proof (Rfr2_look _ _ _ _ (cl_fr HC1t) p Hpu) as Hl. rewrite Hpn0 in Hl.
          destruct (find_in_function p (frames g1t)); [exact (False_ind _ (Hl Logic.I))|reflexivity]. }
        unfold store_var. rewrite Hf. unfold bind_local. rewrite Ef. reflexivity. }
    assert (Hb1 : bound2 ((p, k1) :: Bk) env1) by (eapply (bound2_declare Bk env p k1 _ acc [] env1 Hb El); [reflexivity|exact Hpu]).
    assert (Eal : alloc s v = (s1, N.of_nat (length (store s)))) by reflexivity.
    rewrite Eal.
    pose proof (IH pk vs ws (S k) ((p, k1) :: Bk) (assoc_set p (N.of_nat (length (store s))) acc)
                    (add_pair b (N.of_nat (length (store s))) (N.of_nat (length (cells g1t))) k1) a2 g2 env1 s1 allws) as IH'.
    specialize (IH' ltac:(replace (2 * S k) with (S (S (2 * k))) by lia; exact Hc)
                    ltac:(cbn [a2 a1 set_ip a_ip]; lia) Hargs eq_refl
                    ltac:(intros j w0 Hj; replace (S k + j) with (k + S j) by lia; exact (Hnth (S j) w0 Hj))
                    HC2 eq_refl Hb1 Hnd'
                    ltac:(intros x Hx [<-|Hin]; [exact (Hpn Hx)|exact (Hfresh x (or_intror Hx) Hin)])
                    Hsrc ltac:(eapply vrels_mono; [exact (proj1 He2)|exact Hvs]) ltac:(lia)
                    ltac:(eapply small_le; [|exact Hsm]; lia) ltac:(lia)).
    destruct (bind_params ps vs s1 (assoc_set p (N.of_nat (length (store s))) acc)) as [[sc s']|]; [|exact IH'].
    destruct IH' as (a' & g' & env' & b' & SM' & Hip' & Hops' & HC' & El' & Ec' & Eu' & Hb').
    exists a', g', env', b'. split; [eapply smid_trans; [exact SM2|exact SM']|]. split; [rewrite Hip'; lia|]. split; [exact Hops'|].
    split; [cbn [combine rev]; rewrite <- app_assoc; exact HC'|]. split; [exact El'|]. split; [exact Ec'|]. split; [exact Eu'|].
    cbn [combine rev]. rewrite <- app_assoc. exact Hb'.
Qed.
End Params.

Lemma tailc_cases : forall cb, tailc cb = [mkI OP_VOID []; mkI OP_RET []] \/ tailc cb = [].
Proof. intros cb. unfold tailc. destruct (rev cb) as [|i r]; [now left|]. destruct (op i =? OP_RET)%N; [now right|now left]. Qed.

Theorem call_sim_all : forall fuel, call_sim path prog fuel.
Proof.
  induction fuel as [fuel IH] using lt_wf_ind.
  intros b s g1 pk r ps body cenv loc cbf vs ws Hh Ho Hnd Hclos Hvs.
  pose proof Hclos as Hclos0.
  destruct Hclos as (G & d & lr & k & Hkf & Eloc & Hinst & HG).
  destruct Hkf as (Epk & Hndp & Hsrc & EG & Htot & B' & rets & Hkb & Hrets).
  rewrite ec_EFn in Hinst. cbv zeta in Hinst. cbn [snd] in Hinst. apply (installed_app prog) in Hinst as [Hinb Hinf].
  set (fcd := fcode path d lr k ps body) in *.
  destruct (Hinf loc (S d + lr) fcd ltac:(left; rewrite Eloc; reflexivity)) as [Hcode Hsm0].
  assert (Hsm : small (S d + 2 * length fcd + 8)) by (eapply small_le; [|exact Hsm0]; lia).
  destruct (vrels_length path prog _ _ _ _ Hvs) as [Hlv Hlw].
  assert (Hlp : length ps = length pk) by (rewrite Epk, map_length; reflexivity).
  unfold call_clos_.
  set (fv := RClos ps body cenv) in *.
  set (its := fst (bc path (S d) lr None k body)) in *.
  assert (Hits : Forall is_CI its) by (exact (bc_all_CI path _ body _ G _ (S d) lr None k Hkb)).
  set (cb0 := strip its) in *.
  assert (Efc : fcd = pcodeP 0 ps ++ cb0 ++ tailc cb0) by reflexivity.
  assert (Hlenc : length fcd = 2 * length ps + length cb0 + length (tailc cb0)).
  { rewrite Efc, !app_length, pcodeP_length. lia. }
  set (env0 := {| locals := [[]]; captured := cenv; cur := Some fv |}).
  set (a0 := act0 loc ws cbf). set (gP := push_frame g1 (LFun loc)).
  pose proof (Cl_entry b s g1 G cenv loc cbf (Some fv) (Some (pk, r)) Hh Ho Hnd HG
                ltac:(exists ps, body, cenv; split; [reflexivity|exact Hclos0])) as HC0. fold env0 gP in HC0.
  assert (Hsm1 : small (1 + 2 * length fcd + 8)) by (eapply small_le; [|exact Hsm]; lia).
  pose proof (params_sim loc fcd cbf G (frames g1) (Some (pk, r)) ps pk vs ws 0 [] [] b a0 gP env0 s ws
                ltac:(intros j i Hj; rewrite Efc; cbn [Nat.mul Nat.add]; rewrite nth_error_app1; [exact Hj|apply nth_error_Some; congruence])
                eq_refl eq_refl eq_refl ltac:(intros j w Hj; exact Hj) HC0 eq_refl
                ltac:(split; [intros x _; cbn [env0 locals lookup_scopes assoc map In]; split; [congruence|intros []]|intros x []])
                Hndp ltac:(intros x _ []) Hsrc Hvs Hlp
                ltac:(eapply small_le; [|exact Hsm]; rewrite Hlenc; lia) ltac:(rewrite Hlenc; lia)) as Hprm.
  destruct (bind_params ps vs s []) as [[sc s1]|]; [|contradiction].
  destruct Hprm as (a1 & gq & env1 & b1 & SM1 & Hip1 & Hops1 & HC1 & El1 & Ec1 & Eu1 & Hb1).
  rewrite app_nil_r in HC1, Hb1. cbn [Nat.add] in Hip1.
  assert (Eenv : env1 = {| locals := [sc]; captured := cenv; cur := Some fv |}) by (rewrite (fenv_eta env1), El1, Ec1, Eu1; reflexivity).
  subst env1.
  pose proof (smid_run SM1) as R1. pose proof (smid_adv SM1) as V1.
  pose proof (bspec_all path prog loc fcd cbf G (frames g1) (Some (pk, r)) (S d) Hsm fuel IH allP (fun _ _ => Logic.I) (fun _ => Logic.I) body b1 (rev (combine ps pk)) lr false None 0 0 k fuel (2 * length ps)
                a1 gq {| locals := [sc]; captured := cenv; cur := Some fv |} s1 B' rets (le_n _) Hkb Hb1 Hinb) as H.
  fold its in H.
  assert (Hlits : length its = length cb0) by (unfold cb0; rewrite <- (CI_strip its Hits) at 1; apply map_length).
  rewrite Hlits in H.
  specialize (H ltac:(apply items_at_strip; [exact Hits|]; fold cb0; rewrite Efc, <- (pcodeP_length ps 0); apply code_at_embed)
                ltac:(destruct (tailc_cases cb0) as [Et|Et]; [left; rewrite Hlenc, Et; cbn [length]; lia|
                      right; split; [exact (bc_ends_ret path _ body _ G B' rets (S d) lr k Hkb Et)|rewrite Hlenc, Et; cbn [length]; lia]])
                ltac:(split; [discriminate|intros m Hm; discriminate Hm])
                ltac:(unfold lrok; eapply small_le; [|exact Hsm0]; lia)
                Hip1 (smid_cb SM1 eq_refl) Hops1 ltac:(cbn [locals length]; lia) HC1).
  assert (Hfin : forall b' s' gf, adv b s g1 b' s' gf -> heap_ok b' s' gf -> frames gf = frames g1 -> out gf = rout s' ->
            bext b b' s g1 /\ heap_ok b' s' gf /\ frames gf = frames g1 /\ out gf = rout s' /\ keep b g1 gf /\ lens s s' g1 gf).
  { intros b' s' gf (E & K & L) Hh' F O. auto 8. }
  assert (Hret : forall rets' ov s', retpost path prog loc fcd (frames g1) b1 rets' s1 a1 gq ov s' ->
            exists fuel' gf b' rv, run_fn fuel' prog loc ws cbf g1 = RDone rv gf /\ frames gf = frames g1 /\ adv b s g1 b' s' gf /\
              heap_ok b' s' gf /\ out gf = rout s' /\
              match ov with Some v => exists w k, rv = Some w /\ vrel b' k v w /\ In k rets' | None => rv = None /\ In KN rets' end).
  { intros rets' ov s' Hr. exact (retpost_fn Hcode (retpost_seq R1 V1 (fun _ Hk0 => Hk0) Hr)). }
  destruct (exec_block fuel {| locals := [sc]; captured := cenv; cur := Some fv |} body s1) as [sig env2 s2|fl s2|] eqn:Eex; [| |exact Logic.I].
  2:{ eapply fail_post_map; [|exact H]. intros (e & g' & Hf & Hr & Hof).
      destruct (run_fn_fail prog loc fcd ws cbf g1 e g' Hcode ltac:(eapply xrun_fail; [exact R1|exact Hf])) as [fuel' Hrun].
      exists fuel', e, g'. auto. }
  cbn [spost] in H. destruct H as [Hd2 H].
  destruct sig as [| | |[v|]].
  2:{ destruct H as (m & _ & _ & _ & Hsl & _). discriminate Hsl. }
  2:{ destruct H as (m & _ & _ & _ & Hsl & _). discriminate Hsl. }
  -
    destruct H as (_ & a2 & g2 & b2 & SM2 & Hip2 & Hops2 & HC2 & _).
    split; [destruct Htot as [Ht|Ht]; [exact Ht|exfalso; exact (last_ret_sig _ _ _ _ _ _ Ht Eex)]|].
    pose proof (smid_run SM2) as R2.
    destruct (tailc_cases cb0) as [Et|Et].
    +
      assert (Hc2 : code_at fcd (a_ip a2) [mkI OP_VOID []; mkI OP_RET []]).
      { rewrite Hip2, Efc, Et, app_assoc, <- (pcodeP_length ps 0), <- app_length. apply code_at_tail. }
      apply code_at_cons in Hc2 as [Hi1 Hc2]. apply code_at_cons in Hc2 as [Hi2 _].
      set (g3 := trc loc a2 g2 (mkI OP_VOID [])). set (a3 := set_ip (set_ops a2 []) (S (a_ip a2))).
      assert (R3 : xrun prog loc fcd a2 g2 a3 g3).
      { eapply (xstep_next prog loc fcd a2 g2 _ _ (a_ip a2) (set_ops a2 [])); [reflexivity|exact Hi1|apply dec_void|apply exec_void]. }
      destruct (Hret [KN] None s2) as (fuel' & gf & b' & rv & Hrun & F & V & Hh' & O & -> & _).
      { apply (retpost_seq (xrun_trans _ _ _ _ _ _ _ _ _ R2 R3) (adv_cells gq g3 (smid_adv SM2) eq_refl eq_refl) (fun _ Hk0 => Hk0)).
        exact (retpost_here (rets := [KN]) (a := a3) (ov := None) (Cl_trc HC2) Hi2 (conj eq_refl (or_introl eq_refl))). }
      exists fuel', gf, b'. split; [exact Hrun|]. exact (Hfin b' s2 gf V Hh' F O).
    + (* the code ends here: the interpreter pops the function frame *)
      pose proof (same_tl_length {| locals := [sc]; captured := cenv; cur := Some fv |} env2 ltac:(cbn [locals]; discriminate) Hd2) as Hl2.
      cbn [locals length] in Hl2.
      pose proof (cl_base HC2) as Hbase. rewrite Hl2 in Hbase.
      destruct (Cl_frames HC2) as (f2 & fs2 & Ef2). rewrite Ef2 in Hbase. cbn [skipn] in Hbase. subst fs2.
      destruct (run_fn_falloff prog loc fcd ws cbf g1 a2 g2 (with_frames g2 (frames g1)) Hcode (xrun_trans _ _ _ _ _ _ _ _ _ R1 R2)) as [fuel' Hrun].
      { rewrite Hip2, Efc, Et, app_nil_r. apply nth_error_None. rewrite app_length, pcodeP_length. lia. }
      { unfold pop_frame. rewrite Ef2. reflexivity. }
      exists fuel', (with_frames g2 (frames g1)), b2. split; [exact Hrun|].
      apply Hfin; [|exact (heap_ok_same path prog _ _ _ _ _ (cl_heap HC2) eq_refl eq_refl)|reflexivity|exact (cl_out HC2)].
      exact (adv_trans (adv_cells g1 gq V1 eq_refl eq_refl) (adv_cells gq _ (smid_adv SM2) eq_refl eq_refl)).
  - destruct (Hret rets (Some v) s2 H) as (fuel' & gf & b' & rv & Hrun & F & V & Hh' & O & w & k1 & -> & Hv2 & Hk2).
    exists fuel', gf, b', w. split; [exact Hrun|]. destruct (Hfin b' s2 gf V Hh' F O) as (X1 & X2 & X3).
    split; [exact X1|]. split; [exact X2|]. split; [destruct (Hrets k1 Hk2) as [<-|[-> ->]]; exact Hv2|exact X3].
  - destruct (Hret rets None s2 H) as (fuel' & gf & b' & rv & Hrun & F & V & Hh' & O & -> & Hk2).
    split; [destruct (Hrets KN Hk2) as [<-|[-> _]]; reflexivity|].
    exists fuel', gf, b'. split; [exact Hrun|]. exact (Hfin b' s2 gf V Hh' F O).
Qed.
End Calls.

Definition instr_eq_dec : forall a b : instr, {a = b} + {a <> b}.
Proof. decide equality; [apply (list_eq_dec (list_eq_dec N.eq_dec))|apply N.eq_dec]. Defined.
Definition code_eqb (a b : list instr) : bool := if list_eq_dec instr_eq_dec a b then true else false.
Lemma code_eqb_eq : forall a b, code_eqb a b = true -> a = b.
Proof. intros a b H. unfold code_eqb in H. destruct (list_eq_dec instr_eq_dec a b); [assumption|discriminate]. Qed.
Definition smallb2 (n : nat) : bool := (Z.of_nat n <? 10 ^ 50)%Z.
Lemma smallb2_sound : forall n, smallb2 n = true -> small n.
Proof. intros n H. unfold smallb2 in H. unfold small. now apply Z.ltb_lt. Qed.

Definition installedb (prog : program) (fb : fbl) : bool :=
  forallb (fun x => match assoc (fst (fst x)) prog with Some c => code_eqb c (snd x) | None => false end &&
                    smallb2 (snd (fst x) + 2 * length (snd x) + 8)) fb.
Lemma installedb_sound : forall prog fb, installedb prog fb = true -> installed prog fb.
Proof.
  intros prog fb H n cc code Hin. unfold installedb in H. rewrite forallb_forall in H. specialize (H _ Hin). cbn [fst snd] in H.
  apply andb_true_iff in H as [H1 H2]. destruct (assoc n prog) as [c|]; [|discriminate]. apply code_eqb_eq in H1. subst c.
  split; [reflexivity|now apply smallb2_sound].
Qed.

(* the decidable fragment with first-class functions: the module is well-kinded, and the code generator's output is what
   ec / sc / bc say (checked on the program itself; Compile/ClosFrag.v comp_both shows it always is) *)
Definition in_fragment2 (path : str) (p : source) : bool :=
  match kblock None false [] [] p with
  | Some _ =>
    let prog := cprogram path p in
    let mc := strip (fst (bc path 0 0 None 0 p)) ++ [ret_mod] in
    installedb prog (snd (bc path 0 0 None 0 p)) &&
    match assoc (s_module_fn path) prog with Some c => code_eqb c mc | None => false end &&
    smallb2 (0 + 2 * length mc + 8)
  | None => false
  end.

(* C01 on the fragment in_fragment2 (C07, C12, C15 are stated on it): the code the model of the compiler gives for the module, run by
   the VM model, prints what the reference semantics prints and ends the same way *)
Theorem closure_module_correct : forall path p, in_fragment2 path p = true ->
  forall fuel, snd (run fuel p) <> ROFuel -> no_claim (snd (run fuel p)) \/
  exists fuel', fst (fst (execute fuel' (cprogram path p) (s_module_fn path))) = fst (run fuel p) /\
                vm_outcome_ok (snd (run fuel p)) (snd (fst (execute fuel' (cprogram path p) (s_module_fn path)))).
Proof.
  intros path p Hin fuel Hnf. unfold in_fragment2 in Hin.
  destruct (kblock None false [] [] p) as [[B' rets]|] eqn:Hk; [|discriminate].
  set (P := cprogram path p) in *. set (name := s_module_fn path) in *.
  set (its := fst (bc path 0 0 None 0 p)) in *.
  assert (Hits : Forall is_CI its) by (exact (bc_all_CI path None p [] [] _ 0 0 None 0 Hk)).
  set (cbm := strip its) in *. set (mc := cbm ++ [ret_mod]) in *.
  cbv zeta in Hin. rewrite !andb_true_iff in Hin. destruct Hin as [[Hinst Hcode] Hsm].
  apply installedb_sound in Hinst. apply smallb2_sound in Hsm.
  destruct (assoc name P) as [c|] eqn:Ecode; [|discriminate]. apply code_eqb_eq in Hcode. subst c.
  set (b0 := (fun _ _ _ => False) : cinj).
  set (env0 := {| locals := [[]]; captured := []; cur := None |}).
  set (s0 := {| store := []; rout := [] |}).
  set (a0 := act0 name [] None). set (gP := push_frame g0 (LFun name)).
  assert (Hh0 : heap_ok path P b0 s0 g0) by (split; [intros c c' k []|intros c1 c1' k1 c2 c2' k2 []]).
  pose proof (Cl_entry path P b0 s0 g0 [] [] name None None None Hh0 eq_refl ltac:(constructor) ltac:(intros x kx []) Logic.I) as HC0.
  fold env0 gP in HC0.
  assert (Hlits : length its = length cbm) by (unfold cbm; rewrite <- (CI_strip its Hits) at 1; apply map_length).
  pose proof (bspec_all path P name mc None [] [] None 0 Hsm fuel (fun f _ => call_sim_all path P f) allP (fun _ _ => Logic.I) (fun _ => Logic.I) p b0 [] 0 false None 0 0 0 fuel 0 a0 gP env0 s0 B' rets
                (le_n _) Hk ltac:(split; [intros x _; cbn [env0 locals lookup_scopes assoc map In]; split; [congruence|intros []]|intros x []]) Hinst) as H.
  fold its in H. rewrite Hlits in H.
  specialize (H ltac:(apply items_at_strip; [exact Hits|]; exact (code_at_embed [] cbm [ret_mod]))
                ltac:(left; unfold mc; rewrite app_length; cbn [length]; lia)
                ltac:(split; [discriminate|intros m Hm; discriminate Hm])
                ltac:(unfold lrok; eapply small_le; [|exact Hsm]; lia)
                eq_refl eq_refl eq_refl ltac:(cbn [env0 locals length]; lia) HC0).
  cbn [Nat.add] in H.
  unfold run in *. fold env0 s0 in Hnf |- *.
  destruct (exec_block fuel env0 p s0) as [sig env' s'|f s'|]; [| |cbn [snd] in Hnf; congruence].
  - cbn [spost] in H. destruct H as [Hd H]. right.
    assert (Hdone : forall fuel' rv gf, run_fn fuel' P name [] None g0 = RDone rv gf -> frames gf = [] -> out gf = rout s' ->
              exists fuel', fst (fst (execute fuel' P name)) = fst (rout s', RODone) /\ vm_outcome_ok (snd (rout s', RODone)) (snd (fst (execute fuel' P name)))).
    { intros fuel' rv gf Hrun F O. exists fuel'. unfold execute. rewrite Hrun, F. cbn [fst snd]. split; [exact O|exact Logic.I]. }
    destruct sig as [| | |ov].
    2:{ destruct H as (m & _ & _ & _ & Hsl & _). discriminate Hsl. }
    2:{ destruct H as (m & _ & _ & _ & Hsl & _). discriminate Hsl. }
    +
      destruct H as (_ & a' & g' & b' & SM & Hip & Hops & HC & _).
      pose proof (same_tl_length env0 env' ltac:(cbn [env0 locals]; discriminate) Hd) as Hl. cbn [env0 locals length] in Hl.
      pose proof (Rfr2_drop _ _ _ _ (cl_fr HC)) as Hdrop. rewrite Hl in Hdrop.
      pose proof (cl_base HC) as Hbase. rewrite Hl in Hbase. rewrite Hbase in Hdrop.
      destruct (run_fn_ret P name mc [] None g0 a' g' ret_mod DRetMod (Some VModule) a' _ Ecode (smid_run SM)
                  ltac:(rewrite Hip; unfold mc; rewrite nth_error_app2 by lia; rewrite Nat.sub_diag; reflexivity) eq_refl
                  ltac:(cbn [exec_d]; rewrite Hops; reflexivity)) as [fuel' Hrun].
      exact (Hdone fuel' _ _ Hrun Hdrop (cl_out HC)).
    +
      destruct (retpost_fn Ecode H) as (fuel' & gf & b' & rv & Hrun & F & _ & _ & O & _).
      exact (Hdone fuel' rv gf Hrun F O).
  - cbn [spost] in H. apply fail_post_inv in H. destruct H as [[->| ->]|H]; [left; left; reflexivity|left; right; reflexivity|right].
    destruct H as (e & g' & Hn & Hr & Ho).
    destruct (run_fn_fail P name mc [] None g0 e g' Ecode Hn) as [fuel' Hrun].
    exists fuel'. unfold execute. fold P name. rewrite Hrun. cbn [fst snd]. split; [exact Ho|exact Hr].
Qed.
