(* A DECIDABLE membership test for the fragment on which C01 is proved, and the theorem in the form the check uses:

     in_fragment p = true  ->  the model compiler's code for p, run on the VM model, prints what the reference
                               semantics prescribes and ends the same way.

   The check evaluates `in_fragment` (extracted) on every program it generates; for a program inside the fragment
   whose REAL bytecode equals the model compiler's (tie T1) the simulation theorem speaks about the code the real
   compiler emitted. *)
From Coq Require Import List Arith ZArith Lia Bool.
Import ListNotations.
From MS Require Import Base.Str Vm.Model Lang.Syntax Lang.Eval Compile.Compile Compile.ExprBase.
From MS Require Import Compile.StmtMach Compile.StmtRel Compile.StmtFrag Compile.StmtSim Compile.StmtFun Compile.StmtMod.
From MS Require Import Compile.ClosFrag Compile.ClosTop.

(* nodupb and smallb are the tests of the second fragment (ClosFrag.nodupb, ClosTop.smallb2) under the names
   the extracted checker uses *)
Fixpoint nodupb (l : list str) : bool :=
  match l with [] => true | x :: t => negb (mem_str x t) && nodupb t end.
Lemma nodupb_sound : forall l, nodupb l = true -> NoDup l.
Proof. exact nodupb_sound2. Qed.

Definition smallb (n : nat) : bool := (Z.of_nat n <? 10 ^ 50)%Z.
Lemma smallb_sound : forall n, smallb n = true -> small n.
Proof. exact smallb2_sound. Qed.

Lemma not_mem_str : forall x l, negb (mem_str x l) = true -> ~ In x l.
Proof. intros x l H Hin. now rewrite (In_mem_str x l Hin) in H. Qed.

(* B = the data variables of the module bound so far: a function may capture them (read by reference) *)
Definition fn_okb (pre : ftab) (B : list str) (d : fdef) : bool :=
  let '(f, (ps, body)) := d in
  let caps := free_vars ps body in
  src_nameb f && nodupb ps && forallb src_nameb ps &&
  forallb (fun n => mem_str n (fnames pre) || mem_str n B) caps &&
  forallb (fun x => negb (mem_str x (fnames (vis caps pre)))) ps &&
  ok_block (vis caps pre) (Some ps) (dcaps pre caps) false (rev ps) body &&
  smallb (1 + 2 * length (fcode_of ps body) + 8).

Lemma fn_okb_sound : forall pre B d, fn_okb pre B d = true -> fn_ok pre B d.
Proof.
  intros pre B [f [ps body]] H. unfold fn_okb in H. rewrite !andb_true_iff in H.
  destruct H as [[[[[[H1 H2] H3] H4] H5] H6] H7]. repeat split; try assumption.
  - now apply nodupb_sound.
  - intros x Hx. apply not_mem_str. rewrite forallb_forall in H5. exact (H5 x Hx).
  - now apply smallb_sound.
Qed.

Fixpoint fns_okb (pre FT : ftab) : bool :=
  match FT with [] => true | d :: t => fn_okb pre [] d && fns_okb (pre ++ [d]) t end.

Lemma fns_okb_sound : forall FT pre, fns_okb pre FT = true -> fns_ok pre FT.
Proof.
  induction FT as [|d t IH]; intros pre H; [exact Logic.I|]. cbn in H. apply andb_true_iff in H as [Hd Ht].
  split; [now apply fn_okb_sound | now apply IH].
Qed.

(* mirrors StmtMod.mod_ok *)
Fixpoint mod_okb (FT : ftab) (B : list str) (its : list mitem) : bool :=
  match its with
  | [] => true
  | MDef d :: t => fn_okb FT B d && negb (mem_str (fst d) (fnames FT)) && negb (mem_str (fst d) B) && mod_okb (FT ++ [d]) B t
  | MStmt st :: t => ok_stmt FT None [] false B st && mod_okb FT (after B st) t
  end.

Lemma mod_okb_sound : forall its FT B, mod_okb FT B its = true -> mod_ok FT B its.
Proof.
  induction its as [|[d|st] t IH]; intros FT B H; [exact Logic.I| |]; cbn [mod_okb mod_ok] in *.
  - rewrite !andb_true_iff in H. destruct H as [[[H1 H2] H3] H4].
    split; [now apply fn_okb_sound|]. split; [now apply not_mem_str|]. split; [now apply not_mem_str|now apply IH].
  - apply andb_true_iff in H as [H1 H2]. split; [exact H1|now apply IH].
Qed.

(* two proved fragments: (1) statements of every kind, functions defined at the top level that capture functions and read
   data variables (Compile/StmtMod.v); (2) first-class function values: literals anywhere, closures by reference with
   `modify`, functions returned / stored / passed and called through variables (Compile/ClosTop.v) *)
Definition in_fragment1 (path : str) (p : source) : bool :=
  let its := classify p in
  mod_okb [] [] its && smallb (2 * length (tmodule_code path its) + 8).
Definition in_fragment (path : str) (p : source) : bool := in_fragment1 path p || in_fragment2 path p.

Theorem in_fragment_sound : forall path p, in_fragment1 path p = true ->
  mod_ok [] [] (classify p) /\ small (2 * length (tmodule_code path (classify p)) + 8).
Proof.
  intros path p H. unfold in_fragment1 in H. apply andb_true_iff in H as [H1 H2].
  split; [now apply mod_okb_sound|now apply smallb_sound].
Qed.

(* C01 on every program the decidable test accepts *)
Theorem fragment_correct : forall path p, in_fragment path p = true ->
  forall fuel, snd (run fuel p) <> ROFuel ->
  no_claim (snd (run fuel p)) \/
  exists fuel', fst (fst (execute fuel' (cprogram path p) (s_module_fn path))) = fst (run fuel p) /\
                vm_outcome_ok (snd (run fuel p)) (snd (fst (execute fuel' (cprogram path p) (s_module_fn path)))).
Proof.
  intros path p H fuel Hf. unfold in_fragment in H. apply orb_true_iff in H as [H|H].
  - destruct (in_fragment_sound path p H) as (Hok & Hsm). exact (module_top_correct path p Hok Hsm fuel Hf).
  - exact (closure_module_correct path p H fuel Hf).
Qed.
