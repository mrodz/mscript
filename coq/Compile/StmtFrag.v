(* C01, statement level -- part 3: the statement fragment (no function literals, no from loops; calls of the
   module-level functions of a table FT and of the executing function).
     ok_stmt FT SP CD il B s   s is in the fragment, well scoped w.r.t. the set B of names certainly bound
                               (il = inside a loop: break / continue allowed)
     sitems c lr sl s          the code generator restricted to the fragment, as a plain function (no compiler state)
     cstmt_frag                cstmt = sitems on the fragment, compiler state untouched *)
From MS Require Import Lang.Eval.
From MS Require Import Vm.Model Lang.Syntax Compile.Compile Compile.ExprBase Compile.ExprSim Compile.StmtRel.
From Coq Require Import Lia.
Open Scope nat_scope.

Definition after (B : list str) (s : stmt) : list str := match s with SAssign x _ => x :: B | _ => B end.
Definition src_nameb (x : str) : bool :=
  match x with 35%N :: _ => false | 76%N :: 35%N :: _ => false | [0%N] => false | _ => true end.
Definition ok_expr (B : list str) (e : expr) : bool :=
  pure e && lits_ok e && forallb (fun x => src_nameb x && mem_str x B) (used_e e).
Definition arith5 (o : binop) : bool := match o with BAdd | BSub | BMul | BDiv | BMod => true | _ => false end.
Definition step_ok (B : list str) (st : option expr) : bool :=
  match st with None => true | Some e => ok_expr B e end.

(* the table of the module-level functions visible in the current activation: name -> (parameters, body) *)
Definition ftab := list (str * (list str * list stmt)).
Definition fnames (FT : ftab) : list str := map fst FT.

Section OkStmt.
Variable FT : ftab.
Variable SP : option (list str).   (* the parameters of the executing function (None at module level): `self(args)` *)
Variable CD : list str.            (* the DATA variables the executing function captures (read by reference) *)
(* expressions with calls: call-free expressions, the operators + - * / % comparisons && || ! unary-minus over
   such expressions, and calls of a known function / of the executing function with the right number of
   arguments, which are again such expressions (calls nested at any depth) *)
Definition is_call (e : expr) : bool := match e with ECall _ _ | ESelf _ => true | _ => false end.
Fixpoint ok_cexpr (B : list str) (e : expr) {struct e} : bool :=
  let fix oks (l : list expr) : bool := match l with [] => true | a :: l => ok_cexpr B a && oks l end in
  ok_expr B e ||
  match e with
  | EBin _ a b => ok_cexpr B a && ok_cexpr B b
  | EAnd a b | EOr a b => negb (is_call a) && negb (is_call b) && ok_cexpr B a && ok_cexpr B b
  | ENot a | ENeg a => negb (is_call a) && ok_cexpr B a
  | ECall (EVar f) args =>
    match assoc f FT with
    | Some (ps, _) => Nat.eqb (length args) (length ps) && oks args
    | None => false end
  | ESelf args =>
    match SP with
    | Some ps => Nat.eqb (length args) (length ps) && oks args
    | None => false end
  | _ => false
  end.
Fixpoint ok_cexprs (B : list str) (l : list expr) : bool :=
  match l with [] => true | a :: l => ok_cexpr B a && ok_cexprs B l end.
Definition ok_rhs (B : list str) (e : expr) : bool := ok_cexpr B e.
Lemma ok_cexpr_eq : forall B e, ok_cexpr B e =
  ok_expr B e ||
  match e with
  | EBin _ a b => ok_cexpr B a && ok_cexpr B b
  | EAnd a b | EOr a b => negb (is_call a) && negb (is_call b) && ok_cexpr B a && ok_cexpr B b
  | ENot a | ENeg a => negb (is_call a) && ok_cexpr B a
  | ECall (EVar f) args =>
    match assoc f FT with
    | Some (ps, _) => Nat.eqb (length args) (length ps) && ok_cexprs B args
    | None => false end
  | ESelf args =>
    match SP with
    | Some ps => Nat.eqb (length args) (length ps) && ok_cexprs B args
    | None => false end
  | _ => false
  end.
Proof.
  intros B e.
  assert (Hl : forall l, (fix oks (l : list expr) : bool := match l with [] => true | a :: l => ok_cexpr B a && oks l end) l = ok_cexprs B l).
  { induction l as [|a l IH]; [reflexivity|]. cbn [ok_cexprs]. now rewrite <- IH. }
  destruct e; try reflexivity.
  - destruct e; try reflexivity. cbn [ok_cexpr]. destruct (assoc x FT) as [[ps0 b0]|]; [|reflexivity]. now rewrite Hl.
  - cbn [ok_cexpr]. destruct SP; [|reflexivity]. now rewrite Hl.
Qed.
(* what ok_cexpr says of an expression that is not call-free *)
Definition ok_parts (B : list str) (e : expr) : Prop :=
  match e with
  | EBin _ a b => ok_cexpr B a = true /\ ok_cexpr B b = true
  | EAnd a b | EOr a b => is_call a = false /\ is_call b = false /\ ok_cexpr B a = true /\ ok_cexpr B b = true
  | ENot a | ENeg a => is_call a = false /\ ok_cexpr B a = true
  | ECall (EVar f) args => exists ps body, assoc f FT = Some (ps, body) /\ length args = length ps /\ ok_cexprs B args = true
  | ESelf args => exists ps, SP = Some ps /\ length args = length ps /\ ok_cexprs B args = true
  | _ => False
  end.
Lemma ok_cexpr_inv : forall B e, ok_cexpr B e = true -> ok_expr B e = true \/ ok_parts B e.
Proof.
  intros B e H. rewrite ok_cexpr_eq in H. apply Bool.orb_true_iff in H as [H|H]; [left; exact H|right].
  destruct e; try discriminate H; cbn [ok_parts]; rewrite ?Bool.andb_true_iff, ?Bool.negb_true_iff in H.
  - exact H.
  - tauto.
  - tauto.
  - exact H.
  - exact H.
  - destruct e; try discriminate H. destruct (assoc x FT) as [[ps body]|]; [|discriminate H].
    apply Bool.andb_true_iff in H as [Hl Ha]. exists ps, body. split; [reflexivity|]. split; [now apply Nat.eqb_eq|exact Ha].
  - revert H. case SP; [intros ps H|discriminate]. apply Bool.andb_true_iff in H as [Hl Ha]. exists ps. split; [reflexivity|]. split; [now apply Nat.eqb_eq|exact Ha].
Qed.
Lemma ok_expr_rhs : forall B e, ok_expr B e = true -> ok_rhs B e = true.
Proof. intros B e H. unfold ok_rhs. rewrite ok_cexpr_eq, H. reflexivity. Qed.
(* a test for the upper bound of a from loop (call-free under a named counter); ok_stmt does not use it: from loops
   are outside this fragment *)
Definition ok_fromb (nm : option str) (B : list str) (b : expr) : bool :=
  match nm with None => ok_rhs B b | Some _ => ok_expr B b end.
Lemma ok_fromb_rhs : forall nm B b, ok_fromb nm B b = true -> ok_rhs B b = true.
Proof. intros [x|] B b H; [now apply ok_expr_rhs|exact H]. Qed.
Fixpoint ok_stmt (il : bool) (B : list str) (s : stmt) {struct s} : bool :=
  let fix okb (il : bool) (B : list str) (l : list stmt) {struct l} : bool :=
    match l with [] => true | s :: l => ok_stmt il B s && okb il (after B s) l end in
  match s with
  | SAssign x e =>     (* a new local may not shadow a captured data variable *)
    src_nameb x && negb (mem_str x (fnames FT)) && (mem_str x B || negb (mem_str x CD)) && ok_rhs (B ++ CD) e
  | SOpAssign x o e => arith5 o && src_nameb x && mem_str x B && ok_rhs (B ++ CD) e
  | SPrint e => ok_rhs (B ++ CD) e
  | SExpr e => ok_rhs (B ++ CD) e
  | SAssert e _ => ok_rhs (B ++ CD) e
  | SIf c b => ok_rhs (B ++ CD) c && okb il B b
  | SIfElse c b e => ok_rhs (B ++ CD) c && okb il B b && okb il B e
  | SIfElif c b n => ok_rhs (B ++ CD) c && okb il B b && ok_stmt il B n
  | SWhile c b => ok_rhs (B ++ CD) c && okb true B b
  | SFrom _ _ _ _ _ _ _ =>
    (* from loops are proved in the second fragment only (Compile/ClosFrag.v .. ClosTop.v), for the loop head that evaluates
       both bounds before the counter receives its first value *)
    false
  | SBreak => il
  | SContinue => il
  | SReturn (Some e) => ok_rhs (B ++ CD) e
  | _ => false
  end.

Fixpoint ok_block (il : bool) (B : list str) (l : list stmt) {struct l} : bool :=
  match l with [] => true | s :: l => ok_stmt il B s && ok_block il (after B s) l end.

Lemma ok_SIf : forall il B c b, ok_stmt il B (SIf c b) = ok_rhs (B ++ CD) c && ok_block il B b.
Proof. reflexivity. Qed.
Lemma ok_SIfElse : forall il B c b e, ok_stmt il B (SIfElse c b e) = ok_rhs (B ++ CD) c && ok_block il B b && ok_block il B e.
Proof. reflexivity. Qed.
Lemma ok_SIfElif : forall il B c b n, ok_stmt il B (SIfElif c b n) = ok_rhs (B ++ CD) c && ok_block il B b && ok_stmt il B n.
Proof. reflexivity. Qed.
Lemma ok_SWhile : forall il B c b, ok_stmt il B (SWhile c b) = ok_rhs (B ++ CD) c && ok_block true B b.
Proof. reflexivity. Qed.
Lemma ok_SFrom : forall il B a b incl st nm collide body, ok_stmt il B (SFrom a b incl st nm collide body) = false.
Proof. reflexivity. Qed.

End OkStmt.

Lemma src_nameb_ok0 : forall x, src_nameb x = true -> src_name x /\ match x with 76%N :: 35%N :: _ => False | _ => True end.
Proof.
  intros [|c x] H; [split; exact Logic.I|].
  destruct (N.eq_dec c 35) as [->|H35]; [discriminate|].
  destruct (N.eq_dec c 76) as [->|H76].
  - destruct x as [|c2 x]; [split; exact Logic.I|].
    destruct (N.eq_dec c2 35) as [->|H2]; [discriminate|].
    split; [exact Logic.I|]. destruct c2 as [|p]; [exact Logic.I|].
    do 6 (destruct p as [p|p|]; try exact Logic.I). congruence.
  - split.
    + destruct c as [|p]; [exact Logic.I|]. do 6 (destruct p as [p|p|]; try exact Logic.I). congruence.
    + destruct c as [|p]; [exact Logic.I|]. do 7 (destruct p as [p|p|]; try exact Logic.I). congruence.
Qed.
Lemma src_nameb_ok : forall x, src_nameb x = true -> uname0 x.
Proof.
  intros x H. destruct (src_nameb_ok0 x H) as [H1 H2]. split; [exact H1|]. split; [exact H2|].
  intros ->. discriminate H.
Qed.

Lemma mem_str_In : forall x l, mem_str x l = true -> In x l.
Proof.
  induction l as [|y l IH]; cbn [mem_str]; intros H; [discriminate|].
  apply Bool.orb_true_iff in H as [H|H]; [left; symmetry; now apply str_eqb_eq|right; auto].
Qed.

Lemma ok_expr_parts : forall B e, ok_expr B e = true ->
  pure e = true /\ lits_ok e = true /\ forall x, In x (used_e e) -> uname0 x /\ In x B.
Proof.
  intros B e H. unfold ok_expr in H. apply Bool.andb_true_iff in H as [H H3]. apply Bool.andb_true_iff in H as [H1 H2].
  split; [exact H1|]. split; [exact H2|]. intros x Hx. rewrite forallb_forall in H3. specialize (H3 x Hx).
  apply Bool.andb_true_iff in H3 as [A C]. split; [now apply src_nameb_ok|now apply mem_str_In].
Qed.

(* the code of expressions with calls (= pcode on call-free expressions): operands are parked in registers, the
   callee value in #(d+1), the arguments in #(d+2), ... *)
Fixpoint argloads (k : nat) (l : list expr) : list instr :=
  match l with [] => [] | _ :: l => mkI OP_LOAD_FAST [reg k] :: argloads (S k) l end.
Fixpoint ccode (d : nat) (e : expr) {struct e} : list instr :=
  let fix cargc (k : nat) (l : list expr) {struct l} : list instr :=
    match l with [] => [] | a :: l => ccode k a ++ [mkI OP_STORE_FAST [reg k]] ++ cargc (S k) l end in
  match e with
  | EBin o a b => ccode (S d) a ++ [mkI OP_STORE_FAST [reg d]] ++ ccode (S d) b
                    ++ [mkI OP_LOAD_FAST [reg d]; mkI OP_FAST_REV2 []] ++ [op_instr o]
  | EAnd a b => ccode (S d) a ++ [mkI OP_STORE_SKIP [reg d; s_zero; sN (length (ccode (S d) b) + 3)]]
                  ++ ccode (S d) b ++ [mkI OP_LOAD_FAST [reg d]; mkI OP_BIN_OP [op_and]]
  | EOr a b => ccode (S d) a ++ [mkI OP_STORE_SKIP [reg d; s_one; sN (length (ccode (S d) b) + 3)]]
                 ++ ccode (S d) b ++ [mkI OP_LOAD_FAST [reg d]; mkI OP_BIN_OP [op_or]]
  | ENot a => ccode (S d) a ++ [mkI OP_NOT []]
  | ENeg a => ccode (S d) a ++ [mkI OP_NEG []]
  | ECall (EVar f) args =>
    [mkI OP_LOAD [f]; mkI OP_STORE_FAST [reg (S d)]] ++ cargc (S (S d)) args ++ argloads (S (S d)) args
      ++ [mkI OP_LOAD_FAST [reg (S d)]; mkI OP_CALL []]
  | ESelf args => cargc (S d) args ++ argloads (S d) args ++ [mkI OP_CALL_SELF []]
  | _ => pcode d e
  end.
Fixpoint argcode (k : nat) (l : list expr) : list instr :=
  match l with [] => [] | a :: l => ccode k a ++ [mkI OP_STORE_FAST [reg k]] ++ argcode (S k) l end.
Definition xcode (c : nat) (e : expr) : list instr := ccode c e.

Lemma ccode_ECall : forall d f args, ccode d (ECall (EVar f) args) =
  [mkI OP_LOAD [f]; mkI OP_STORE_FAST [reg (S d)]] ++ argcode (S (S d)) args ++ argloads (S (S d)) args
    ++ [mkI OP_LOAD_FAST [reg (S d)]; mkI OP_CALL []].
Proof. reflexivity. Qed.
Lemma ccode_ESelf : forall d args, ccode d (ESelf args) = argcode (S d) args ++ argloads (S d) args ++ [mkI OP_CALL_SELF []].
Proof. reflexivity. Qed.
Lemma ccode_pure : forall e d, pure e = true -> ccode d e = pcode d e.
Proof.
  induction e; intros d H; try reflexivity; try discriminate; cbn [pure] in H; cbn [ccode pcode].
  all: try (apply Bool.andb_true_iff in H as [H1 H2]).
  all: rewrite ?IHe1, ?IHe2, ?IHe by assumption; reflexivity.
Qed.
Lemma xcode_pure : forall c e, pure e = true -> xcode c e = pcode c e.
Proof. intros c e H. now apply ccode_pure. Qed.

Definition step_code (c : nat) (st : option expr) : list citem :=
  match st with Some e => map CI (pcode c e) | None => [I OP_MAKE_INT [s_one]] end.

(* the VM name of a from-loop counter (a hidden register for an anonymous loop) and the register level after it *)
Definition from_idn (lr : nat) (nm : option str) : str := match nm with Some x => x | None => lregn (S lr) end.
Definition from_lr1 (lr : nat) (nm : option str) : nat := match nm with Some _ => lr | None => S lr end.

Fixpoint sitems (c : nat) (lr : nat) (sl : option nat) (s : stmt) {struct s} : list citem :=
  let fix bl (lr : nat) (sl : option nat) (l : list stmt) {struct l} : list citem :=
    match l with [] => [] | s :: l => sitems c lr sl s ++ bl lr sl l end in
  let inner := option_map S sl in
  match s with
  | SAssign x e => map CI (xcode c e) ++ [I OP_STORE [x]]
  | SOpAssign x o e => map CI (xcode (S c) e) ++ [I OP_BIN_OP_ASSIGN [binop_sym o ++ [61%N]; x]; I OP_VOID []]
  | SPrint e => map CI (xcode c e) ++ [I OP_PRINTN [s_star]; I OP_VOID []]
  | SAssert e sp => map CI (xcode c e) ++ [I OP_ASSERT [sp]]
  | SExpr e => map CI (xcode c e) ++ [I OP_VOID []]
  | SIf cnd body =>
    let cb := bl lr inner body ++ [I OP_DONE []] in
    map CI (xcode c cnd) ++ [I OP_IF_STMT [sN (length cb + 1)]] ++ cb
  | SIfElse cnd body els =>
    let cb := bl lr inner body ++ [I OP_DONE []] in
    let ce := I OP_ELSE_STMT [] :: bl lr inner els ++ [I OP_DONE []] in
    map CI (xcode c cnd) ++ [I OP_IF_STMT [sN (length cb + 2)]] ++ cb ++ [I OP_JMP [sN (length ce + 1)]] ++ ce
  | SIfElif cnd body nxt =>
    let cb := bl lr inner body ++ [I OP_DONE []] in
    let ce := I OP_ELSE_STMT [] :: sitems c lr inner nxt ++ [I OP_DONE []] in
    map CI (xcode c cnd) ++ [I OP_IF_STMT [sN (length cb + 2)]] ++ cb ++ [I OP_JMP [sN (length ce + 1)]] ++ ce
  | SWhile cnd body =>
    let cc := map CI (xcode c cnd) in
    let cb0 := bl lr (Some 1) body in
    let cb := cb0 ++ [I OP_JMP_POP [neg_off (1 + length cb0 + length cc)]] in
    cc ++ [I OP_WHILE_LOOP [sN (length cb + 1)]] ++ resolve (length cb) 0 0 cb
  | SFrom a b incl step nm collide body =>
    let x := from_idn lr nm in
    let lr1 := from_lr1 lr nm in
    let endr := lregn (S lr1) in
    let cond := [I OP_LOAD_FAST [x]; I OP_LOAD_FAST [endr]; I OP_BIN_OP [if incl then op_le else op_lt]] in
    let cbody := bl (S lr1) (Some 1) body in
    let cstep := step_code c step ++ [I OP_BIN_OP_ASSIGN [[43; 61]%N; x]] in
    let full0 := cbody ++ cstep in
    let full := full0 ++ [I OP_JMP_POP [neg_off (1 + length cond + length full0)]] in
    map CI (xcode c a) ++ [I (if collide then OP_STORE else OP_STORE_FAST) [x]] ++ map CI (xcode c b) ++ [I OP_STORE_FAST [endr]] ++ cond
      ++ [I OP_WHILE_LOOP [sN (length full + 1)]] ++ resolve (length full) (length cstep) 0 full
      ++ (if collide then [] else [I OP_DELETE_NAME_SCOPED [x; endr]])
  | SBreak => [CBrk (match sl with Some n => n | None => 0 end)]
  | SContinue => [CCont (match sl with Some n => n | None => 0 end)]
  | SReturn (Some e) => map CI (xcode c e) ++ [I OP_RET []]
  | _ => []
  end.

Section BItems.
Variable c : nat.
Fixpoint bitems (lr : nat) (sl : option nat) (l : list stmt) {struct l} : list citem :=
  match l with [] => [] | s :: l => sitems c lr sl s ++ bitems lr sl l end.
End BItems.

Lemma sitems_SIf : forall c lr sl cnd body, sitems c lr sl (SIf cnd body) =
  let cb := bitems c lr (option_map S sl) body ++ [I OP_DONE []] in
  map CI (xcode c cnd) ++ [I OP_IF_STMT [sN (length cb + 1)]] ++ cb.
Proof. reflexivity. Qed.
Lemma sitems_SIfElse : forall c lr sl cnd body els, sitems c lr sl (SIfElse cnd body els) =
  let cb := bitems c lr (option_map S sl) body ++ [I OP_DONE []] in
  let ce := I OP_ELSE_STMT [] :: bitems c lr (option_map S sl) els ++ [I OP_DONE []] in
  map CI (xcode c cnd) ++ [I OP_IF_STMT [sN (length cb + 2)]] ++ cb ++ [I OP_JMP [sN (length ce + 1)]] ++ ce.
Proof. reflexivity. Qed.
Lemma sitems_SIfElif : forall c lr sl cnd body nxt, sitems c lr sl (SIfElif cnd body nxt) =
  let cb := bitems c lr (option_map S sl) body ++ [I OP_DONE []] in
  let ce := I OP_ELSE_STMT [] :: sitems c lr (option_map S sl) nxt ++ [I OP_DONE []] in
  map CI (xcode c cnd) ++ [I OP_IF_STMT [sN (length cb + 2)]] ++ cb ++ [I OP_JMP [sN (length ce + 1)]] ++ ce.
Proof. reflexivity. Qed.
Lemma sitems_SWhile : forall c lr sl cnd body, sitems c lr sl (SWhile cnd body) =
  let cc := map CI (xcode c cnd) in
  let cb0 := bitems c lr (Some 1) body in
  let cb := cb0 ++ [I OP_JMP_POP [neg_off (1 + length cb0 + length cc)]] in
  cc ++ [I OP_WHILE_LOOP [sN (length cb + 1)]] ++ resolve (length cb) 0 0 cb.
Proof. reflexivity. Qed.

Section WithPath.
Variable path : str.

Section CBlockT.
Variable c : nat.
Fixpoint cblockT (sl : option nat) (l : list stmt) (st : cst) {struct l} : list citem * cst :=
  match l with
  | [] => ([], st)
  | s :: l => let '(cs, st) := cstmt path c sl s st in
              let '(cl, st) := cblockT sl l st in (cs ++ cl, st)
  end.
End CBlockT.

Lemma cstmt_SAssign : forall c sl x e st, cstmt path c sl (SAssign x e) st =
  let '(ce, st) := cexpr path c e st in (ce ++ [I OP_STORE [x]], st).
Proof. reflexivity. Qed.
Lemma cstmt_SIf : forall c sl cnd body st, cstmt path c sl (SIf cnd body) st =
  let '(cc, st) := cexpr path c cnd st in
  let '(cb, st) := cblockT c (option_map S sl) body st in
  let cb := cb ++ [I OP_DONE []] in
  (cc ++ [I OP_IF_STMT [sN (length cb + 1)]] ++ cb, st).
Proof. reflexivity. Qed.
Lemma cstmt_SIfElse : forall c sl cnd body els st, cstmt path c sl (SIfElse cnd body els) st =
  let '(cc, st) := cexpr path c cnd st in
  let '(cb, st) := cblockT c (option_map S sl) body st in
  let cb := cb ++ [I OP_DONE []] in
  let '(ce, st) := cblockT c (option_map S sl) els st in
  let ce := I OP_ELSE_STMT [] :: ce ++ [I OP_DONE []] in
  (cc ++ [I OP_IF_STMT [sN (length cb + 2)]] ++ cb ++ [I OP_JMP [sN (length ce + 1)]] ++ ce, st).
Proof. reflexivity. Qed.
Lemma cstmt_SIfElif : forall c sl cnd body nxt st, cstmt path c sl (SIfElif cnd body nxt) st =
  let '(cc, st) := cexpr path c cnd st in
  let '(cb, st) := cblockT c (option_map S sl) body st in
  let cb := cb ++ [I OP_DONE []] in
  let '(ce, st) := cstmt path c (option_map S sl) nxt st in
  let ce := I OP_ELSE_STMT [] :: ce ++ [I OP_DONE []] in
  (cc ++ [I OP_IF_STMT [sN (length cb + 2)]] ++ cb ++ [I OP_JMP [sN (length ce + 1)]] ++ ce, st).
Proof. reflexivity. Qed.
Lemma cstmt_SWhile : forall c sl cnd body st, cstmt path c sl (SWhile cnd body) st =
  let '(cc, st) := cexpr path c cnd st in
  let '(cb, st) := cblockT c (Some 1) body st in
  let cb := cb ++ [I OP_JMP_POP [neg_off (1 + length cb + length cc)]] in
  (cc ++ [I OP_WHILE_LOOP [sN (length cb + 1)]] ++ resolve (length cb) 0 0 cb, st).
Proof. reflexivity. Qed.

Lemma cstmt_SFrom : forall c sl a b incl step nm collide body st,
  cstmt path c sl (SFrom a b incl step nm collide body) st =
  let '(idn, st) := match nm with
                    | Some x => (x, st)
                    | None => (lregn (S (lreg st)), {| fid := fid st; lreg := S (lreg st); fbuf := fbuf st |})
                    end in
  let '(ca, st) := cexpr path c a st in
  let '(cb_, st) := cexpr path c b st in
  let startr := lregn (S (lreg st)) in
  let endr := lregn (S (S (lreg st))) in
  let st := {| fid := fid st; lreg := S (S (lreg st)); fbuf := fbuf st |} in
  let cond := [I OP_LOAD_FAST [idn]; I OP_LOAD_FAST [endr]; I OP_BIN_OP [if incl then op_le else op_lt]] in
  let '(cbody, st) := cblockT c (Some 1) body st in
  let '(cstep, st) := match step with
                      | Some e => cexpr path c e st
                      | None => ([I OP_MAKE_INT [s_one]], st) end in
  let cstep := cstep ++ [I OP_BIN_OP_ASSIGN [[43; 61]%N; idn]] in
  let full := cbody ++ cstep in
  let full := full ++ [I OP_JMP_POP [neg_off (1 + length cond + length full)]] in
  let st := {| fid := fid st; lreg := lreg st - (match nm with Some _ => 2 | None => 3 end); fbuf := fbuf st |} in
  (ca ++ [I OP_STORE_FAST [startr]] ++ cb_ ++ [I OP_STORE_FAST [endr]; I OP_LOAD_FAST [startr];
                                                I (if collide then OP_STORE else OP_STORE_FAST) [idn]] ++ cond
      ++ [I OP_WHILE_LOOP [sN (length full + 1)]] ++ resolve (length full) (length cstep) 0 full
      ++ (if collide then [] else [I OP_DELETE_NAME_SCOPED [idn; startr; endr]]), st).
Proof. reflexivity. Qed.

Definition frag_eq (c : nat) (s : stmt) : Prop :=
  forall FT SP CD il B sl st, ok_stmt FT SP CD il B s = true -> cstmt path c sl s st = (sitems c (lreg st) sl s, st).

Lemma cblockT_frag : forall c l, Forall (frag_eq c) l ->
  forall FT SP CD il B sl st, ok_block FT SP CD il B l = true -> cblockT c sl l st = (bitems c (lreg st) sl l, st).
Proof.
  intros c. induction l as [|s l IH]; intros HF FT SP CD il B sl st Hok; [reflexivity|].
  cbn [ok_block] in Hok. apply Bool.andb_true_iff in Hok as [H1 H2]. cbn [cblockT bitems].
  rewrite (Forall_inv HF FT SP CD il B sl st H1), (IH (Forall_inv_tail HF) FT SP CD il (after B s) sl st H2). reflexivity.
Qed.

Lemma I_op_instr : forall o, match o with BEq => I OP_EQU [] | BNeq => I OP_NEQ [] | _ => I OP_BIN_OP [binop_sym o] end = CI (op_instr o).
Proof. intros o. destruct o; reflexivity. Qed.

Lemma cexpr_okx : forall B e d st, ok_expr B e = true -> cexpr path d e st = (map CI (xcode d e), st).
Proof. intros B e d st H. apply ok_expr_parts in H as (Hp & _ & _). rewrite xcode_pure by exact Hp. now apply cexpr_pure. Qed.

Lemma cargs_c : forall FT SP B l, Forall (fun e => forall B d st, ok_cexpr FT SP B e = true -> cexpr path d e st = (map CI (ccode d e), st)) l ->
  ok_cexprs FT SP B l = true -> forall k st, cargs path k l st = (map CI (argcode k l), map CI (argloads k l), st).
Proof.
  intros FT SP B. induction l as [|a l IH]; intros HF H k st; [reflexivity|].
  cbn [ok_cexprs] in H. apply Bool.andb_true_iff in H as [H1 H2]. cbn [cargs argcode argloads].
  rewrite (Forall_inv HF B _ _ H1), (IH (Forall_inv_tail HF) H2), !map_app. reflexivity.
Qed.

(* a call-free expression is compiled by pcode: what is left to show is the other disjunct of ok_cexpr *)
Lemma cexpr_c_parts : forall FT SP B e d st, ok_cexpr FT SP B e = true ->
  (ok_parts FT SP B e -> cexpr path d e st = (map CI (ccode d e), st)) ->
  cexpr path d e st = (map CI (ccode d e), st).
Proof. intros FT SP B e d st H Hp. apply ok_cexpr_inv in H as [H|H]; [exact (cexpr_okx B e d st H)|exact (Hp H)]. Qed.

Lemma cexpr_c : forall FT SP e B d st, ok_cexpr FT SP B e = true -> cexpr path d e st = (map CI (ccode d e), st).
Proof.
  intros FT SP.
  apply (expr_ind' (fun e => forall B d st, ok_cexpr FT SP B e = true -> cexpr path d e st = (map CI (ccode d e), st)) (fun _ => True));
    try (intros; exact Logic.I).
  (* the forms that are in the fragment only when call-free *)
  all: try (intros until st; intros Hok; apply (cexpr_c_parts _ _ _ _ _ _ Hok); intros Hp; exact (False_ind _ Hp)).
  - intros o a b IHa IHb B d st Hok. apply (cexpr_c_parts _ _ _ _ _ _ Hok). intros [Ha Hb].
    rewrite cexpr_EBin, (IHa B _ _ Ha), (IHb B _ _ Hb). cbn [ccode]. rewrite I_op_instr, !map_app. reflexivity.
  - intros a b IHa IHb B d st Hok. apply (cexpr_c_parts _ _ _ _ _ _ Hok). intros (_ & _ & Ha & Hb).
    rewrite cexpr_EAnd, (IHa B _ _ Ha), (IHb B _ _ Hb). cbn [ccode]. rewrite !map_app, map_length. reflexivity.
  - intros a b IHa IHb B d st Hok. apply (cexpr_c_parts _ _ _ _ _ _ Hok). intros (_ & _ & Ha & Hb).
    rewrite cexpr_EOr, (IHa B _ _ Ha), (IHb B _ _ Hb). cbn [ccode]. rewrite !map_app, map_length. reflexivity.
  - intros a IHa B d st Hok. apply (cexpr_c_parts _ _ _ _ _ _ Hok). intros [_ Ha].
    rewrite cexpr_ENot, (IHa B _ _ Ha). cbn [ccode]. rewrite !map_app. reflexivity.
  - intros a IHa B d st Hok. apply (cexpr_c_parts _ _ _ _ _ _ Hok). intros [_ Ha].
    rewrite cexpr_ENeg, (IHa B _ _ Ha). cbn [ccode]. rewrite !map_app. reflexivity.
  - intros f l _ IHl B d st Hok. apply (cexpr_c_parts _ _ _ _ _ _ Hok). intros Hp.
    destruct f; try contradiction. destruct Hp as (ps & body & _ & _ & Hl).
    rewrite cexpr_ECall. cbn [cexpr]. rewrite (cargs_c FT SP B l IHl Hl), ccode_ECall, !map_app. reflexivity.
  - intros l IHl B d st Hok. apply (cexpr_c_parts _ _ _ _ _ _ Hok). intros (ps & _ & _ & Hl).
    rewrite cexpr_ESelf, (cargs_c FT SP B l IHl Hl), ccode_ESelf, !map_app. reflexivity.
Qed.

(* H : t1 && .. && tn = true  becomes  H : t1 = true, H0 : t2 = true, .. *)
Ltac okx H := repeat (rewrite Bool.andb_true_iff in H; let H' := fresh H in destruct H as [H H']).
Theorem cstmt_frag : forall c s, frag_eq c s.
Proof.
  intros c. apply (stmt_ind' (fun _ => True) (frag_eq c)); try (intros; exact Logic.I); unfold frag_eq.
  (* no code of its own; not in the fragment *)
  all: try (intros; reflexivity); try (intros; discriminate).
  (* assignment, op-assignment, print, assert, expression statement: one expression followed by fixed instructions;
     the last conjunct of ok_stmt speaks of the expression *)
  1-5: intros until st; intros Hok; cbn [ok_stmt] in Hok; okx Hok; cbn [cstmt sitems]; now rewrite (cexpr_c FT SP _ (B ++ CD)).
  - intros cnd b _ Hb FT SP CD il B sl st H. rewrite ok_SIf in H. okx H.
    rewrite cstmt_SIf, sitems_SIf, (cexpr_c FT SP _ (B ++ CD)) by assumption.
    rewrite (cblockT_frag c b Hb FT SP CD il B _ st) by assumption. reflexivity.
  - intros cnd b e _ Hb He FT SP CD il B sl st H. rewrite ok_SIfElse in H. okx H.
    rewrite cstmt_SIfElse, sitems_SIfElse, (cexpr_c FT SP _ (B ++ CD)) by assumption.
    rewrite (cblockT_frag c b Hb FT SP CD il B _ st) by assumption.
    rewrite (cblockT_frag c e He FT SP CD il B _ st) by assumption. reflexivity.
  - intros cnd b n _ Hb Hn FT SP CD il B sl st H. rewrite ok_SIfElif in H. okx H.
    rewrite cstmt_SIfElif, sitems_SIfElif, (cexpr_c FT SP _ (B ++ CD)) by assumption.
    rewrite (cblockT_frag c b Hb FT SP CD il B _ st) by assumption.
    rewrite (Hn FT SP CD il B _ st) by assumption. reflexivity.
  - intros cnd b _ Hb FT SP CD il B sl st H. rewrite ok_SWhile in H. okx H.
    rewrite cstmt_SWhile, sitems_SWhile, (cexpr_c FT SP _ (B ++ CD)) by assumption.
    rewrite (cblockT_frag c b Hb FT SP CD true B _ st) by assumption. reflexivity.
  - intros [e|] _ FT SP CD il B sl st H; [|discriminate]. cbn [cstmt sitems]. now rewrite (cexpr_c FT SP _ (B ++ CD)).
Qed.

Corollary cblockT_ok : forall c l FT SP CD il B sl st, ok_block FT SP CD il B l = true -> cblockT c sl l st = (bitems c (lreg st) sl l, st).
Proof.
  intros c l. apply cblockT_frag. apply Forall_forall. intros s _. apply cstmt_frag.
Qed.
End WithPath.

Definition resolve_item (final_len step_len idx : nat) (it : citem) : citem :=
  match it with
  | CCont n => I OP_JMP_POP [sN (final_len - step_len - idx - 1); sN (n - 1)]
  | CBrk n => I OP_JMP_POP [sN (final_len - idx); sN n]
  | x => x
  end.

Lemma resolve_nth : forall F S l idx j,
  nth_error (resolve F S idx l) j = option_map (resolve_item F S (idx + j)) (nth_error l j).
Proof.
  intros F S. induction l as [|it l IH]; intros idx j; [destruct j; reflexivity|].
  destruct j as [|j].
  - rewrite Nat.add_0_r. destruct it; reflexivity.
  - replace (idx + Datatypes.S j) with (Datatypes.S idx + j) by lia.
    destruct it; cbn [resolve nth_error]; apply IH.
Qed.

Lemma resolve_length : forall F S l idx, length (resolve F S idx l) = length l.
Proof.
  intros F S. induction l as [|it l IH]; intros idx; [reflexivity|].
  destruct it; cbn [resolve length]; now rewrite IH.
Qed.
