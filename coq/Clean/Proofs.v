(* C20 -- theorems about the model of `mscript clean` (Clean/Model.v); all for arbitrary directories. *)
From Coq Require Import Permutation.
From MS Require Import Base.Str Base.StrFacts Clean.Model.

Lemma rsplit_dot_none (s : str) : rsplit_dot s = None <-> ~ In c_dot s.
Proof.
  induction s as [|c t IH]; cbn [rsplit_dot].
  - split; [intros _ []|reflexivity].
  - destruct (rsplit_dot t) as [[b a]|] eqn:E.
    + split; [discriminate|]. intro H. exfalso.
      assert (Hn : ~ In c_dot t) by (intro K; apply H; right; exact K).
      apply IH in Hn. discriminate.
    + destruct (c =? c_dot) eqn:Ec.
      * split; [discriminate|]. intro H. exfalso. apply H. left. apply N.eqb_eq in Ec. exact Ec.
      * split; [|reflexivity]. intros _ [K|K].
        -- apply N.eqb_neq in Ec. congruence.
        -- apply (proj1 IH eq_refl). exact K.
Qed.

Lemma rsplit_dot_last (b a : str) : ~ In c_dot a -> rsplit_dot (b ++ c_dot :: a) = Some (b, a).
Proof.
  intro Hn. induction b as [|c b IH]; cbn [app rsplit_dot]; [|rewrite IH; reflexivity].
  rewrite (proj2 (rsplit_dot_none a) Hn), N.eqb_refl. reflexivity.
Qed.

Lemma rsplit_dot_some (s b a : str) :
  rsplit_dot s = Some (b, a) <-> s = b ++ c_dot :: a /\ ~ In c_dot a.
Proof.
  split; [|intros [-> Hn]; exact (rsplit_dot_last b a Hn)].
  revert b a. induction s as [|c t IH]; intros b a; cbn [rsplit_dot]; [discriminate|].
  destruct (rsplit_dot t) as [[b' a']|] eqn:E.
  - intro H. injection H as <- <-. destruct (IH b' a' eq_refl) as [-> Hn]. split; [reflexivity|exact Hn].
  - destruct (c =? c_dot) eqn:Ec; [|discriminate]. intro H. injection H as <- <-. apply N.eqb_eq in Ec. subst c.
    split; [reflexivity|apply rsplit_dot_none; exact E].
Qed.

(* Rust's Path::extension on a one-component path *)
Theorem extension_spec (s x : str) :
  extension s = Some x <->
  s <> [c_dot; c_dot] /\ exists stem, stem <> [] /\ s = stem ++ c_dot :: x /\ ~ In c_dot x.
Proof.
  unfold extension. destruct (str_eqb s [c_dot; c_dot]) eqn:Edd.
  - apply str_eqb_eq in Edd. split; [discriminate|]. intros [H _]. contradiction.
  - apply str_eqb_false in Edd. split.
    + destruct (rsplit_dot s) as [[[|c0 b0] a]|] eqn:E; try discriminate. intro H. injection H as <-.
      apply rsplit_dot_some in E. split; [exact Edd|]. exists (c0 :: b0). split; [discriminate|exact E].
    + intros [_ [stem [Hne [Hs Hx]]]]. rewrite (proj2 (rsplit_dot_some s stem x) (conj Hs Hx)).
      destruct stem; [contradiction|reflexivity].
Qed.

Lemma ext_is_mmm_iff (s : str) : ext_is_mmm s = true <-> extension s = Some s_mmm.
Proof.
  unfold ext_is_mmm. destruct (extension s) as [x|].
  - rewrite str_eqb_eq. split; congruence.
  - split; discriminate.
Qed.

Definition other_name (nm : str) (x : entry) : bool := negb (str_eqb (name x) nm).

Lemma filter_all {A} (p : A -> bool) (l : list A) : (forall x, In x l -> p x = true) -> filter p l = l.
Proof.
  induction l as [|a l IH]; intro H; cbn [filter]; [reflexivity|].
  rewrite (H a (or_introl eq_refl)). f_equal. apply IH. intros x Hx. apply H. right. exact Hx.
Qed.

Lemma name_inj (l : list entry) (x y : entry) : NoDup (map name l) -> In x l -> In y l -> name x = name y -> x = y.
Proof.
  induction l as [|a l IH]; intros Hnd Hx Hy E; [destruct Hx|].
  cbn [map] in Hnd. inversion Hnd as [|? ? Ha Hl]; subst.
  destruct Hx as [Hx|Hx], Hy as [Hy|Hy]; subst.
  - reflexivity.
  - destruct Ha. rewrite E. apply in_map. exact Hy.
  - destruct Ha. rewrite <- E. apply in_map. exact Hx.
  - exact (IH Hl Hx Hy E).
Qed.

Lemma other_names (nm : str) (l : list entry) : ~ In nm (map name l) -> forall x, In x l -> other_name nm x = true.
Proof.
  intros Hn x Hx. apply negb_true_iff. apply str_eqb_neq. intro K. apply Hn. rewrite <- K. apply in_map. exact Hx.
Qed.

Lemma remove_file_spec (fs : list entry) (e : entry) :
  NoDup (map name fs) -> In e fs ->
  remove_file (name e) fs = if is_dir e then RmErr EISDIR else RmOk (filter (other_name (name e)) fs).
Proof.
  induction fs as [|x t IH]; intros Hnd Hin; [destruct Hin|].
  cbn [remove_file filter]. unfold other_name at 1. destruct (str_eqb (name x) (name e)) eqn:E; cbn [negb].
  - apply str_eqb_eq in E. assert (x = e) as -> by exact (name_inj _ x e Hnd (or_introl eq_refl) Hin E).
    inversion Hnd as [|? ? Hx _]; subst. rewrite (filter_all _ t (other_names _ t Hx)).
    unfold is_dir. destruct (ekind e); reflexivity.
  - destruct Hin as [->|Hin]; [rewrite str_eqb_refl in E; discriminate|].
    inversion Hnd as [|? ? _ Ht]; subst. rewrite (IH Ht Hin). destruct (is_dir e); reflexivity.
Qed.

Lemma NoDup_map_filter (p : entry -> bool) (l : list entry) :
  NoDup (map name l) -> NoDup (map name (filter p l)).
Proof.
  induction l as [|a l IH]; intro H; cbn [filter map]; [constructor|].
  cbn [map] in H. inversion H as [|? ? Ha Hl]; subst.
  destruct (p a); cbn [map]; [|apply IH; exact Hl].
  constructor; [|apply IH; exact Hl].
  intro K. apply Ha. apply in_map_iff in K. destruct K as [y [Hy Hin]].
  apply filter_In in Hin. rewrite <- Hy. apply in_map. apply Hin.
Qed.

Definition mem_str (s : str) (l : list str) : bool := existsb (str_eqb s) l.

Lemma mem_str_In (s : str) (l : list str) : mem_str s l = true <-> In s l.
Proof.
  unfold mem_str. rewrite existsb_exists. split.
  - intros [x [Hx E]]. apply str_eqb_eq in E. subst. exact Hx.
  - intro H. exists s. split; [exact H|apply str_eqb_refl].
Qed.

Definition doomed_names (todo : list entry) : list str := map name (filter doomed todo).
Definition keeps (nms : list str) (x : entry) : bool := negb (mem_str (name x) nms).

Lemma doomed_names_cons (e : entry) (rest : list entry) :
  doomed_names (e :: rest) = if doomed e then name e :: doomed_names rest else doomed_names rest.
Proof. unfold doomed_names. cbn [filter]. destruct (doomed e); reflexivity. Qed.

Lemma filter_filter {A} (p q : A -> bool) (l : list A) :
  filter p (filter q l) = filter (fun x => q x && p x) l.
Proof.
  induction l as [|a l IH]; cbn [filter]; [reflexivity|].
  destruct (q a); cbn [filter andb]; [destruct (p a)|]; rewrite IH; reflexivity.
Qed.

Lemma keeps_cons (nm : str) (nms : list str) (fs : list entry) :
  filter (keeps nms) (filter (other_name nm) fs) = filter (keeps (nm :: nms)) fs.
Proof.
  rewrite filter_filter. apply filter_ext. intro x. unfold keeps, other_name, mem_str. cbn [existsb].
  rewrite negb_orb. reflexivity.
Qed.

Lemma doomed_not_dir (e : entry) : doomed e = true -> is_dir e = false.
Proof. unfold doomed. intro H. apply andb_true_iff in H. destruct H as [H _]. apply negb_true_iff in H. exact H. Qed.

Definition stuck (e : entry) : bool := is_dir e && ext_is_mmm (name e).

Definition finish (fs : list entry) (n : N) (m : list str) (k : N) : outcome :=
  if k =? 0 then Cleaned fs n m else Incomplete fs n m k.

Lemma count_step (n : N) (l : nat) : n + 1 + N.of_nat l = n + N.of_nat (S l).
Proof. rewrite Nat2N.inj_succ, <- N.add_1_l, N.add_assoc. reflexivity. Qed.

Lemma loop_spec (sd : bool) (todo : list entry) : forall (fs : list entry) (n : N) (m : list str) (k : N),
  NoDup (map name fs) -> NoDup (map name todo) -> (forall e, In e todo -> In e fs) ->
  clean_loop sd true todo fs n m k =
  finish (filter (keeps (doomed_names todo)) fs) (n + N.of_nat (length (doomed_names todo))) (m ++ doomed_names todo)
         (k + if sd then 0 else N.of_nat (length (filter stuck todo))).
Proof.
  induction todo as [|e rest IH]; intros fs n m k Hfs Htodo Hin.
  - cbn [clean_loop doomed_names filter map length N.of_nat]. rewrite app_nil_r, !N.add_0_r, filter_all; [|reflexivity].
    destruct sd; rewrite ?N.add_0_r; reflexivity.
  - cbn [map] in Htodo. inversion Htodo as [|? ? He Hrest]; subst.
    assert (Hin' : forall e', In e' rest -> In e' fs) by (intros e' H; apply Hin; right; exact H).
    rewrite doomed_names_cons. unfold doomed. cbn [clean_loop filter]. unfold stuck at 1.
    rewrite (remove_file_spec fs e Hfs (Hin e (or_introl eq_refl))).
    destruct (ext_is_mmm (name e)); rewrite ?andb_false_r, ?andb_true_r;
      [|destruct (sd && is_dir e); apply IH; assumption].
    destruct (is_dir e); cbn [negb]; rewrite ?andb_false_r, ?andb_true_r.
    + (* a directory: skipped, or remove_file fails, which is counted *)
      destruct sd; rewrite IH by assumption; [reflexivity|]. cbn [length]. rewrite count_step. reflexivity.
    + rewrite IH; [|apply NoDup_map_filter; exact Hfs|exact Hrest|].
      * rewrite keeps_cons, <- app_assoc. cbn [length]. rewrite count_step. reflexivity.
      * intros e' H. apply filter_In. split; [exact (Hin' e' H)|exact (other_names _ rest He e' H)].
Qed.

Lemma keeps_spared (order es : list entry) :
  NoDup (map name es) -> (forall e, In e order <-> In e es) ->
  filter (keeps (doomed_names order)) es = filter spared es.
Proof.
  intros Hnd Hsame. apply filter_ext_in. intros x Hx. unfold keeps, spared. f_equal.
  destruct (doomed x) eqn:Ed.
  - apply mem_str_In. apply in_map_iff. exists x. split; [reflexivity|].
    apply filter_In. split; [apply Hsame; exact Hx|exact Ed].
  - destruct (mem_str (name x) (doomed_names order)) eqn:Em; [|reflexivity].
    apply mem_str_In in Em. apply in_map_iff in Em. destruct Em as [y [Hname Hy]].
    apply filter_In in Hy. destruct Hy as [Hy Hdy]. apply Hsame in Hy.
    rewrite (name_inj es y x Hnd Hy Hx Hname) in Hdy. congruence.
Qed.

Lemma sweep_spec (sd : bool) (order es : list entry) :
  NoDup (map name es) -> NoDup (map name order) -> (forall e, In e order <-> In e es) ->
  clean_loop sd true order es 0 [] 0 =
  finish (filter spared es) (N.of_nat (length (filter doomed order))) (doomed_names order)
         (if sd then 0 else N.of_nat (length (filter stuck order))).
Proof.
  intros Hnd Hnd' Hsame. rewrite loop_spec; [|exact Hnd|exact Hnd'|intros e H; apply Hsame; exact H].
  rewrite !N.add_0_l, (keeps_spared order es Hnd Hsame). unfold doomed_names at 1. rewrite map_length. reflexivity.
Qed.

(* For EVERY directory (entries with distinct names, any number, any names, any kinds):
   the command exits normally; what is left is exactly the entries that are not (non-directory with
   extension mmm), each of them the very same entry (same kind, same content id, same position);
   the number reported is the number of entries removed; one `clean` line per removed name. *)
Theorem clean_exact : forall es : list entry, NoDup (map name es) ->
  clean es = Cleaned (filter spared es) (N.of_nat (length (filter doomed es))) (map name (filter doomed es)).
Proof. intros es Hnd. exact (sweep_spec true es es Hnd Hnd (fun e => iff_refl _)). Qed.

Lemma filter_partition_length {A} (p : A -> bool) (l : list A) :
  length l = (length (filter p l) + length (filter (fun x => negb (p x)) l))%nat.
Proof.
  induction l as [|a l IH]; cbn [filter length]; [reflexivity|].
  destruct (p a); cbn [negb length]; rewrite IH; [reflexivity|apply plus_n_Sm].
Qed.

Lemma clean_cleaned (es fs : list entry) (n : N) (msgs : list str) :
  NoDup (map name es) -> clean es = Cleaned fs n msgs ->
  fs = filter spared es /\ n = N.of_nat (length (filter doomed es)).
Proof. intros Hnd H. rewrite (clean_exact es Hnd) in H. injection H as <- <- _. split; reflexivity. Qed.

Theorem clean_count : forall es fs n msgs, NoDup (map name es) -> clean es = Cleaned fs n msgs ->
  N.of_nat (length es) = n + N.of_nat (length fs).
Proof.
  intros es fs n msgs Hnd H. destruct (clean_cleaned es fs n msgs Hnd H) as [-> ->].
  rewrite (filter_partition_length doomed es). apply Nat2N.inj_add.
Qed.

(* a directory, or an entry whose extension is not exactly mmm, is still there, the same record (name, kind,
   content / subtree / link text) *)
Theorem clean_spares : forall es fs n msgs e, NoDup (map name es) -> clean es = Cleaned fs n msgs ->
  In e es -> (ekind e = KDir \/ extension (name e) <> Some s_mmm) -> In e fs.
Proof.
  intros es fs n msgs e Hnd H Hin Hwhy. destruct (clean_cleaned es fs n msgs Hnd H) as [-> _].
  apply filter_In. split; [exact Hin|]. unfold spared, doomed. apply negb_true_iff.
  destruct Hwhy as [Hk|Hx].
  - unfold is_dir. rewrite Hk. reflexivity.
  - destruct (ext_is_mmm (name e)) eqn:E; [|apply andb_false_r].
    apply ext_is_mmm_iff in E. contradiction.
Qed.

Theorem clean_removes : forall es fs n msgs e, NoDup (map name es) -> clean es = Cleaned fs n msgs ->
  In e es -> ekind e <> KDir -> extension (name e) = Some s_mmm -> ~ In e fs.
Proof.
  intros es fs n msgs e Hnd H Hin Hk Hx. destruct (clean_cleaned es fs n msgs Hnd H) as [-> _].
  intro K. apply filter_In in K. destruct K as [_ K]. unfold spared, doomed in K.
  apply ext_is_mmm_iff in Hx. rewrite Hx in K. unfold is_dir in K.
  destruct (ekind e); cbn in K; try discriminate. contradiction.
Qed.

Theorem clean_invents_nothing : forall es fs n msgs e, NoDup (map name es) -> clean es = Cleaned fs n msgs ->
  In e fs -> In e es.
Proof.
  intros es fs n msgs e Hnd H Hin. destruct (clean_cleaned es fs n msgs Hnd H) as [-> _].
  apply filter_In in Hin. apply Hin.
Qed.

Lemma Permutation_filter {A} (p : A -> bool) (l l' : list A) :
  Permutation l l' -> Permutation (filter p l) (filter p l').
Proof.
  induction 1 as [|x l l' Hp IH|x y l|l l' l'' H1 IH1 H2 IH2]; cbn [filter].
  - constructor.
  - destruct (p x); [constructor|]; exact IH.
  - destruct (p x), (p y); try apply Permutation_refl. apply perm_swap.
  - eapply Permutation_trans; eassumption.
Qed.

(* whatever order read_dir yields the entries in, the directory left behind is identical, the count
   is the same, and the `clean` lines are the same up to order *)
Theorem clean_order_independent : forall es order : list entry, NoDup (map name es) -> Permutation order es ->
  exists msgs, clean_in order es = Cleaned (filter spared es) (N.of_nat (length (filter doomed es))) msgs
               /\ Permutation msgs (map name (filter doomed es)).
Proof.
  intros es order Hnd Hperm. pose proof (Permutation_filter doomed order es Hperm) as Hf.
  exists (doomed_names order). split; [|apply Permutation_map; exact Hf].
  rewrite <- (Permutation_length Hf). apply (sweep_spec true order es Hnd).
  - apply (Permutation_NoDup (l := map name es)); [|exact Hnd]. apply Permutation_map. apply Permutation_sym. exact Hperm.
  - intro e. split; apply Permutation_in; [exact Hperm|apply Permutation_sym; exact Hperm].
Qed.

(* A remove_file that fails does not stop the sweep (fixes/clean-continues-after-failure.diff).
   In the model's filesystem the one way remove_file fails on a listed entry is EISDIR; the loop with
   `keep_going` and WITHOUT the directory test meets it on every directory named *.mmm.  Every non-directory
   with extension mmm is removed all the same, also those listed after the failure, and the outcome says how
   many removals failed (exit 1 exactly when there was one). *)
Theorem keep_going_sweeps_everything : forall es : list entry, NoDup (map name es) ->
  clean_keep_going_only es =
  finish (filter spared es) (N.of_nat (length (filter doomed es))) (map name (filter doomed es))
         (N.of_nat (length (filter stuck es))).
Proof. intros es Hnd. exact (sweep_spec false es es Hnd Hnd (fun e => iff_refl _)). Qed.

(* d.mmm/ listed BEFORE a.mmm: the failure is counted, a.mmm is removed and reported, exit 1 *)
Example keep_going_witness :
  clean_keep_going_only [ {| name := [100; 46; 109; 109; 109]; ekind := KDir; content := 1 |};
                          {| name := [97; 46; 109; 109; 109]; ekind := KFile; content := 2 |} ]
  = Incomplete [ {| name := [100; 46; 109; 109; 109]; ekind := KDir; content := 1 |} ] 1 [ [97; 46; 109; 109; 109] ] 1.
Proof. vm_compute. reflexivity. Qed.

Definition f_dir_mmm : entry := {| name := [100; 46; 109; 109; 109]; ekind := KDir; content := 1 |}.  (* d.mmm/ *)
Definition f_a_mmm : entry := {| name := [97; 46; 109; 109; 109]; ekind := KFile; content := 2 |}.   (* a.mmm  *)

(* the code as found, before fixes/clean-skip-dirs.diff (F12), on a directory named d.mmm listed before a.mmm:
   the loop aborts with EISDIR and a.mmm survives *)
Theorem clean_unfixed_refuted :
  exists es, NoDup (map name es) /\ exists fs n m, clean_unfixed es = Aborted fs n m EISDIR /\ In f_a_mmm fs
             /\ doomed f_a_mmm = true.
Proof.
  exists [f_dir_mmm; f_a_mmm]. split.
  - repeat constructor; cbn; intuition discriminate.
  - exists [f_dir_mmm; f_a_mmm], 0, []. vm_compute. intuition.
Qed.
