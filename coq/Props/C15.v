(* C15 -- operands are evaluated left to right, once; logical operators short-circuit; no register is reused
   too early.

   FULL STATEMENT (DESIGN 5.15; not proved as a whole, kept visible):
     eval_order : forall e (any expression whose leaves are calls to logging functions, any depth),
        the sequence of `log` lines of Vm.run (compile e) = left-to-right, each leaf once;
        `a && b`, `a || b`, `(x) or y` skip as specified;
     regs_noninterference : compile_depth e (counter := c) writes only registers >= c; every register < c and
        every operand below the expression's own is preserved, including across calls.

   WHAT IS PROVED AND PINNED HERE (proofs: Compile/ExprBase.v, Compile/ExprSim.v):
   * for ALL expressions of the language (calls, self-calls, function literals included), statically:
       C15_only_instructions  cexpr never emits a break/continue placeholder,
       C15_regs_ge_d          every register bound (store_fast / store_skip) by the code of `cexpr d e` is #k, k >= d;
   * for ALL call-free expressions (literals, variables, all binary operators, && || !, unary -, `or`, `get`),
     at EVERY nesting depth, on the VM model (the `steps` below are the body of run_fn_gen's loop: C15_loop_tie):
       C15_cexpr_correct_partial   value / failure of the compiled code = value / failure of Lang.Eval.eval
                                   (so the FIRST failure in left-to-right order is the one that happens), the
                                   operand stack holds exactly the value, registers < d and all variables keep
                                   cell and value, nothing printed, frames unchanged in shape;
       C15_left_failure_first, C15_right_failure_second      evaluation order of binary operators;
       C15_and_false_skips_right, C15_or_true_skips_right, C15_nilor_nonnil_skips_right
                                   short-circuit with an ARBITRARY right operand (any expression, with calls):
                                   none of its instructions is executed (trace bound in `ext`);
       C15_regs_noninterference_partial   the dynamic register invariant;
       C15_once_in_order           every run above executes each instruction at most once, in address order
                                   (left operand's code strictly before the right operand's).
   MISSING for the full statement: operands that are calls (needs the statement-level simulation C01), hence the
   "each leaf once" log-sequence form; it is covered on every run by the correspondence of vlib/c15.py. *)
From MS Require Import Lang.Eval.
From MS Require Import Vm.Model Lang.Syntax Compile.Compile Verify.Sound Compile.ExprBase Compile.ExprSim.
From Coq Require Import Sorted.
Open Scope nat_scope.

(* ---------------------------------------------------------------- the reference semantics itself *)
Example C15_and_skips_rhs : forall fuel e s b, eval (S (S fuel)) e (EAnd (EBool false) b) s = EVal (RBool false) s.
Proof. intros. reflexivity. Qed.
Example C15_or_skips_rhs : forall fuel e s b, eval (S (S fuel)) e (EOr (EBool true) b) s = EVal (RBool true) s.
Proof. intros. reflexivity. Qed.
Print Assumptions C15_and_skips_rhs.

(* ---------------------------------------------------------------- static, ALL expressions *)
Check cexpr_only_instructions : forall path e d st, Forall is_CI (fst (cexpr path d e st)).
Theorem C15_only_instructions : forall path e d st, Forall is_CI (fst (cexpr path d e st)).
Proof. exact cexpr_only_instructions. Qed.
Print Assumptions C15_only_instructions.

Check cexpr_regs_ge_d : forall path e d st i n,
  In (CI i) (fst (cexpr path d e st)) -> writes_reg i = Some n -> exists k, n = reg k /\ d <= k.
Theorem C15_regs_ge_d : forall path e d st i n,
  In (CI i) (fst (cexpr path d e st)) -> writes_reg i = Some n -> exists k, n = reg k /\ d <= k.
Proof. exact cexpr_regs_ge_d. Qed.
Print Assumptions C15_regs_ge_d.

(* on the call-free fragment the generator emits instructions only and does not touch its state *)
Check cexpr_pure : forall path e, pure e = true -> forall d st, cexpr path d e st = (map CI (pcode d e), st).
Theorem C15_cexpr_pure : forall path e, pure e = true -> forall d st, cexpr path d e st = (map CI (pcode d e), st).
Proof. exact cexpr_pure. Qed.
Print Assumptions C15_cexpr_pure.

(* ---------------------------------------------------------------- the steps are the interpreter loop *)
Check loop_steps_running : forall name code rc callee n a g a' g', steps name code n (Running a g) = Running a' g' ->
  forall fuel, loop rc callee name code (n + fuel) a g = loop rc callee name code fuel a' g'.
Theorem C15_loop_tie : forall name code rc callee n a g,
  (forall a' g', steps name code n (Running a g) = Running a' g' ->
     forall fuel, loop rc callee name code (n + fuel) a g = loop rc callee name code fuel a' g') /\
  (forall e g', steps name code n (Running a g) = Failed e g' ->
     forall fuel, loop rc callee name code (n + fuel) a g = RFail e g').
Proof.
  intros. split; intros; [eapply loop_steps_running|eapply loop_steps_failed]; eassumption.
Qed.
Print Assumptions C15_loop_tie.
Check run_fn_gen_S.                                  (* run_fn_gen (S fuel) = that loop, by reflexivity *)

(* ---------------------------------------------------------------- dynamic, all call-free expressions *)
Theorem C15_cexpr_correct_partial : forall path e, pure e = true -> lits_ok e = true ->
  forall d st name pre post a g env s fuel,
  post <> [] -> small (d + length (code_of path d e st) + 3) ->
  a_ip a = length pre -> a_ops a = [] -> frames g <> [] ->
  Renv env s a g -> (forall x, In x (used_e e) -> var_ok env s x) ->
  let mid := code_of path d e st in
  let code := pre ++ mid ++ post in
  let fin := length pre + length mid in
  match eval fuel env e s with
  | EVal v s' => s' = s /\ first_order v /\ exists n g',
        steps name code n (Running a g) = Running (upd a fin [inj v]) g' /\
        Renv env s (upd a fin [inj v]) g' /\ regs_below_preserved d g g' /\ out g' = out g /\
        frames_same_shape g g' /\ ext d (length pre) fin g g'
  | EFail f s' => s' = s /\ exists n e g',
        steps name code n (Running a g) = Failed e g' /\ err_rel f e /\ out g' = out g /\
        ext d (length pre) fin g g'
  | EFuel => True
  | ENoVal _ => False
  end.
Proof. exact cexpr_correct. Qed.
Print Assumptions C15_cexpr_correct_partial.

Theorem C15_cexpr_correct_loop_partial : forall path e, pure e = true -> lits_ok e = true ->
  forall d st name pre post a g env s fuel rc callee,
  post <> [] -> small (d + length (code_of path d e st) + 3) ->
  a_ip a = length pre -> a_ops a = [] -> frames g <> [] ->
  Renv env s a g -> (forall x, In x (used_e e) -> var_ok env s x) ->
  let mid := code_of path d e st in
  let code := pre ++ mid ++ post in
  let fin := length pre + length mid in
  match eval fuel env e s with
  | EVal v _ => exists n g', (forall k, loop rc callee name code (n + k) a g = loop rc callee name code k (upd a fin [inj v]) g') /\
                             ext d (length pre) fin g g'
  | EFail f _ => exists n e g', (forall k, loop rc callee name code (n + k) a g = RFail e g') /\ err_rel f e /\ out g' = out g
  | EFuel => True
  | ENoVal _ => False
  end.
Proof. exact cexpr_correct_loop. Qed.
Print Assumptions C15_cexpr_correct_loop_partial.

(* what `ext d lo hi g g'` says (it is part of every statement above and below): *)
Check (eq_refl : own_reg = fun d x => exists k, d <= k /\ small k /\ x = reg k).
Check ext_cells : forall d lo hi g g', ext d lo hi g g' -> exists extra, cells g' = cells g ++ extra.
Check ext_find : forall d lo hi g g', ext d lo hi g g' ->
  forall x, ~ own_reg d x -> find_in_function x (frames g') = find_in_function x (frames g).
Check ext_out : forall d lo hi g g', ext d lo hi g g' -> out g' = out g.
Check ext_labs : forall d lo hi g g', ext d lo hi g g' -> map lab (frames g') = map lab (frames g).
Check ext_tail : forall d lo hi g g', ext d lo hi g g' -> tl (frames g') = tl (frames g).
(* "once, in address order": the executed instructions (new trace records, newest first) lie in [lo, hi), their
   ips strictly increase in execution order, hence no instruction is executed twice and the left operand's code
   runs entirely before the right operand's *)
Theorem C15_once_in_order : forall d lo hi g g', ext d lo hi g g' ->
  exists new, trace g' = new ++ trace g /\ Forall (fun ev => lo <= ev_ip ev < hi) new /\
              StronglySorted (fun x y => ev_ip y < ev_ip x) new /\ NoDup (map ev_ip new).
Proof. exact ext_once. Qed.
Print Assumptions C15_once_in_order.

(* evaluation order *)
Theorem C15_left_failure_first : forall path o ea eb, pure (EBin o ea eb) = true -> lits_ok (EBin o ea eb) = true ->
  forall d st name pre post a g env s fuel f,
  post <> [] -> small (d + length (code_of path d (EBin o ea eb) st) + 3) ->
  a_ip a = length pre -> a_ops a = [] -> frames g <> [] ->
  Renv env s a g -> (forall x, In x (used_e (EBin o ea eb)) -> var_ok env s x) ->
  eval fuel env ea s = EFail f s ->
  exists n e g', steps name (pre ++ code_of path d (EBin o ea eb) st ++ post) n (Running a g) = Failed e g' /\
                 err_rel f e /\ out g' = out g.
Proof. exact left_failure_first. Qed.
Print Assumptions C15_left_failure_first.

Theorem C15_right_failure_second : forall path o ea eb, pure (EBin o ea eb) = true -> lits_ok (EBin o ea eb) = true ->
  forall d st name pre post a g env s fuel va f,
  post <> [] -> small (d + length (code_of path d (EBin o ea eb) st) + 3) ->
  a_ip a = length pre -> a_ops a = [] -> frames g <> [] ->
  Renv env s a g -> (forall x, In x (used_e (EBin o ea eb)) -> var_ok env s x) ->
  eval fuel env ea s = EVal va s -> eval fuel env eb s = EFail f s ->
  exists n e g', steps name (pre ++ code_of path d (EBin o ea eb) st ++ post) n (Running a g) = Failed e g' /\
                 err_rel f e /\ out g' = out g.
Proof. exact right_failure_second. Qed.
Print Assumptions C15_right_failure_second.

(* short-circuit: `skip_stmt path e ea v` = whenever the call-free left operand ea evaluates to v, the code of e
   (ANY right operand) reaches its end with exactly [v] on the operand stack, having executed only instructions
   with ip < |pre| + |code ea| + 1 and bound only registers > d *)
Check (eq_refl : skip_stmt = fun path e ea v =>
  forall d st name pre post a g env s fuel,
  pure ea = true -> lits_ok ea = true ->
  post <> [] -> small (d + length (code_of path d e st) + 3) ->
  a_ip a = length pre -> a_ops a = [] -> frames g <> [] ->
  Renv env s a g -> (forall x, In x (used_e ea) -> var_ok env s x) ->
  eval fuel env ea s = EVal v s ->
  exists n g',
    steps name (pre ++ code_of path d e st ++ post) n (Running a g)
      = Running (upd a (length pre + length (code_of path d e st)) [inj v]) g' /\
    ext (S d) (length pre) (length pre + length (code_of path (S d) ea st) + 1) g g').
Theorem C15_and_false_skips_right : forall path ea eb, skip_stmt path (EAnd ea eb) ea (RBool false).
Proof. exact and_false_skips_right. Qed.
Print Assumptions C15_and_false_skips_right.
Theorem C15_or_true_skips_right : forall path ea eb, skip_stmt path (EOr ea eb) ea (RBool true).
Proof. exact or_true_skips_right. Qed.
Print Assumptions C15_or_true_skips_right.
Theorem C15_nilor_nonnil_skips_right : forall path ea eb v, v <> RNil -> skip_stmt path (ENilOr ea eb) ea v.
Proof. exact nilor_nonnil_skips_right. Qed.
Print Assumptions C15_nilor_nonnil_skips_right.

(* registers *)
Theorem C15_regs_noninterference_partial : forall path e, pure e = true -> lits_ok e = true ->
  forall d st name pre post a g env s fuel v,
  post <> [] -> small (d + length (code_of path d e st) + 3) ->
  a_ip a = length pre -> a_ops a = [] -> frames g <> [] ->
  Renv env s a g -> (forall x, In x (used_e e) -> var_ok env s x) ->
  eval fuel env e s = EVal v s ->
  exists n g', steps name (pre ++ code_of path d e st ++ post) n (Running a g)
                 = Running (upd a (length pre + length (code_of path d e st)) [inj v]) g' /\
    forall k c w, k < d -> find_in_function (reg k) (frames g) = Some c -> cell_get g c = Some w ->
                  find_in_function (reg k) (frames g') = Some c /\ cell_get g' c = Some w.
Proof. exact regs_noninterference. Qed.
Print Assumptions C15_regs_noninterference_partial.

(* the EFuel case of the statements above is excluded as soon as fuel exceeds the nesting depth *)
Theorem C15_eval_pure_fuel : forall e, pure e = true -> forall fuel env s, height e < fuel -> eval fuel env e s <> EFuel.
Proof. exact eval_pure_fuel. Qed.
Print Assumptions C15_eval_pure_fuel.

(* ---------------------------------------------------------------- non-vacuity *)
Definition nv_x : str := [120%N].
Definition nv_f : str := [102%N].
(* (1 + 2 * x < 10) && (!true || 7 % 4 == 3), nesting depth 5 *)
Definition nv_e1 : expr :=
  EAnd (EBin BLt (EBin BAdd (EInt 1) (EBin BMul (EInt 2) (EVar nv_x))) (EInt 10))
       (EOr (ENot (EBool true)) (EBin BEq (EBin BMod (EInt 7) (EInt 4)) (EInt 3))).
Definition nv_st : cst := {| fid := 0; lreg := 0; fbuf := [] |}.
Definition nv_ret : instr := {| op := OP_RET; args := [] |}.
Definition nv_g : gstate :=
  {| cells := [VInt 3]; frames := [{| lab := LFun nv_f; vars := [(nv_x, 0%N)] |}]; out := []; trace := [] |}.
Definition nv_a : act := act0 nv_f [] None.
Definition nv_env : fenv := {| locals := [[(nv_x, 0%N)]]; captured := []; cur := None |}.
Definition nv_s : rstate := {| store := [RInt 3]; rout := [] |}.
Definition nv_fin (r : rstatus) : option (nat * list value) :=
  match r with Running a _ => Some (a_ip a, a_ops a) | _ => None end.
Definition nv_err (r : rstatus) : option err := match r with Failed e _ => Some e | _ => None end.

(* the model VM runs the compiled code of e1 (35 instructions) to its end and holds exactly eval's value *)
Example C15_nonvacuous_deep :
  eval 10 nv_env nv_e1 nv_s = EVal (RBool true) nv_s /\
  length (code_of [] 0 nv_e1 nv_st) = 35 /\
  nv_fin (steps nv_f (code_of [] 0 nv_e1 nv_st ++ [nv_ret]) 35 (Running nv_a nv_g)) = Some (35, [inj (RBool true)]).
Proof. vm_compute. repeat split. Qed.

(* the hypotheses of the theorem are satisfiable: it applies to that instance *)
Example C15_nonvacuous_theorem_applies : exists n g',
  steps nv_f ([] ++ code_of [] 0 nv_e1 nv_st ++ [nv_ret]) n (Running nv_a nv_g)
    = Running (upd nv_a 35 [VBool true]) g' /\ regs_below_preserved 0 nv_g g' /\ out g' = [].
Proof.
  assert (Hv : forall x, In x (used_e nv_e1) -> var_ok nv_env nv_s x).
  { intros x [<-|[]]. split; [exact Logic.I|]. exists 0%N, (RInt 3). repeat split. }
  assert (HR : Renv nv_env nv_s nv_a nv_g).
  { intros x c v _ Hl Hg _.
    cbn [nv_env locals captured app lookup_scopes assoc] in Hl.
    destruct (str_eqb nv_x x) eqn:E; [|discriminate].
    apply str_eqb_eq in E. subst x. inversion Hl; subst c. cbn in Hg. inversion Hg; subst v.
    exists 0%N. split; reflexivity. }
  pose proof (C15_cexpr_correct_partial [] nv_e1 eq_refl eq_refl 0 nv_st nv_f [] [nv_ret] nv_a nv_g nv_env nv_s 10
                ltac:(discriminate) ltac:(vm_compute; reflexivity) eq_refl eq_refl ltac:(discriminate) HR Hv) as H.
  cbv zeta in H.
  change (eval 10 nv_env nv_e1 nv_s) with (EVal (RBool true) nv_s) in H.
  destruct H as (_ & _ & n & g' & Hn & _ & Hreg & Hout & _).
  exists n, g'. split; [exact Hn|]. split; [exact Hreg|exact Hout].
Qed.

(* short-circuit: `false && (1 / 0)` does not divide; `true && (1 / 0)` fails with the division error *)
Definition nv_e2 : expr := EAnd (EBool false) (EBin BDiv (EInt 1) (EInt 0)).
Definition nv_e3 : expr := EAnd (EBool true) (EBin BDiv (EInt 1) (EInt 0)).
Example C15_nonvacuous_skip :
  eval 10 nv_env nv_e2 nv_s = EVal (RBool false) nv_s /\
  nv_fin (steps nv_f (code_of [] 0 nv_e2 nv_st ++ [nv_ret]) 2 (Running nv_a nv_g))
    = Some (length (code_of [] 0 nv_e2 nv_st), [VBool false]) /\
  eval 10 nv_env nv_e3 nv_s = EFail FDivZero nv_s /\
  nv_err (steps nv_f (code_of [] 0 nv_e3 nv_st ++ [nv_ret]) 8 (Running nv_a nv_g)) = Some E_div_zero.
Proof. vm_compute. repeat split. Qed.

(* ---------------------------------------------------------------------------------------------
   The SOURCE-LEVEL statement for whole PROGRAMS, as a theorem on a decidable fragment (Compile/ClosFrag.v .. ClosTop.v,
   the fragment of C07_closure_programs_correct_partial widened by: `self(..)`; `&&` `||` `!` whose operands contain
   calls; `(a) or b` and `get a` whose operands contain calls; if / else).  Its programs are those of this check
   (vlib/c15.py: PRELUDE -- a module variable x, functions that print and return (bump modifies x), `rec` calling
   self -- followed by `print <expression tree>` statements built from + - * / % comparisons && || ! over CALLS,
   nested calls as arguments, `0 - e`).  For every such program the model compiler's code, run by the VM model,
   prints exactly the lines the reference semantics (Lang/Eval.v) prints and ends the same way.  Because every operand
   that is a call prints, equality of the printed lines IS the statement of C15 for these programs: operands are
   evaluated left to right, each exactly once; a variable operand keeps the value it had when it was evaluated although a
   later sibling modifies the variable; `a && b` / `a || b` do not evaluate b (the call is skipped: nothing is printed)
   when a decides; a division / remainder by zero stops both sides with the related error after the same output.
   The check evaluates the extracted `in_fragment` (= in_fragment1 || in_fragment2) on every program it generates.
   PARTIAL: programs outside the fragment (list / map / class forms, op-assignments: the extended streams of the check)
   are covered by the T1/T2/T3 correspondences and the Python oracle only. *)
From MS Require Import Lang.Eval Compile.Compile.
From MS Require Import Compile.ClosFrag Compile.ClosRel Compile.ClosSim Compile.ClosTop Compile.StmtSim Compile.StmtFragB Compile.StmtExamples Compile.ClosExamples2.
Check closure_module_correct.
Theorem C15_order_programs_correct_partial : forall (path : str) (p : source), in_fragment2 path p = true ->
  forall fuel : nat, snd (run fuel p) <> ROFuel ->
  no_claim (snd (run fuel p)) \/
  (exists fuel' : nat,
     fst (fst (execute fuel' (cprogram path p) (s_module_fn path))) = fst (run fuel p) /\
     vm_outcome_ok (snd (run fuel p)) (snd (fst (execute fuel' (cprogram path p) (s_module_fn path))))).
Proof. exact closure_module_correct. Qed.
Print Assumptions C15_order_programs_correct_partial.
(* the same on the union of the two proved fragments (what the check's in_fragment column evaluates) *)
Check fragment_correct.
(* expressions of any kind: operands in order, the parked left operand survives the calls on the right (espec_bin),
   short-circuit over calls (espec_logic), self calls (espec_self) *)
Check espec_all.
(* non-vacuity: the prelude of the check with `log(1) + two(log(2), bump(3)) * x`, `logb(4, false) && logb(5, true)`
   (5 is not printed), `||`, `!`, rec(2), pick(x, bump(12), x, bump(13)), x / bump(14), 0 - log(15): inside the fragment,
   VM == reference semantics, 31 lines; and the failure case `log(1) % zero()` *)
Check C15_nv_order_program.
Check C15_nv_division_by_zero.
Example C15_nv_in_fragment : in_fragment2 nvp nv_c15 = true /\ in_fragment nvp nv_c15 = true /\ in_fragment2 nvp nv_c15_div = true.
Proof. vm_compute. repeat split. Qed.
