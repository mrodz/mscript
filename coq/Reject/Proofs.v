(* C03 -- the checker of the core fragment is sound and complete for the declarative judgement;
   every single fault of the catalogue, at any site (any nesting depth), makes the program ill-typed. *)
From MS Require Import Reject.Typing.

Theorem type_of_sound :
  (forall e g t, type_of g e = Some t -> has_type g e t) /\
  (forall es g ps, check_args g es ps = true -> have_types g es ps).
Proof.
  apply expr_mutind.
  - intros n g t H. cbn in H. injection H as <-. constructor.
  - intros x g t H. cbn in H. constructor. exact H.
  - intros o a IHa b IHb g t. cbn [type_of].
    destruct (type_of g a) as [[ta| |]|] eqn:Ha; try discriminate.
    destruct (type_of g b) as [[tb| |]|] eqn:Hb; try discriminate.
    destruct (op_type o ta tb) as [r|] eqn:Ho; [|discriminate].
    intro H. injection H as <-. econstructor; eauto.
  - intros f args IH g t. cbn [type_of].
    destruct (lookup_all g f) as [[|n|ps [r|]]|] eqn:Hf; try discriminate.
    destruct (check_args g args ps) eqn:Hc; [|discriminate].
    intro H. injection H as <-. econstructor; eauto.
  - intros a IHa i IHi g t. cbn [type_of].
    destruct (type_of g a) as [[|n|]|] eqn:Ha; try discriminate.
    destruct (type_of g i) as [[[| | |]| |]|] eqn:Hi; try discriminate.
    intro H. injection H as <-. constructor; auto.
  - intros g ps H. destruct ps; [constructor|discriminate].
  - intros e IHe r IHr g ps. destruct ps as [|p ps]; [discriminate|]. cbn [check_args].
    destruct (type_of g e) as [[q| |]|] eqn:He; try discriminate.
    destruct (nty_eq_dec q p) as [->|]; [|discriminate].
    intro H. constructor; auto.
Qed.

Theorem type_of_complete :
  (forall g e t, has_type g e t -> type_of g e = Some t) /\
  (forall g es ps, have_types g es ps -> check_args g es ps = true).
Proof.
  apply has_type_mutind.
  - reflexivity.
  - intros g x t H. exact H.
  - intros g o a b ta tb tr _ IHa _ IHb Ho. cbn [type_of]. rewrite IHa, IHb, Ho. reflexivity.
  - intros g f args ps r Hf _ IH. cbn [type_of]. rewrite Hf, IH. reflexivity.
  - intros g a i n _ IHa _ IHi. cbn [type_of]. rewrite IHa, IHi. reflexivity.
  - reflexivity.
  - intros g e r p ps _ IHe _ IHr. cbn [check_args]. rewrite IHe.
    destruct (nty_eq_dec p p) as [_|N]; [exact IHr|contradiction].
Qed.

Lemma ann_ok_spec : forall ann t, ann_ok ann t = true <-> (ann = None \/ ann = Some t).
Proof.
  intros [a|] t; cbn.
  - destruct (ty_eq_dec a t) as [->|N]; split; intro H; auto; try discriminate.
    destruct H as [H|H]; [discriminate|]. injection H as ->. contradiction.
  - split; auto.
Qed.

Theorem check_sound_mut :
  (forall s g rc g', check_stmt g rc s = Some g' -> WTs g rc s g') /\
  (forall b g rc g', check_block g rc b = Some g' -> WTb g rc b g').
Proof.
  apply stmt_mutind.
  - intros x ann e g rc g'. cbn [check_stmt].
    destruct (type_of g e) as [t|] eqn:He; [|discriminate].
    destruct (ann_ok ann t) eqn:Ha; [|discriminate]. intro H.
    econstructor; [apply type_of_sound; exact He|apply ann_ok_spec; exact Ha|exact H].
  - intros x n es g rc g'. cbn [check_stmt].
    destruct (check_args g es (all_elems n es)) eqn:Hc; [|discriminate]. intro H.
    constructor; [apply type_of_sound; exact Hc|exact H].
  - intros c t IHt e IHe g rc g'. cbn [check_stmt].
    destruct (type_of g c) as [[[| | |]| |]|] eqn:Hc; try discriminate.
    destruct (check_block g rc t) as [g1|] eqn:Ht; [|discriminate].
    destruct (check_block g rc e) as [g2|] eqn:He; [|discriminate].
    intro H. injection H as <-. econstructor; [apply type_of_sound; exact Hc|eauto|eauto].
  - intros c b IHb g rc g'. cbn [check_stmt].
    destruct (type_of g c) as [[[| | |]| |]|] eqn:Hc; try discriminate.
    destruct (check_block g rc b) as [g1|] eqn:Hb; [|discriminate].
    intro H. injection H as <-. econstructor; [apply type_of_sound; exact Hc|eauto].
  - intros f ps r body IHb g rc g'. cbn [check_stmt].
    destruct (check_block (bind_params ps g) (Some r) body) as [g1|] eqn:Hb; [|discriminate].
    destruct (match r with None => true | Some _ => returns_b body end) eqn:Hr; [|discriminate].
    intro H. econstructor; [eauto| |exact H].
    destruct r; [right; exact Hr|left; reflexivity].
  - intros [e|] g rc g' H; cbn in H.
    + destruct rc as [[n|]|]; try discriminate.
      destruct (type_of g e) as [[q| |]|] eqn:He; try discriminate.
      destruct (nty_eq_dec q n) as [->|]; [|discriminate]. injection H as <-.
      constructor. apply type_of_sound. exact He.
    + destruct rc as [[n|]|]; try discriminate. injection H as <-. constructor.
  - intros f args g rc g'. cbn [check_stmt].
    destruct (lookup_all g f) as [[|n|ps r]|] eqn:Hf; try discriminate.
    destruct (check_args g args ps) eqn:Hc; [|discriminate].
    intro H. injection H as <-. econstructor; [exact Hf|apply type_of_sound; exact Hc].
  - intros g rc g' H. cbn in H. injection H as <-. constructor.
  - intros s IHs b IHb g rc g'. cbn [check_block].
    destruct (check_stmt g rc s) as [g1|] eqn:Hs; [|discriminate]. intro H.
    econstructor; eauto.
Qed.

Theorem check_complete_mut :
  (forall g rc s g', WTs g rc s g' -> check_stmt g rc s = Some g') /\
  (forall g rc b g', WTb g rc b g' -> check_block g rc b = Some g').
Proof.
  apply WT_mutind.
  - intros g rc x ann e t g' He Ha Hs. cbn [check_stmt]. rewrite (proj1 type_of_complete _ _ _ He).
    apply ann_ok_spec in Ha. rewrite Ha. exact Hs.
  - intros g rc x n es g' He Hs. cbn [check_stmt]. rewrite (proj2 type_of_complete _ _ _ He). exact Hs.
  - intros g rc c t e g1 g2 Hc _ IHt _ IHe. cbn [check_stmt]. rewrite (proj1 type_of_complete _ _ _ Hc), IHt, IHe. reflexivity.
  - intros g rc c b g1 Hc _ IHb. cbn [check_stmt]. rewrite (proj1 type_of_complete _ _ _ Hc), IHb. reflexivity.
  - intros g rc f ps r body g1 g' _ IHb Hr Hs. cbn [check_stmt]. rewrite IHb.
    destruct r as [n|]; [|exact Hs]. destruct Hr as [Hr|Hr]; [discriminate|]. rewrite Hr. exact Hs.
  - reflexivity.
  - intros g n e He. cbn. rewrite (proj1 type_of_complete _ _ _ He).
    destruct (nty_eq_dec n n) as [_|N]; [reflexivity|contradiction].
  - intros g rc f args ps r Hf Ha. cbn [check_stmt]. rewrite Hf, (proj2 type_of_complete _ _ _ Ha). reflexivity.
  - reflexivity.
  - intros g rc s b g1 g2 _ IHs _ IHb. cbn [check_block]. rewrite IHs. exact IHb.
Qed.

Theorem check_sound : forall p, check_prog p = true -> WT p.
Proof.
  intros p H. unfold check_prog in H. destruct (check_block [] None p) as [g'|] eqn:Hb; [|discriminate].
  exists g'. apply check_sound_mut. exact Hb.
Qed.

Theorem check_complete : forall p, WT p -> check_prog p = true.
Proof.
  intros p [g' H]. unfold check_prog. rewrite (proj2 check_complete_mut _ _ _ _ H). reflexivity.
Qed.

Inductive bad_expr : env -> expr -> Prop :=
| BE_unknown_name : forall g y, lookup_all g y = None -> bad_expr g (EVar y)
| BE_operator : forall g o a b ta tb,
    has_type g a (TN ta) -> has_type g b (TN tb) -> op_type o ta tb = None -> bad_expr g (EBin o a b)
| BE_operand_l : forall g o a b t, has_type g a t -> (forall n, t <> TN n) -> bad_expr g (EBin o a b)
| BE_operand_r : forall g o a b t, has_type g b t -> (forall n, t <> TN n) -> bad_expr g (EBin o a b)
| BE_call_unknown : forall g f args, lookup_all g f = None -> bad_expr g (ECall f args)
| BE_call_non_callable : forall g f args t,
    lookup_all g f = Some t -> (forall ps r, t <> TFn ps r) -> bad_expr g (ECall f args)
| BE_call_void : forall g f args ps, lookup_all g f = Some (TFn ps None) -> bad_expr g (ECall f args)
| BE_call_args : forall g f args ps r,
    lookup_all g f = Some (TFn ps r) -> bad_args g args ps -> bad_expr g (ECall f args)
| BE_index_non_indexable : forall g a i t, has_type g a t -> (forall n, t <> TList n) -> bad_expr g (EIndex a i)
| BE_index_non_index : forall g a i t, has_type g i t -> t <> TN NInt -> bad_expr g (EIndex a i)
| BE_in_bin_l : forall g o a b, bad_expr g a -> bad_expr g (EBin o a b)
| BE_in_bin_r : forall g o a b, bad_expr g b -> bad_expr g (EBin o a b)
| BE_in_index_l : forall g a i, bad_expr g a -> bad_expr g (EIndex a i)
| BE_in_index_r : forall g a i, bad_expr g i -> bad_expr g (EIndex a i)
with bad_args : env -> exprs -> list nty -> Prop :=
| BA_too_many : forall g e r, bad_args g (XCons e r) []
| BA_too_few : forall g p ps, bad_args g XNil (p :: ps)
| BA_wrong_type : forall g e r p ps t, has_type g e t -> t <> TN p -> bad_args g (XCons e r) (p :: ps)
| BA_bad_expr : forall g e r p ps, bad_expr g e -> bad_args g (XCons e r) (p :: ps)
| BA_later : forall g e r p ps, bad_args g r ps -> bad_args g (XCons e r) (p :: ps).

Scheme bad_expr_mut := Induction for bad_expr Sort Prop
  with bad_args_mut := Induction for bad_args Sort Prop.
Combined Scheme bad_mutind from bad_expr_mut, bad_args_mut.

(* typings of subterms are turned into the checker's results by completeness *)
Theorem bad_untyped :
  (forall g e, bad_expr g e -> type_of g e = None) /\
  (forall g es ps, bad_args g es ps -> check_args g es ps = false).
Proof.
  pose proof (proj1 type_of_complete) as tc. apply bad_mutind.
  - intros g y Hy. exact Hy.
  - intros g o a b ta tb Ha Hb Ho. cbn [type_of]. rewrite (tc _ _ _ Ha), (tc _ _ _ Hb), Ho. reflexivity.
  - intros g o a b t Ha Hn. cbn [type_of]. rewrite (tc _ _ _ Ha). destruct t as [n| |]; [destruct (Hn n eq_refl)|reflexivity ..].
  - intros g o a b t Hb Hn. cbn [type_of]. rewrite (tc _ _ _ Hb). destruct t as [n| |]; [destruct (Hn n eq_refl)| |];
      destruct (type_of g a) as [[| |]|]; reflexivity.
  - intros g f args Hf. cbn [type_of]. rewrite Hf. reflexivity.
  - intros g f args t Hf Hn. cbn [type_of]. rewrite Hf. destruct t as [| |ps r]; [reflexivity ..|destruct (Hn ps r eq_refl)].
  - intros g f args ps Hf. cbn [type_of]. rewrite Hf. reflexivity.
  - intros g f args ps r Hf _ IH. cbn [type_of]. rewrite Hf, IH. destruct r; reflexivity.
  - intros g a i t Ha Hn. cbn [type_of]. rewrite (tc _ _ _ Ha). destruct t as [|n|]; [|destruct (Hn n eq_refl)|]; reflexivity.
  - intros g a i t Hi Hn. cbn [type_of]. rewrite (tc _ _ _ Hi). destruct (type_of g a) as [[|n|]|]; try reflexivity.
    destruct t as [[| | |]| |]; try reflexivity. destruct (Hn eq_refl).
  - intros g o a b _ IH. cbn [type_of]. rewrite IH. reflexivity.
  - intros g o a b _ IH. cbn [type_of]. rewrite IH. destruct (type_of g a) as [[| |]|]; reflexivity.
  - intros g a i _ IH. cbn [type_of]. rewrite IH. reflexivity.
  - intros g a i _ IH. cbn [type_of]. rewrite IH. destruct (type_of g a) as [[| |]|]; reflexivity.
  - reflexivity.
  - reflexivity.
  - intros g e r p ps t He Hn. cbn [check_args]. rewrite (tc _ _ _ He). destruct t as [q| |]; try reflexivity.
    destruct (nty_eq_dec q p) as [->|]; [destruct (Hn eq_refl)|reflexivity].
  - intros g e r p ps _ IH. cbn [check_args]. rewrite IH. reflexivity.
  - intros g e r p ps _ IH. cbn [check_args]. rewrite IH. destruct (type_of g e) as [[q| |]|]; try reflexivity.
    destruct (nty_eq_dec q p); reflexivity.
Qed.

(* s' is statement s with ONE type-breaking edit of the catalogue, ill-typed in environment g *)
Inductive fault_at : env -> rctx -> stmt -> stmt -> Prop :=
| F_wrong_init : forall g rc x t e e' t',
    has_type g e' t' -> t' <> t -> fault_at g rc (SSet x (Some t) e) (SSet x (Some t) e')
| F_wrong_reassign : forall g rc x ann ann' e e' t0 t',
    lookup_fn g x = Some t0 -> has_type g e' t' -> t' <> t0 -> fault_at g rc (SSet x ann e) (SSet x ann' e')
| F_set_bad_expr : forall g rc x ann e e', bad_expr g e' -> fault_at g rc (SSet x ann e) (SSet x ann e')
| F_list_elem : forall g rc x n es es',
    bad_args g es' (all_elems n es') -> fault_at g rc (SSetList x n es) (SSetList x n es')
| F_if_cond : forall g rc c c' t e t', has_type g c' t' -> t' <> TN NBool -> fault_at g rc (SIf c t e) (SIf c' t e)
| F_if_bad_expr : forall g rc c c' t e, bad_expr g c' -> fault_at g rc (SIf c t e) (SIf c' t e)
| F_while_cond : forall g rc c c' b t', has_type g c' t' -> t' <> TN NBool -> fault_at g rc (SWhile c b) (SWhile c' b)
| F_while_bad_expr : forall g rc c c' b, bad_expr g c' -> fault_at g rc (SWhile c b) (SWhile c' b)
| F_wrong_return : forall g n e e' t',
    has_type g e' t' -> t' <> TN n -> fault_at g (Some (Some n)) (SReturn (Some e)) (SReturn (Some e'))
| F_return_bad_expr : forall g rc e e', bad_expr g e' -> fault_at g rc (SReturn (Some e)) (SReturn (Some e'))
| F_missing_return_value : forall g n e, fault_at g (Some (Some n)) (SReturn (Some e)) (SReturn None)
| F_value_from_void : forall g e', fault_at g (Some None) (SReturn None) (SReturn (Some e'))
| F_missing_return : forall g rc f ps n body body',
    returns_b body' = false -> fault_at g rc (SFn f ps (Some n) body) (SFn f ps (Some n) body')
| F_call_args : forall g rc f args args' ps r,
    lookup_all g f = Some (TFn ps r) -> bad_args g args' ps -> fault_at g rc (SCall f args) (SCall f args')
| F_call_unknown : forall g rc f f' args, lookup_all g f' = None -> fault_at g rc (SCall f args) (SCall f' args)
| F_call_non_callable : forall g rc f f' args t,
    lookup_all g f' = Some t -> (forall ps r, t <> TFn ps r) -> fault_at g rc (SCall f args) (SCall f' args).

Theorem fault_unchecked : forall g rc s s', fault_at g rc s s' -> check_stmt g rc s' = None.
Proof.
  pose proof (proj1 type_of_complete) as tc. pose proof (proj1 bad_untyped) as be.
  intros g rc s s' F. destruct F; cbn [check_stmt].
  - (* wrong init *)
    rewrite (tc _ _ _ H). cbn [ann_ok]. destruct (ty_eq_dec t t'); [congruence|reflexivity].
  - (* wrong reassign *)
    rewrite (tc _ _ _ H0). destruct (ann_ok ann' t'); [|reflexivity].
    unfold set_env. rewrite H. destruct (ty_eq_dec t0 t'); [congruence|reflexivity].
  - rewrite (be _ _ H). reflexivity.
  - rewrite (proj2 bad_untyped _ _ _ H). reflexivity.
  - rewrite (tc _ _ _ H). destruct t' as [[| | |]| |]; try reflexivity. destruct (H0 eq_refl).
  - rewrite (be _ _ H). reflexivity.
  - rewrite (tc _ _ _ H). destruct t' as [[| | |]| |]; try reflexivity. destruct (H0 eq_refl).
  - rewrite (be _ _ H). reflexivity.
  - (* wrong return *)
    rewrite (tc _ _ _ H). destruct t' as [q| |]; try reflexivity.
    destruct (nty_eq_dec q n) as [->|]; [destruct (H0 eq_refl)|reflexivity].
  - rewrite (be _ _ H). destruct rc as [[|]|]; reflexivity.
  - reflexivity.
  - reflexivity.
  - (* missing return *)
    rewrite H. destruct (check_block (bind_params ps g) (Some (Some n)) body'); reflexivity.
  - rewrite H, (proj2 bad_untyped _ _ _ H0). reflexivity.
  - rewrite H. reflexivity.
  - rewrite H. destruct t as [| |ps r]; [reflexivity ..|destruct (H0 ps r eq_refl)].
Qed.

(* exactly one statement, anywhere in the block (any nesting depth), carries a fault; the statements before
   it are well typed, which determines the environment at the site *)
Inductive mut_block : env -> rctx -> block -> block -> Prop :=
| MB_here : forall g rc s s' b, fault_at g rc s s' -> mut_block g rc (BCons s b) (BCons s' b)
| MB_inside : forall g rc s s' b, mut_stmt g rc s s' -> mut_block g rc (BCons s b) (BCons s' b)
| MB_later : forall g rc s g1 b b', WTs g rc s g1 -> mut_block g1 rc b b' -> mut_block g rc (BCons s b) (BCons s b')
with mut_stmt : env -> rctx -> stmt -> stmt -> Prop :=
| MS_then : forall g rc c t t' e, mut_block g rc t t' -> mut_stmt g rc (SIf c t e) (SIf c t' e)
| MS_else : forall g rc c t e e', mut_block g rc e e' -> mut_stmt g rc (SIf c t e) (SIf c t e')
| MS_while : forall g rc c b b', mut_block g rc b b' -> mut_stmt g rc (SWhile c b) (SWhile c b')
| MS_fn : forall g rc f ps r body body',
    mut_block (bind_params ps g) (Some r) body body' -> mut_stmt g rc (SFn f ps r body) (SFn f ps r body').

Scheme mut_block_mut := Induction for mut_block Sort Prop
  with mut_stmt_mut := Induction for mut_stmt Sort Prop.
Combined Scheme mut_mutind from mut_block_mut, mut_stmt_mut.

Theorem mutant_unchecked :
  (forall g rc b b', mut_block g rc b b' -> check_block g rc b' = None) /\
  (forall g rc s s', mut_stmt g rc s s' -> check_stmt g rc s' = None).
Proof.
  apply mut_mutind.
  - intros g rc s s' b F. cbn [check_block]. rewrite (fault_unchecked _ _ _ _ F). reflexivity.
  - intros g rc s s' b _ IH. cbn [check_block]. rewrite IH. reflexivity.
  - intros g rc s g1 b b' Hs _ IH. cbn [check_block]. rewrite (proj1 check_complete_mut _ _ _ _ Hs). exact IH.
  - intros g rc c t t' e _ IH. cbn [check_stmt]. rewrite IH. destruct (type_of g c) as [[[| | |]| |]|]; reflexivity.
  - intros g rc c t e e' _ IH. cbn [check_stmt]. rewrite IH.
    destruct (type_of g c) as [[[| | |]| |]|]; try reflexivity. destruct (check_block g rc t); reflexivity.
  - intros g rc c b b' _ IH. cbn [check_stmt]. rewrite IH. destruct (type_of g c) as [[[| | |]| |]|]; reflexivity.
  - intros g rc f ps r body body' _ IH. cbn [check_stmt]. rewrite IH. reflexivity.
Qed.

(* C03 on the fragment: every single catalogue fault, at every site, breaks well-typedness *)
Theorem fault_breaks : forall p p', WT p -> mut_block [] None p p' -> ~ WT p'.
Proof.
  intros p p' _ M W. apply check_complete in W. unfold check_prog in W.
  rewrite (proj1 mutant_unchecked _ _ _ _ M) in W. discriminate.
Qed.

(* hence it is rejected by the checker, and by any checker that is sound for WT *)
Corollary fault_rejected : forall p p', WT p -> mut_block [] None p p' -> check_prog p' = false.
Proof.
  intros p p' Hp M. destruct (check_prog p') eqn:E; [|reflexivity].
  exfalso. eapply fault_breaks; eauto. apply check_sound. exact E.
Qed.
