(* C03 -- model of src/main.rs: `compile()` and the `Commands::Run` arm, over an ABSTRACT compiler.

   fn compile(..) -> Result<Option<Rc<MScriptFile>>> {
       match compile_file(..) {
           Err(errors) => { for error in &errors { println!("{error:?}") }      // diagnostics, on stdout
                            bail!("Did not compile successfully ({cerr} Error{s})") }
           Ok(product) => Ok(product) } }
   Run: thread { let product = compile(..)?;  ...  Program::new_from_file(product).execute() }
        an Err of the thread closure becomes `Error: ...` on stderr and a failing exit status (anyhow main).

   The compiler (`compile_file`) and the interpreter (`execute`) are section variables: the theorem holds for
   every compiler and says that NO execution event happens when the compiler returns diagnostics. *)
From Coq Require Import List.
Import ListNotations.

Section Cli.
Variables source diag prog line : Type.
Variable compile_file : source -> list diag + prog.          (* Err(errors) | Ok(product) *)
Variable execute : prog -> list line * bool.                 (* program output, finished without run-time error *)
Variable render : diag -> line.                              (* "{error:?}" : ` --> file:line:col ...` *)
Variable summary : nat -> line.                              (* "Did not compile successfully (n Errors)" *)
Variable crash_banner : line.

Inductive exit_status := ExitSuccess | ExitFailure.

Inductive event := EvDiagnostic (d : diag) | EvExecute (p : prog).

Record outcome := mkOutcome {
  diagnostics : list line;        (* printed by compile() *)
  program_output : list line;     (* printed by the running program *)
  stderr_lines : list line;
  status : exit_status;
  events : list event
}.

(* src/main.rs compile() *)
Definition compile (src : source) : (list line * list event * nat) + prog :=
  match compile_file src with
  | inl errors => inl (map render errors, map EvDiagnostic errors, length errors)
  | inr product => inr product
  end.

(* src/main.rs main(), Commands::Run *)
Definition run (src : source) : outcome :=
  match compile src with
  | inl (printed, evs, n) =>                      (* `?` leaves the closure before Program::new_from_file *)
      mkOutcome printed [] [summary n] ExitFailure evs
  | inr product =>
      let '(out, ok) := execute product in
      mkOutcome [] out (if ok then [] else [crash_banner]) (if ok then ExitSuccess else ExitFailure)
                [EvExecute product]
  end.

Definition executes (o : outcome) : Prop := exists p, In (EvExecute p) (events o).

(* the "no statement of the program is executed" half of C03, for all sources and all compilers *)
Theorem rejected_never_runs : forall src ds,
  compile_file src = inl ds ->
  run src = mkOutcome (map render ds) [] [summary (length ds)] ExitFailure (map EvDiagnostic ds)
  /\ ~ executes (run src).
Proof.
  intros src ds H. unfold run, compile. rewrite H. split; [reflexivity|].
  intros [p Hp]. cbn [events] in Hp. apply in_map_iff in Hp as [d [Hd _]]. discriminate.
Qed.

Theorem runs_only_accepted : forall src, executes (run src) -> exists p, compile_file src = inr p.
Proof.
  intros src Hex. destruct (compile_file src) as [ds|q] eqn:E; [|exists q; reflexivity].
  destruct (proj2 (rejected_never_runs src ds E) Hex).
Qed.

End Cli.
