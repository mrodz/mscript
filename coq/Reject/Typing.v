(* C03 -- a core fragment of MScript with a DECLARATIVE typing judgement, an executable checker, and the
   catalogue of single type-breaking edits ("faults").

   FRAGMENT (exactly):  types int, float, str, bool, [T...] of those, fn(T,..) [-> T] over those;
     expressions: literals, variables, binary operators + - * < == && on the native types (result table =
       the relevant cells of TypeLayout::get_output_type), calls of a named function variable with exact arity,
       list indexing by an int;
     statements: `x [: T] = e` (declares x, or re-assigns it when x already exists IN THE CURRENT FUNCTION: the
       type must then be unchanged), `x: [T...] = [e, ..]`, if / else, while, function definition
       `f = fn(p: T, ..) [-> T] { .. }`, `return [e]`, call statement.
   Assignability is type equality (TypeLayout::eq_complex has no implicit widening on this fragment).
   A function with a declared return type must end in a `return` or in an if/else whose branches both do.
   OUTSIDE the fragment (search only, see vlib/c03.py): classes, methods, closures captured by reference,
   maps, optionals, aliases, modules, else-if chains, from-loops, unary operators, bigint/byte. *)
From Coq Require Export List Arith Bool.
Export ListNotations.

Inductive nty := NInt | NFloat | NStr | NBool.
Inductive ty := TN (n : nty) | TList (n : nty) | TFn (ps : list nty) (r : option nty).
Inductive op := OAdd | OSub | OMul | OLt | OEq | OAnd.

Definition nty_eq_dec : forall a b : nty, {a = b} + {a <> b}.
Proof. decide equality. Defined.
Definition ty_eq_dec : forall a b : ty, {a = b} + {a <> b}.
Proof. decide equality; try apply nty_eq_dec; try (apply list_eq_dec; apply nty_eq_dec).
       decide equality. apply nty_eq_dec. Defined.

Definition numeric (n : nty) : bool := match n with NInt | NFloat => true | _ => false end.
Definition num_join (a b : nty) : nty := match a, b with NInt, NInt => NInt | _, _ => NFloat end.

(* the cells of get_output_type (compiler/src/ast/type.rs) for these operators and kinds *)
Definition op_type (o : op) (a b : nty) : option nty :=
  match o with
  | OAdd => match a, b with
            | NStr, _ | _, NStr => Some NStr
            | _, _ => if numeric a && numeric b then Some (num_join a b) else None
            end
  | OSub => if numeric a && numeric b then Some (num_join a b) else None
  | OMul => match a, b with
            | NStr, NInt | NInt, NStr => Some NStr
            | _, _ => if numeric a && numeric b then Some (num_join a b) else None
            end
  | OLt => if numeric a && numeric b then Some NBool else None
  | OEq => if numeric a && numeric b then Some NBool
           else if nty_eq_dec a b then Some NBool else None
  | OAnd => match a, b with NBool, NBool => Some NBool | _, _ => None end
  end.

Inductive expr :=
| ELit (n : nty)
| EVar (x : nat)
| EBin (o : op) (a b : expr)
| ECall (f : nat) (args : exprs)
| EIndex (a i : expr)
with exprs :=
| XNil
| XCons (e : expr) (r : exprs).

Inductive stmt :=
| SSet (x : nat) (ann : option ty) (e : expr)
| SSetList (x : nat) (n : nty) (es : exprs)
| SIf (c : expr) (t e : block)
| SWhile (c : expr) (b : block)
| SFn (f : nat) (ps : list (nat * nty)) (r : option nty) (body : block)
| SReturn (e : option expr)
| SCall (f : nat) (args : exprs)
with block :=
| BNil
| BCons (s : stmt) (b : block).

Scheme expr_mut := Induction for expr Sort Prop
  with exprs_mut := Induction for exprs Sort Prop.
Combined Scheme expr_mutind from expr_mut, exprs_mut.
Scheme stmt_mut := Induction for stmt Sort Prop
  with block_mut := Induction for block Sort Prop.
Combined Scheme stmt_mutind from stmt_mut, block_mut.

Inductive entry := Bind (x : nat) (t : ty) | Barrier.      (* Barrier = function boundary *)
Definition env := list entry.

Fixpoint lookup_all (g : env) (x : nat) : option ty :=       (* reads: lexical *)
  match g with
  | [] => None
  | Bind y t :: r => if Nat.eqb y x then Some t else lookup_all r x
  | Barrier :: r => lookup_all r x
  end.

Fixpoint lookup_fn (g : env) (x : nat) : option ty :=        (* assignment: the current function only *)
  match g with
  | [] => None
  | Bind y t :: r => if Nat.eqb y x then Some t else lookup_fn r x
  | Barrier :: _ => None
  end.

Definition bind_params (ps : list (nat * nty)) (g : env) : env :=
  fold_left (fun acc p => Bind (fst p) (TN (snd p)) :: acc) ps (Barrier :: g).

(* the return context: None = not inside a function; Some r = inside a function declared `-> r` / void *)
Definition rctx := option (option nty).

Inductive has_type : env -> expr -> ty -> Prop :=
| HT_lit : forall g n, has_type g (ELit n) (TN n)
| HT_var : forall g x t, lookup_all g x = Some t -> has_type g (EVar x) t
| HT_bin : forall g o a b ta tb tr,
    has_type g a (TN ta) -> has_type g b (TN tb) -> op_type o ta tb = Some tr ->
    has_type g (EBin o a b) (TN tr)
| HT_call : forall g f args ps r,
    lookup_all g f = Some (TFn ps (Some r)) -> have_types g args ps ->
    has_type g (ECall f args) (TN r)
| HT_index : forall g a i n,
    has_type g a (TList n) -> has_type g i (TN NInt) -> has_type g (EIndex a i) (TN n)
with have_types : env -> exprs -> list nty -> Prop :=
| HTs_nil : forall g, have_types g XNil []
| HTs_cons : forall g e r p ps, has_type g e (TN p) -> have_types g r ps -> have_types g (XCons e r) (p :: ps).

Scheme has_type_mut := Induction for has_type Sort Prop
  with have_types_mut := Induction for have_types Sort Prop.
Combined Scheme has_type_mutind from has_type_mut, have_types_mut.

Definition set_env (g : env) (x : nat) (t : ty) : option env :=
  match lookup_fn g x with
  | None => Some (Bind x t :: g)
  | Some t0 => if ty_eq_dec t0 t then Some g else None
  end.

(* position does not matter: the compiler marks the scope when it meets a `return e` or an if/else whose two
   branches both return; a `while` or an `if` without `else` never counts *)
Fixpoint returns_b (b : block) : bool :=
  match b with
  | BNil => false
  | BCons s r =>
      match s with
      | SReturn (Some _) => true
      | SIf _ t e => returns_b t && returns_b e
      | _ => false
      end || returns_b r
  end.

Fixpoint all_elems (n : nty) (es : exprs) : list nty :=
  match es with XNil => [] | XCons _ r => n :: all_elems n r end.

Inductive WTs : env -> rctx -> stmt -> env -> Prop :=
| WT_set : forall g rc x ann e t g',
    has_type g e t -> (ann = None \/ ann = Some t) -> set_env g x t = Some g' ->
    WTs g rc (SSet x ann e) g'
| WT_setlist : forall g rc x n es g',
    have_types g es (all_elems n es) -> set_env g x (TList n) = Some g' ->
    WTs g rc (SSetList x n es) g'
| WT_if : forall g rc c t e g1 g2,
    has_type g c (TN NBool) -> WTb g rc t g1 -> WTb g rc e g2 -> WTs g rc (SIf c t e) g
| WT_while : forall g rc c b g1,
    has_type g c (TN NBool) -> WTb g rc b g1 -> WTs g rc (SWhile c b) g
| WT_fn : forall g rc f ps r body g1 g',
    WTb (bind_params ps g) (Some r) body g1 ->
    (r = None \/ returns_b body = true) ->
    set_env g f (TFn (map snd ps) r) = Some g' ->
    WTs g rc (SFn f ps r body) g'
| WT_return_void : forall g, WTs g (Some None) (SReturn None) g
| WT_return_val : forall g n e, has_type g e (TN n) -> WTs g (Some (Some n)) (SReturn (Some e)) g
| WT_call : forall g rc f args ps r,
    lookup_all g f = Some (TFn ps r) -> have_types g args ps -> WTs g rc (SCall f args) g
with WTb : env -> rctx -> block -> env -> Prop :=
| WTb_nil : forall g rc, WTb g rc BNil g
| WTb_cons : forall g rc s b g1 g2, WTs g rc s g1 -> WTb g1 rc b g2 -> WTb g rc (BCons s b) g2.

Scheme WTs_mut := Induction for WTs Sort Prop
  with WTb_mut := Induction for WTb Sort Prop.
Combined Scheme WT_mutind from WTs_mut, WTb_mut.

Definition WT (p : block) : Prop := exists g', WTb [] None p g'.

Fixpoint type_of (g : env) (e : expr) : option ty :=
  match e with
  | ELit n => Some (TN n)
  | EVar x => lookup_all g x
  | EBin o a b =>
      match type_of g a, type_of g b with
      | Some (TN ta), Some (TN tb) => match op_type o ta tb with Some r => Some (TN r) | None => None end
      | _, _ => None
      end
  | ECall f args =>
      match lookup_all g f with
      | Some (TFn ps (Some r)) => if check_args g args ps then Some (TN r) else None
      | _ => None
      end
  | EIndex a i =>
      match type_of g a, type_of g i with
      | Some (TList n), Some (TN NInt) => Some (TN n)
      | _, _ => None
      end
  end
with check_args (g : env) (es : exprs) (ps : list nty) : bool :=
  match es, ps with
  | XNil, [] => true
  | XCons e r, p :: ps' =>
      match type_of g e with
      | Some (TN q) => if nty_eq_dec q p then check_args g r ps' else false
      | _ => false
      end
  | _, _ => false
  end.

Definition ann_ok (ann : option ty) (t : ty) : bool :=
  match ann with None => true | Some a => if ty_eq_dec a t then true else false end.

Fixpoint check_stmt (g : env) (rc : rctx) (s : stmt) : option env :=
  match s with
  | SSet x ann e =>
      match type_of g e with
      | Some t => if ann_ok ann t then set_env g x t else None
      | None => None
      end
  | SSetList x n es => if check_args g es (all_elems n es) then set_env g x (TList n) else None
  | SIf c t e =>
      match type_of g c with
      | Some (TN NBool) =>
          match check_block g rc t, check_block g rc e with
          | Some _, Some _ => Some g
          | _, _ => None
          end
      | _ => None
      end
  | SWhile c b =>
      match type_of g c with
      | Some (TN NBool) => match check_block g rc b with Some _ => Some g | None => None end
      | _ => None
      end
  | SFn f ps r body =>
      match check_block (bind_params ps g) (Some r) body with
      | Some _ =>
          if match r with None => true | Some _ => returns_b body end
          then set_env g f (TFn (map snd ps) r) else None
      | None => None
      end
  | SReturn None => match rc with Some None => Some g | _ => None end
  | SReturn (Some e) =>
      match rc, type_of g e with
      | Some (Some n), Some (TN q) => if nty_eq_dec q n then Some g else None
      | _, _ => None
      end
  | SCall f args =>
      match lookup_all g f with
      | Some (TFn ps _) => if check_args g args ps then Some g else None
      | _ => None
      end
  end
with check_block (g : env) (rc : rctx) (b : block) : option env :=
  match b with
  | BNil => Some g
  | BCons s r => match check_stmt g rc s with Some g1 => check_block g1 rc r | None => None end
  end.

Definition check_prog (p : block) : bool :=
  match check_block [] None p with Some _ => true | None => false end.
