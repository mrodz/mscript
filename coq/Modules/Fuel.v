(* The loader model never runs out of fuel when given at least as much fuel as the project has modules:
   every nested load registers a module of the project that was not in the cache, so the nesting depth is
   bounded by the number of modules (this is also why the real loader terminates on cyclic imports).
   Hence `run fuel g = Ok st` (the hypothesis of the C11 theorems) or an explicit error - never OutOfFuel. *)
From Coq Require Import PeanoNat.
From MS Require Import Base.Str Modules.Model Modules.Proofs.

Definition uncached_b (c : list (mod_id * nat)) (k : mod_id) : bool :=
  match lookup k c with None => true | Some _ => false end.

Definition keys (g : project) : list mod_id := nodup N.eq_dec (map fst (modules g)).

Definition mu (g : project) (c : list (mod_id * nat)) : nat := length (filter (uncached_b c) (keys g)).

Definition sub (c c' : list (mod_id * nat)) : Prop := forall k, uncached_b c' k = true -> uncached_b c k = true.

Lemma sub_refl c : sub c c.
Proof. intros k H. exact H. Qed.

Lemma sub_trans a b c : sub a b -> sub b c -> sub a c.
Proof. intros H1 H2 k H. apply H1. apply H2. exact H. Qed.

Lemma sub_cons c m i : sub c ((m, i) :: c).
Proof.
  intros k H. unfold uncached_b in *. cbn [lookup] in H. destruct (m =? k); [discriminate|exact H].
Qed.

Lemma keys_NoDup g p : NoDup (filter p (keys g)).
Proof. apply NoDup_filter. apply NoDup_nodup. Qed.

(* both by counting: the uncached keys are distinct *)
Lemma mu_sub g c c' : sub c c' -> (mu g c' <= mu g c)%nat.
Proof.
  intro H. apply NoDup_incl_length; [apply keys_NoDup|]. intros x Hx. apply filter_In in Hx.
  apply filter_In. split; [apply Hx|apply H; apply Hx].
Qed.

Lemma mu_register g c m i acts :
  find_module g m = Some acts -> lookup m c = None -> (mu g ((m, i) :: c) < mu g c)%nat.
Proof.
  intros Hf Hl. apply (NoDup_incl_length (l := m :: filter (uncached_b ((m, i) :: c)) (keys g))).
  - constructor; [|apply keys_NoDup]. intro K. apply filter_In in K. destruct K as [_ K].
    unfold uncached_b in K. cbn [lookup] in K. rewrite N.eqb_refl in K. discriminate.
  - intros x [<-|Hx]; apply filter_In.
    + split; [|unfold uncached_b; rewrite Hl; reflexivity].
      apply nodup_In. apply lookup_In in Hf. exact (in_map fst _ _ Hf).
    + apply filter_In in Hx. split; [apply Hx|apply (sub_cons c m i); apply Hx].
Qed.

Definition ld_sub (ld : mod_id -> state -> result (nat * state)) : Prop :=
  forall m st j st', ld m st = Ok (j, st') -> sub (cache st) (cache st').

Lemma exec_sub ld : ld_sub ld -> forall me i acts en st st',
  exec ld me i acts en st = Ok st' -> sub (cache st) (cache st').
Proof.
  intros Hld me i. apply (exec_ok_ind ld me i (fun _ st st' => sub (cache st) (cache st'))).
  - intro st. apply sub_refl.
  - intros a rest en st en1 st1 st' El IH. apply local_step_spec in El. destruct El as [outs [<- _ _ _]]. exact IH.
  - intros m f rest en st j st1 en1 st' Eld _ IH. exact (sub_trans _ _ _ (Hld m st j st1 Eld) IH).
Qed.

Lemma load_sub g : forall fuel, ld_sub (load fuel g).
Proof.
  induction fuel as [|f IH]; intros m st j st' H;
    (destruct (lookup m (cache st)) as [i|] eqn:El;
     [rewrite (load_hit _ g m st i El) in H; injection H as _ <-; apply sub_refl|]).
  - cbn [load] in H. rewrite El in H. discriminate.
  - rewrite (load_miss f g m st El) in H. destruct (find_module g m) as [acts|]; [|discriminate].
    destruct (exec (load f g) m _ acts empty_env (register m st)) as [st2| |] eqn:Eex; try discriminate.
    injection H as _ <-. apply (exec_sub _ IH) in Eex.
    exact (sub_trans _ _ _ (sub_cons _ m _) (sub_trans _ _ _ Eex (sub_cons _ m _))).
Qed.

Lemma add_export_not_oof i x v st : add_export i x v st <> OutOfFuel.
Proof. unfold add_export. destruct (lookup_export st i x); discriminate. Qed.

Lemma resolve_not_oof w x en st : resolve w x en st <> OutOfFuel.
Proof.
  destruct w as [m|]; cbn [resolve].
  - destruct (lookup m (mods en)) as [k|]; [destruct (lookup_export st k x)|]; discriminate.
  - destruct (lookup x (vars en)); discriminate.
Qed.

Lemma local_step_not_oof me i a en st : local_step me i a en st <> OutOfFuel.
Proof.
  destruct a as [m f|t|x n|x t|x|w x t|w x|w x|w x]; cbn [local_step]; try discriminate.
  1-3: destruct (add_export i x _ _) eqn:E; try discriminate; destruct (add_export_not_oof _ _ _ _ E).
  all: destruct (resolve w x en st) as [[n|loc|loc]| |] eqn:E; try discriminate; destruct (resolve_not_oof _ _ _ _ E).
Qed.

Lemma bind_import_not_oof f m j en st : bind_import f m j en st <> OutOfFuel.
Proof.
  destruct f as [|xs]; cbn [bind_import]; [discriminate|].
  revert en. induction xs as [|x xs IH]; intro en; cbn [bind_names]; [discriminate|].
  destruct (lookup_export st j x); [apply IH|discriminate].
Qed.

Lemma exec_fuel g ld (f : nat) : ld_sub ld ->
  (forall m st, (mu g (cache st) < f)%nat -> ld m st <> OutOfFuel) ->
  forall me i acts en st, (mu g (cache st) < f)%nat -> exec ld me i acts en st <> OutOfFuel.
Proof.
  intros Hsub Hld me i acts. induction acts as [|a rest IH]; intros en st Hmu; [discriminate|].
  destruct a as [m f'|t|x n|x t|x|w x t|w x|w x|w x]; cbn [exec].
  1: { destruct (ld m st) as [[j st1]| |] eqn:Eld; [|discriminate|destruct (Hld m st Hmu Eld)].
       destruct (bind_import f' m j en st1) as [en1| |] eqn:Eb; [|discriminate|destruct (bind_import_not_oof _ _ _ _ _ Eb)].
       apply IH. exact (Nat.le_lt_trans _ _ _ (mu_sub g _ _ (Hsub m st j st1 Eld)) Hmu). }
  all: destruct (local_step me i _ en st) as [[en1 st1]| |] eqn:El; [|discriminate|destruct (local_step_not_oof _ _ _ _ _ El)];
       apply local_step_spec in El; destruct El as [outs [Hc _ _ _]]; apply IH; rewrite Hc; exact Hmu.
Qed.

Lemma load_fuel g : forall fuel m st, (mu g (cache st) < fuel)%nat -> load fuel g m st <> OutOfFuel.
Proof.
  induction fuel as [|f IH]; intros m st Hmu; [inversion Hmu|].
  destruct (lookup m (cache st)) as [i|] eqn:El; [rewrite (load_hit _ g m st i El); discriminate|].
  rewrite (load_miss f g m st El). destruct (find_module g m) as [acts|] eqn:Ef; [|discriminate].
  pose proof (exec_fuel g (load f g) f (load_sub g f) IH m (length (insts st)) acts empty_env (register m st)) as Hex.
  destruct (exec (load f g) m _ acts empty_env (register m st)); try discriminate.
  intros _. apply Hex; [|reflexivity].
  exact (Nat.lt_le_trans _ _ _ (mu_register g _ m _ acts Ef El) (proj1 (Nat.lt_succ_r _ _) Hmu)).
Qed.

Lemma mu_bound g c : (mu g c <= length (modules g))%nat.
Proof.
  rewrite <- (map_length fst (modules g)). apply NoDup_incl_length; [apply keys_NoDup|].
  intros x H. apply filter_In in H. exact (proj1 (nodup_In _ _ _) (proj1 H)).
Qed.

Theorem run_never_out_of_fuel : forall (fuel : nat) (g : project),
  (length (modules g) <= fuel)%nat -> run fuel g <> OutOfFuel.
Proof.
  intros fuel g Hf. unfold run. destruct (find_module g (entry g)) as [acts|] eqn:Ef; [|discriminate].
  destruct (exec (load fuel g) (entry g) O acts empty_env _) as [st| |] eqn:Eex; try discriminate.
  intros _. revert Eex. apply (exec_fuel g (load fuel g) fuel (load_sub g fuel) (load_fuel g fuel)).
  exact (Nat.lt_le_trans _ _ _ (mu_register g [] (entry g) O acts Ef eq_refl) (Nat.le_trans _ _ _ (mu_bound g []) Hf)).
Qed.
