(* C11 -- the module loader model (Modules/Model.v), for ALL projects (any number of modules, any import graph,
   any statements): by induction on the loader's recursion and on statement lists. *)
From Coq Require Import PeanoNat.
From MS Require Import Base.Str Modules.Model.

Lemma lookup_In {B} (k : N) (l : list (N * B)) (v : B) : lookup k l = Some v -> In (k, v) l.
Proof.
  induction l as [|[k' v'] t IH]; cbn [lookup]; [discriminate|].
  destruct (k' =? k) eqn:E.
  - intro H. inversion H; subst. apply N.eqb_eq in E. subst. left. reflexivity.
  - intro H. right. apply IH. exact H.
Qed.

Lemma lookup_None {B} (k : N) (l : list (N * B)) : lookup k l = None -> forall v, ~ In (k, v) l.
Proof.
  induction l as [|[k' v'] t IH]; cbn [lookup]; intros H v K; [destruct K|].
  destruct (k' =? k) eqn:E; [discriminate|].
  destruct K as [K|K].
  - inversion K; subst. rewrite N.eqb_refl in E. discriminate.
  - exact (IH H v K).
Qed.

Lemma lookup_app_some {B} (k : N) (l l' : list (N * B)) (v : B) :
  lookup k l = Some v -> lookup k (l ++ l') = Some v.
Proof.
  induction l as [|[k' v'] t IH]; cbn [lookup app]; [discriminate|].
  destruct (k' =? k); [trivial|exact IH].
Qed.

Lemma init_mods_app (a b : list event) : init_mods (a ++ b) = init_mods a ++ init_mods b.
Proof. unfold init_mods. apply flat_map_app. Qed.

Lemma init_mods_got (tr : list event) (a m : mod_id) (j : nat) : init_mods (tr ++ [EGot a m j]) = init_mods tr.
Proof. rewrite init_mods_app. apply app_nil_r. Qed.

Lemma init_mods_done (tr : list event) (m : mod_id) : init_mods (tr ++ [EDone m]) = init_mods tr.
Proof. rewrite init_mods_app. apply app_nil_r. Qed.

Lemma In_init_mods (m : mod_id) (i : nat) (tr : list event) : In (EInit m i) tr -> In m (init_mods tr).
Proof.
  intro H. unfold init_mods. apply in_flat_map. exists (EInit m i). split; [exact H|left; reflexivity].
Qed.

Lemma init_mods_In (m : mod_id) (tr : list event) : In m (init_mods tr) -> exists i, In (EInit m i) tr.
Proof.
  unfold init_mods. intro H. apply in_flat_map in H. destruct H as [e [He Hm]].
  destruct e; cbn in Hm; try contradiction. destruct Hm as [Hm|[]]. subst. exists inst. exact He.
Qed.

Lemma NoDup_snoc {A} (l : list A) (a : A) : NoDup l -> ~ In a l -> NoDup (l ++ [a]).
Proof.
  intros Hnd Hin. apply (NoDup_Add (Add_app a l [])). rewrite app_nil_r. split; assumption.
Qed.

Lemma init_unique (tr : list event) (m : mod_id) (i1 i2 : nat) :
  NoDup (init_mods tr) -> In (EInit m i1) tr -> In (EInit m i2) tr -> i1 = i2.
Proof.
  induction tr as [|e tr IH]; intros Hnd H1 H2; [destruct H1|].
  change (e :: tr) with ([e] ++ tr) in Hnd. rewrite init_mods_app in Hnd.
  destruct H1 as [H1|H1], H2 as [H2|H2].
  - congruence.
  - subst e. cbn in Hnd. inversion Hnd as [|? ? Hx _]; subst. exfalso. apply Hx. eapply In_init_mods. exact H2.
  - subst e. cbn in Hnd. inversion Hnd as [|? ? Hx _]; subst. exfalso. apply Hx. eapply In_init_mods. exact H1.
  - apply IH; try assumption. destruct e; cbn in Hnd; try exact Hnd. inversion Hnd; assumption.
Qed.

Lemma block_of_app (me : mod_id) (a b : list event) : block_of me a -> block_of me b -> block_of me (a ++ b).
Proof.
  intros Ha Hb. induction Ha as [me|me l rest Hr IH|me m j rest Hr IH|me m j body rest Hbody _ Hrest IH]; cbn [app].
  - exact Hb.
  - constructor. apply IH. exact Hb.
  - constructor. apply IH. exact Hb.
  - rewrite <- app_assoc. cbn [app]. apply blk_load; [exact Hbody|apply IH; exact Hb].
Qed.

Definition is_out (me : mod_id) (e : event) : Prop := exists l, e = EOut me l.

Lemma block_of_outs (me : mod_id) (outs : list event) : Forall (is_out me) outs -> block_of me outs.
Proof.
  induction 1 as [|e outs [l He] _ IH]; [constructor|]. subst. constructor. exact IH.
Qed.

Lemma init_mods_outs (me : mod_id) (outs : list event) : Forall (is_out me) outs -> init_mods outs = [].
Proof.
  induction 1 as [|e outs [l He] _ IH]; [reflexivity|]. subst. cbn. exact IH.
Qed.

(* the loader's invariant: the cache holds exactly the modules whose initialisation the trace records, each was
   initialised once, and an importer only ever got a module that had been initialised *)
Definition Inv (st : state) : Prop :=
  (forall m i, In (m, i) (cache st) <-> In (EInit m i) (trace st)) /\
  NoDup (init_mods (trace st)) /\
  (forall a m j, In (EGot a m j) (trace st) -> In (EInit m j) (trace st)).

Lemma Inv_cached st m i : Inv st -> (In (m, i) (cache st) <-> In (EInit m i) (trace st)).
Proof. intros H. apply H. Qed.

Lemma Inv_once st : Inv st -> NoDup (init_mods (trace st)).
Proof. intros H. apply H. Qed.

Lemma Inv_got st a m j : Inv st -> In (EGot a m j) (trace st) -> In (EInit m j) (trace st).
Proof. intros H. apply H. Qed.

(* exports are only added *)
Definition ext (st st' : state) : Prop :=
  forall k x v, lookup_export st k x = Some v -> lookup_export st' k x = Some v.

Lemma ext_refl st : ext st st.
Proof. intros k x v H. exact H. Qed.

Lemma ext_trans a b c : ext a b -> ext b c -> ext a c.
Proof. intros H1 H2 k x v H. apply H2. apply H1. exact H. Qed.

Lemma ext_more_insts st st' l : insts st' = insts st ++ l -> ext st st'.
Proof.
  intros E k x v H. unfold lookup_export in *. rewrite E.
  destruct (nth_error (insts st) k) as [ex|] eqn:En; [|discriminate].
  rewrite nth_error_app1; [rewrite En; exact H|]. apply nth_error_Some. congruence.
Qed.

Lemma Inv_app (st st' : state) (evs : list event) :
  Inv st -> trace st' = trace st ++ evs ->
  (forall m i, In (m, i) (cache st') <-> In (m, i) (cache st) \/ In (EInit m i) evs) ->
  NoDup (init_mods (trace st) ++ init_mods evs) ->
  (forall a m j, In (EGot a m j) evs -> In (m, j) (cache st')) ->
  Inv st'.
Proof.
  intros [H1 [_ H3]] Ht Hc Hnd Hg. unfold Inv. rewrite Ht, init_mods_app. split; [|split; [exact Hnd|]].
  - intros m i. rewrite Hc, in_app_iff, H1. reflexivity.
  - intros a m j H. rewrite in_app_iff, <- H1. apply in_app_or in H. destruct H as [H|H].
    + left. apply H1. exact (H3 a m j H).
    + apply Hc. exact (Hg a m j H).
Qed.

Lemma Inv_quiet (st st' : state) (evs : list event) :
  Inv st -> trace st' = trace st ++ evs -> init_mods evs = [] ->
  (forall p, In p (cache st') <-> In p (cache st)) ->
  (forall a m j, In (EGot a m j) evs -> In (m, j) (cache st)) ->
  Inv st'.
Proof.
  intros Hinv Ht Hq Hc Hg. apply (Inv_app st st' evs Hinv Ht).
  - intros m i. rewrite Hc. split; [left; assumption|intros [H|H]; [exact H|]].
    apply In_init_mods in H. rewrite Hq in H. destruct H.
  - rewrite Hq, app_nil_r. exact (Inv_once st Hinv).
  - intros a m j H. apply Hc. exact (Hg a m j H).
Qed.

Lemma Inv_outs (me : mod_id) (st st' : state) (outs : list event) :
  Inv st -> cache st' = cache st -> trace st' = trace st ++ outs -> Forall (is_out me) outs -> Inv st'.
Proof.
  intros Hinv Hc Ht Ho. apply (Inv_quiet st st' outs Hinv Ht (init_mods_outs me outs Ho)).
  - intro p. rewrite Hc. reflexivity.
  - intros a m j H. destruct (proj1 (Forall_forall _ _) Ho _ H) as [l E]. discriminate.
Qed.

Lemma Inv_emit_got (st : state) (a m : mod_id) (j : nat) :
  Inv st -> In (m, j) (cache st) -> Inv (emit (EGot a m j) st).
Proof.
  intros Hinv Hin. apply (Inv_quiet st (emit (EGot a m j) st) [EGot a m j] Hinv eq_refl eq_refl).
  - reflexivity.
  - intros a' m' j' [H|[]]. injection H as _ <- <-. exact Hin.
Qed.

(* add_file: a fresh export map for m, its key pre-inserted *)
Definition register (m : mod_id) (st : state) : state :=
  mkState ((m, length (insts st)) :: cache st) (insts st ++ [[]]) (heap st) (trace st ++ [EInit m (length (insts st))]).

(* ret_mod of m: the export map i is inserted under the key again *)
Definition close (m : mod_id) (i : nat) (st : state) : state :=
  mkState ((m, i) :: cache st) (insts st) (heap st) (trace st ++ [EDone m]).

Lemma uncached_fresh (st : state) (m : mod_id) :
  Inv st -> lookup m (cache st) = None -> ~ In m (init_mods (trace st)).
Proof.
  intros Hinv El K. apply init_mods_In in K. destruct K as [i K]. apply (Inv_cached st m i Hinv) in K.
  exact (lookup_None m _ El i K).
Qed.

Lemma Inv_register (st : state) (m : mod_id) : Inv st -> lookup m (cache st) = None -> Inv (register m st).
Proof.
  intros Hinv El. apply (Inv_app st (register m st) [EInit m (length (insts st))] Hinv eq_refl).
  - intros m' i'. cbn [register cache In]. split.
    + intros [K|K]; [right; left; congruence|left; exact K].
    + intros [K|[K|[]]]; [right; exact K|left; congruence].
  - apply (NoDup_snoc _ m); [exact (Inv_once st Hinv)|apply uncached_fresh; assumption].
  - intros a m' j' [K|[]]. discriminate.
Qed.

Lemma Inv_close (st : state) (m : mod_id) (i : nat) : Inv st -> In (m, i) (cache st) -> Inv (close m i st).
Proof.
  intros Hinv Hin. apply (Inv_quiet st (close m i st) [EDone m] Hinv eq_refl eq_refl).
  - intro p. cbn [close cache In]. split; [intros [<-|K]; assumption|right; assumption].
  - intros a m' j' [K|[]]. discriminate.
Qed.

Lemma Inv_empty : Inv (mkState [] [] [] []).
Proof. split; [reflexivity|split; [constructor|intros a m j []]]. Qed.

Lemma nth_error_set_nth_other {A} (f : A -> A) (l : list A) (i k : nat) :
  k <> i -> nth_error (set_nth i f l) k = nth_error l k.
Proof.
  revert i k. induction l as [|a l IH]; intros i k Hne; [destruct i; reflexivity|].
  destruct i, k; cbn; try reflexivity; try congruence. apply IH. congruence.
Qed.

Lemma nth_error_set_nth_same {A} (f : A -> A) (l : list A) (i : nat) :
  nth_error (set_nth i f l) i = option_map f (nth_error l i).
Proof.
  revert i. induction l as [|a l IH]; intro i; [destruct i; reflexivity|].
  destruct i; cbn; [reflexivity|apply IH].
Qed.

Lemma add_export_spec (i : nat) (x : name) (v : value) (st st' : state) :
  add_export i x v st = Ok st' ->
  cache st' = cache st /\ trace st' = trace st /\ ext st st'.
Proof.
  unfold add_export. destruct (lookup_export st i x) eqn:E; [discriminate|].
  intro H. injection H as <-. split; [reflexivity|split; [reflexivity|]].
  intros k y w Hk. unfold lookup_export in *. cbn [insts].
  destruct (Nat.eq_dec k i) as [->|Hne].
  - rewrite nth_error_set_nth_same. destruct (nth_error (insts st) i); cbn in *; [|discriminate].
    apply lookup_app_some. exact Hk.
  - rewrite nth_error_set_nth_other by exact Hne. exact Hk.
Qed.

(* what a statement other than an import does: output events of its own module, nothing else *)
Record stepped (me : mod_id) (st st' : state) (outs : list event) : Prop := {
  st_cache : cache st' = cache st;
  st_ext : ext st st';
  st_trace : trace st' = trace st ++ outs;
  st_outs : Forall (is_out me) outs }.

Lemma local_step_spec (me : mod_id) (i : nat) (a : action) (en en' : env) (st st' : state) :
  local_step me i a en st = Ok (en', st') -> exists outs, stepped me st st' outs.
Proof.
  assert (Hquiet : forall s, cache s = cache st -> trace s = trace st -> ext st s -> exists outs, stepped me st s outs).
  { intros s Hc Ht He. exists []. split; [exact Hc|exact He|rewrite app_nil_r; exact Ht|constructor]. }
  assert (Hline : forall l s, cache s = cache st -> trace s = trace st -> ext st s ->
                  exists outs, stepped me st (emit (EOut me l) s) outs).
  { intros l s Hc Ht He. exists [EOut me l]. split; [exact Hc|exact He|cbn [emit trace]; rewrite Ht; reflexivity|].
    constructor; [exists l; reflexivity|constructor]. }
  destruct a as [m f|t|x n|x t|x|w x t|w x|w x|w x]; cbn [local_step].
  1: discriminate.
  1: { intro H. injection H as _ <-. apply Hline; try reflexivity. apply ext_refl. }
  (* ExportInt, ExportList, ExportCounter *)
  1-3: destruct (add_export i x _ _) as [s| |] eqn:E; try discriminate; intro H; injection H as _ <-;
       apply add_export_spec in E; destruct E as [Ec [Et Ee]]; apply Hquiet; assumption.
  (* Push, ShowList, Call, ShowInt *)
  all: destruct (resolve w x en st) as [[n|loc|loc]| |]; try discriminate; intro H; injection H as _ <-.
  1: apply Hquiet; try reflexivity.
  2-4: apply Hline; try reflexivity.
  all: exact (ext_refl st).
Qed.

Lemma imports_of_local me i a en st r rest : local_step me i a en st = Ok r -> imports_of (a :: rest) = imports_of rest.
Proof. destruct a; [discriminate|reflexivity ..]. Qed.

Lemma exec_ok_ind (ld : mod_id -> state -> result (nat * state)) (me : mod_id) (i : nat)
                  (P : list action -> state -> state -> Prop) :
  (forall st, P [] st st) ->
  (forall a rest en st en1 st1 st', local_step me i a en st = Ok (en1, st1) -> P rest st1 st' -> P (a :: rest) st st') ->
  (forall m f rest en st j st1 en1 st', ld m st = Ok (j, st1) -> bind_import f m j en st1 = Ok en1 ->
     P rest (emit (EGot me m j) st1) st' -> P (Import m f :: rest) st st') ->
  forall acts en st st', exec ld me i acts en st = Ok st' -> P acts st st'.
Proof.
  intros Hnil Hloc Himp. induction acts as [|a rest IH]; intros en st st' H.
  - injection H as <-. apply Hnil.
  - destruct a as [m f|t|x n|x t|x|w x t|w x|w x|w x]; cbn [exec] in H.
    1: { destruct (ld m st) as [[j st1]| |] eqn:Eld; try discriminate.
         destruct (bind_import f m j en st1) as [en1| |] eqn:Eb; try discriminate.
         exact (Himp m f rest en st j st1 en1 st' Eld Eb (IH _ _ _ H)). }
    all: destruct (local_step me i _ en st) as [[en1 st1]| |] eqn:El; try discriminate;
         exact (Hloc _ rest en st en1 st1 st' El (IH _ _ _ H)).
Qed.

(* the trace segment of one `load`: empty on a cache hit, else the module's whole initialisation, bracketed *)
Definition shape (m : mod_id) (j : nat) (seg : list event) : Prop :=
  seg = [] \/ exists body, seg = EInit m j :: body ++ [EDone m] /\ block_of m body.

Record loaded (g : project) (m : mod_id) (j : nat) (st st' : state) (seg : list event) : Prop := {
  ld_trace : trace st' = trace st ++ seg;
  ld_inv : Inv st';
  ld_ext : ext st st';
  ld_cached : In (m, j) (cache st');
  ld_visit : visit g (init_mods (trace st)) m (init_mods seg);
  ld_shape : shape m j seg }.

Definition ld_spec (g : project) (ld : mod_id -> state -> result (nat * state)) : Prop :=
  forall m st j st', Inv st -> ld m st = Ok (j, st') -> exists seg, loaded g m j st st' seg.

Record ran (g : project) (me : mod_id) (acts : list action) (st st' : state) (seg : list event) : Prop := {
  ran_trace : trace st' = trace st ++ seg;
  ran_inv : Inv st';
  ran_ext : ext st st';
  ran_visits : visits g (init_mods (trace st)) (imports_of acts) (init_mods seg);
  ran_block : block_of me seg }.

Lemma exec_spec (g : project) (ld : mod_id -> state -> result (nat * state)) : ld_spec g ld ->
  forall me i acts en st st', exec ld me i acts en st = Ok st' -> Inv st -> exists seg, ran g me acts st st' seg.
Proof.
  intros Hld me i. apply (exec_ok_ind ld me i (fun acts st st' => Inv st -> exists seg, ran g me acts st st' seg)).
  - intros st Hinv. exists []. split; [symmetry; apply app_nil_r|exact Hinv|apply ext_refl|constructor|constructor].
  - intros a rest en st en1 st1 st' El IH Hinv. pose proof (imports_of_local _ _ _ _ _ _ rest El) as Hni.
    apply local_step_spec in El. destruct El as [outs [Hc He Ht Ho]].
    destruct (IH (Inv_outs me st st1 outs Hinv Hc Ht Ho)) as [seg [Ht' Hinv' He' Hv Hb]].
    exists (outs ++ seg). split.
    + rewrite Ht', Ht, <- app_assoc. reflexivity.
    + exact Hinv'.
    + exact (ext_trans _ _ _ He He').
    + rewrite Hni, init_mods_app, (init_mods_outs me outs Ho).
      rewrite Ht, init_mods_app, (init_mods_outs me outs Ho), app_nil_r in Hv. exact Hv.
    + apply block_of_app; [apply block_of_outs; exact Ho|exact Hb].
  - intros m f rest en st j st1 en1 st' Eld _ IH Hinv.
    destruct (Hld m st j st1 Hinv Eld) as [seg1 [Ht1 Hinv1 He1 Hin1 Hv1 Hs1]].
    destruct (IH (Inv_emit_got st1 me m j Hinv1 Hin1)) as [seg2 [Ht2 Hinv' He2 Hv2 Hb2]].
    exists (seg1 ++ EGot me m j :: seg2). split.
    + rewrite Ht2. cbn [emit trace]. rewrite Ht1, <- !app_assoc. reflexivity.
    + exact Hinv'.
    + exact (ext_trans _ _ _ He1 He2).
    + rewrite init_mods_app. apply (visits_cons g _ m (imports_of rest) _ (init_mods seg2) Hv1).
      cbn [emit trace] in Hv2. rewrite init_mods_got, Ht1, init_mods_app in Hv2. exact Hv2.
    + destruct Hs1 as [->|[body [-> Hbody]]]; cbn [app].
      * apply blk_got. exact Hb2.
      * rewrite <- app_assoc. apply blk_load; [exact Hbody|]. apply blk_got. exact Hb2.
Qed.

Lemma load_hit (fuel : nat) (g : project) (m : mod_id) (st : state) (i : nat) :
  lookup m (cache st) = Some i -> load fuel g m st = Ok (i, st).
Proof. intro El. destruct fuel; cbn [load]; rewrite El; reflexivity. Qed.

Lemma load_miss (f : nat) (g : project) (m : mod_id) (st : state) :
  lookup m (cache st) = None ->
  load (S f) g m st =
  match find_module g m with
  | None => Err e_nofile
  | Some acts =>
      match exec (load f g) m (length (insts st)) acts empty_env (register m st) with
      | Ok st2 => Ok (length (insts st), close m (length (insts st)) st2)
      | Err c => Err c
      | OutOfFuel => OutOfFuel
      end
  end.
Proof. intro El. cbn [load]. rewrite El. reflexivity. Qed.

Lemma loaded_hit (g : project) (m : mod_id) (i : nat) (st : state) :
  Inv st -> lookup m (cache st) = Some i -> loaded g m i st st [].
Proof.
  intros Hinv El. apply lookup_In in El. split.
  - symmetry. apply app_nil_r.
  - exact Hinv.
  - apply ext_refl.
  - exact El.
  - apply visit_seen. apply (In_init_mods m i). apply (Inv_cached st m i Hinv). exact El.
  - left. reflexivity.
Qed.

Lemma load_spec (g : project) : forall fuel, ld_spec g (load fuel g).
Proof.
  induction fuel as [|f IHf]; intros m st j st' Hinv H;
    (destruct (lookup m (cache st)) as [i|] eqn:El;
     [rewrite (load_hit _ g m st i El) in H; injection H as <- <-; exists []; apply loaded_hit; assumption|]).
  - cbn [load] in H. rewrite El in H. discriminate.
  - rewrite (load_miss f g m st El) in H. destruct (find_module g m) as [acts|] eqn:Ef; [|discriminate].
    set (i := length (insts st)) in *.
    destruct (exec (load f g) m i acts empty_env (register m st)) as [st2| |] eqn:Eex; try discriminate.
    injection H as <- <-.
    destruct (exec_spec g (load f g) IHf m i acts empty_env _ st2 Eex (Inv_register st m Hinv El))
      as [seg2 [Ht2 Hinv2 He2 Hv2 Hb2]].
    assert (Hmi : In (m, i) (cache st2)).
    { apply (Inv_cached st2 m i Hinv2). rewrite Ht2. apply in_or_app. left. apply in_or_app. right. left. reflexivity. }
    exists (EInit m i :: seg2 ++ [EDone m]). split.
    + cbn [close trace]. rewrite Ht2. cbn [register trace]. rewrite <- !app_assoc. reflexivity.
    + apply Inv_close; assumption.
    + refine (ext_trans _ _ _ (ext_more_insts st (register m st) [[]] eq_refl) He2).
    + left. reflexivity.
    + change (visit g (init_mods (trace st)) m (m :: init_mods (seg2 ++ [EDone m]))). rewrite init_mods_done.
      apply visit_new; [apply uncached_fresh; assumption|].
      unfold imports. rewrite Ef. cbn [register trace] in Hv2. rewrite init_mods_app in Hv2. exact Hv2.
    + right. exists seg2. split; [reflexivity|exact Hb2].
Qed.

Lemma run_inv (fuel : nat) (g : project) (st : state) : run fuel g = Ok st ->
  Inv st /\ exists body, trace st = EInit (entry g) O :: body ++ [EDone (entry g)] /\ block_of (entry g) body
                         /\ visits g [entry g] (imports g (entry g)) (init_mods body).
Proof.
  unfold run. destruct (find_module g (entry g)) as [acts|] eqn:Ef; [|discriminate].
  destruct (exec (load fuel g) (entry g) O acts empty_env _) as [st1| |] eqn:Eex; try discriminate.
  intro H. injection H as <-.
  destruct (exec_spec g (load fuel g) (load_spec g fuel) (entry g) O acts empty_env _ st1 Eex
              (Inv_register _ (entry g) Inv_empty eq_refl)) as [seg [Ht Hinv _ Hv Hb]].
  split.
  - apply (Inv_quiet st1 (emit (EDone (entry g)) st1) [EDone (entry g)] Hinv eq_refl eq_refl); [reflexivity|].
    intros a m j [K|[]]. discriminate.
  - exists seg. cbn [emit trace]. rewrite Ht. split; [reflexivity|].
    split; [exact Hb|]. unfold imports. rewrite Ef. exact Hv.
Qed.

(* C11, first half.  For every project and every run that completes:
   - each module's top level starts at most once (NoDup), and the modules appear in the trace in
     depth-first first-visit order of the import graph from the entry (imports in statement order);
   - the trace is one block of the entry module: every loaded module's top level is a contiguous block
     (up to the blocks of the modules it loads itself), closed by its ret_mod before the importing module's
     next event. *)
Theorem init_once_in_order : forall (fuel : nat) (g : project) (st : state), run fuel g = Ok st ->
  NoDup (init_mods (trace st)) /\
  visit g [] (entry g) (init_mods (trace st)) /\
  exists body, trace st = EInit (entry g) O :: body ++ [EDone (entry g)] /\ block_of (entry g) body.
Proof.
  intros fuel g st H. destruct (run_inv fuel g st H) as [Hinv [body [Ht [Hb Hv]]]].
  split; [exact (Inv_once st Hinv)|]. split.
  - rewrite Ht. change (visit g [] (entry g) (entry g :: init_mods (body ++ [EDone (entry g)]))).
    rewrite init_mods_done. apply visit_new; [intros []|exact Hv].
  - exists body. split; assumption.
Qed.

(* C11, second half: whoever imports m, in whichever form and however often, receives the same export map,
   namely the one created when m's top level ran *)
Theorem shared_instance : forall (fuel : nat) (g : project) (st : state), run fuel g = Ok st ->
  forall a b m i1 i2, In (EGot a m i1) (trace st) -> In (EGot b m i2) (trace st) ->
  i1 = i2 /\ In (EInit m i1) (trace st).
Proof.
  intros fuel g st H a b m i1 i2 Ha Hb. destruct (run_inv fuel g st H) as [Hinv _].
  apply (Inv_got st a m i1 Hinv) in Ha. apply (Inv_got st b m i2 Hinv) in Hb.
  split; [|exact Ha]. exact (init_unique _ m i1 i2 (Inv_once st Hinv) Ha Hb).
Qed.

(* every import statement that executes is answered: a module that is imported has run *)
Theorem imported_has_run : forall (fuel : nat) (g : project) (st : state), run fuel g = Ok st ->
  forall a m i, In (EGot a m i) (trace st) -> In m (init_mods (trace st)).
Proof.
  intros fuel g st H a m i Ha. destruct (run_inv fuel g st H) as [Hinv _].
  exact (In_init_mods m i _ (Inv_got st a m i Hinv Ha)).
Qed.

(* exported names are write-once: during any module load, a name already exported by any export map keeps its
   value, so every importer that looks a name up - at import time (names form) or later (m.x) - sees the same
   value / the same shared cell *)
Theorem exports_write_once : forall (fuel : nat) (g : project) (m : mod_id) (st st' : state) (j : nat),
  Inv st -> load fuel g m st = Ok (j, st') -> ext st st'.
Proof.
  intros fuel g m st st' j Hinv H. destruct (load_spec g fuel m st j st' Hinv H) as [seg L]. exact (ld_ext _ _ _ _ _ _ L).
Qed.

Theorem only_exports_visible : forall (en : env) (st : state) (m : mod_id) (i : nat) (x : name),
  lookup m (mods en) = Some i -> lookup_export st i x = None -> resolve (ViaModule m) x en st = Err e_noexport.
Proof. intros en st m i x H1 H2. unfold resolve. rewrite H1, H2. reflexivity. Qed.

Theorem only_exports_importable : forall (st : state) (en : env) (j : nat) (x : name) (xs : list name),
  lookup_export st j x = None -> bind_names (x :: xs) j en st = Err e_noexport.
Proof. intros st en j x xs H. cbn [bind_names]. rewrite H. reflexivity. Qed.

Scheme visit_mind := Minimality for visit Sort Prop
  with visits_mind := Minimality for visits Sort Prop.
Combined Scheme visit_visits_ind from visit_mind, visits_mind.

Lemma visit_det_both (g : project) :
  (forall vis m o, visit g vis m o -> forall o', visit g vis m o' -> o = o') /\
  (forall vis ms o, visits g vis ms o -> forall o', visits g vis ms o' -> o = o').
Proof.
  apply visit_visits_ind.
  - intros vis m Hin o' H. inversion H; subst; [reflexivity|contradiction].
  - intros vis m o Hnin _ IH o' H. inversion H; subst; [contradiction|]. f_equal. apply IH. assumption.
  - intros vis o' H. inversion H; subst. reflexivity.
  - intros vis m ms o1 o2 _ IH1 _ IH2 o' H. inversion H; subst.
    assert (o1 = o0) by (apply IH1; assumption). subst. f_equal. apply IH2. assumption.
Qed.

Theorem visit_det : forall g vis m o o', visit g vis m o -> visit g vis m o' -> o = o'.
Proof. intros g vis m o o' H1 H2. eapply (proj1 (visit_det_both g)); eassumption. Qed.
