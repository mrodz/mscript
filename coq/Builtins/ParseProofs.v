(* C14, integer text: parse_* against the notion "the text denotes z", and the round trips with to_str. *)
From MS Require Import Base.Str Base.StrFacts Builtins.Val Builtins.Numeral Builtins.StrImpl Builtins.StrSpec Builtins.StrProofs.
From Coq Require Import Lia ZifyBool.
Open Scope Z_scope.

Lemma from_str_radix_spec signed lo hi r s : from_str_radix signed lo hi r s = spec_numeral signed lo hi r s.
Proof. unfold from_str_radix, spec_numeral. destruct s; reflexivity. Qed.

Lemma opt_meets mk o : meets (opt_val mk o) (sopt mk o).
Proof. destruct o; reflexivity. Qed.

Lemma numeral_meets mk signed lo hi r s :
  meets (opt_val mk (from_str_radix signed lo hi r s)) (sopt mk (spec_numeral signed lo hi r s)).
Proof. rewrite from_str_radix_spec. apply opt_meets. Qed.

Theorem parse_int_meets s : meets (impl_parse_int s) (spec_parse_int s).
Proof. unfold impl_parse_int, spec_parse_int. destruct (prefix_0x s); apply numeral_meets. Qed.

Theorem parse_bigint_meets s : meets (impl_parse_bigint s) (spec_parse_bigint s).
Proof. unfold impl_parse_bigint, spec_parse_bigint. destruct (prefix_0x s); apply numeral_meets. Qed.

Theorem parse_byte_meets s : meets (impl_parse_byte s) (spec_parse_byte s).
Proof. unfold impl_parse_byte, spec_parse_byte. destruct (prefix_0b s); apply numeral_meets. Qed.

(* the two tests of the arm (radix try_into u32, then the range) say 2 <= radix <= 36 *)
Lemma radix_guard r : (2 <=? r) && (r <=? 36) = negb (r <? 0) && negb ((r <? 2) || (36 <? r)).
Proof. lia. Qed.

Theorem parse_radix_meets mk lo hi s r : meets (impl_parse_radix mk lo hi s r) (spec_parse_radix mk lo hi s r).
Proof.
  unfold impl_parse_radix, spec_parse_radix. rewrite radix_guard.
  destruct (r <? 0); [cbn; auto|]. destruct ((r <? 2) || (36 <? r)); [cbn; auto|]. apply numeral_meets.
Qed.

Theorem parse_radix_head_meets mk lo hi s r : (strip_0x s = None \/ (r = 16 /\ prefix_0x s = strip_0x s)) ->
  meets (impl_parse_radix_head mk lo hi s r) (spec_parse_radix mk lo hi s r).
Proof.
  intros H. unfold impl_parse_radix_head, spec_parse_radix. rewrite radix_guard.
  destruct (r <? 0); [cbn; auto|]. destruct ((r <? 2) || (36 <? r)); [cbn; auto|]. cbn [negb andb].
  destruct H as [H | [-> H]]; [unfold prefix_0x; rewrite H | rewrite H; destruct (strip_0x s)]; apply numeral_meets.
Qed.

Theorem parse_int_radix_meets s r : meets (impl_parse_int_radix s r) (spec_parse_int_radix s r).
Proof. apply parse_radix_meets. Qed.
Theorem parse_bigint_radix_meets s r : meets (impl_parse_bigint_radix s r) (spec_parse_bigint_radix s r).
Proof. apply parse_radix_meets. Qed.

Theorem parse_bool_meets s : meets (impl_parse_bool s) (spec_parse_bool s).
Proof. unfold impl_parse_bool, spec_parse_bool. destruct (str_eqb s s_true); [reflexivity|]. destruct (str_eqb s s_false); reflexivity. Qed.

Theorem parse_bool_meaning s b : spec_parse_bool s = SVal (VBool b) <-> s = (if b then s_true else s_false).
Proof.
  unfold spec_parse_bool.
  destruct (str_eqb s s_true) eqn:T; [apply str_eqb_eq in T as ->; destruct b; split; easy|].
  destruct (str_eqb s s_false) eqn:F; [apply str_eqb_eq in F as ->; destruct b; split; easy|].
  split; [discriminate|]. intros ->. destruct b; discriminate.
Qed.

Lemma digits_val_app r x y a :
  digits_val r (x ++ y) a = match digits_val r x a with Some a' => digits_val r y a' | None => None end.
Proof.
  revert a. induction x as [|c x IH]; intros a; [reflexivity|]. cbn [app digits_val].
  destruct (to_digit r c); [apply IH | reflexivity].
Qed.

Lemma Digits_val r ds n : Digits r ds n -> digits_val r ds 0 = Some n.
Proof.
  induction 1 as [c d H | ds n c d _ IH H].
  - cbn [digits_val]. rewrite H. reflexivity.
  - rewrite digits_val_app, IH. cbn [digits_val]. rewrite H. reflexivity.
Qed.

Lemma Digits_nonempty r ds n : Digits r ds n -> ds <> [].
Proof. induction 1; [discriminate | destruct ds; discriminate]. Qed.

Lemma val_Digits r : forall ds n, ds <> [] -> digits_val r ds 0 = Some n -> Digits r ds n.
Proof.
  induction ds as [|c ds IH] using rev_ind; intros n NE H; [contradiction|].
  rewrite digits_val_app in H. destruct (digits_val r ds 0) as [n'|] eqn:D; [|discriminate].
  cbn [digits_val] in H. destruct (to_digit r c) as [d|] eqn:T; [|discriminate]. injection H as <-.
  destruct ds as [|c0 ds0].
  - cbn in D. injection D as <-. cbn [app]. replace (0 * r + d)%N with d by lia. apply Dig_one. exact T.
  - apply Dig_snoc; [apply IH; [discriminate | reflexivity] | exact T].
Qed.

Lemma sign_not_digit r : to_digit r 43 = None /\ to_digit r 45 = None.
Proof. split; reflexivity. Qed.

Lemma Digits_head r ds n : Digits r ds n -> exists c t, ds = c :: t /\ c <> 43%N /\ c <> 45%N.
Proof.
  intros D. pose proof (Digits_val _ _ _ D) as V. pose proof (Digits_nonempty _ _ _ D) as NE.
  destruct ds as [|c t]; [contradiction|]. exists c, t. split; [reflexivity|].
  cbn [digits_val] in V. destruct (sign_not_digit r) as [P M].
  split; intros ->; [rewrite P in V | rewrite M in V]; discriminate.
Qed.

Lemma split_sign_inv signed s neg ds : split_sign signed s = (neg, ds) ->
  (s = ds /\ neg = false) \/ (s = 43%N :: ds /\ neg = false) \/ (signed = true /\ s = 45%N :: ds /\ neg = true).
Proof.
  unfold split_sign. destruct s as [|c t]; [intros [= <- <-]; auto|].
  destruct (N.eqb_spec c 43) as [->|_]; [intros [= <- <-]; auto|].
  destruct (N.eqb_spec c 45) as [->|_], signed; intros [= <- <-]; auto.
Qed.

Lemma split_sign_digit signed c t : c <> 43%N -> c <> 45%N -> split_sign signed (c :: t) = (false, c :: t).
Proof. intros A B. apply N.eqb_neq in A, B. unfold split_sign. rewrite A, B. reflexivity. Qed.

Theorem numeral_meaning signed lo hi r s z :
  spec_numeral signed lo hi r s = Some z <-> (Numeral signed r s z /\ lo <= z <= hi).
Proof.
  unfold spec_numeral, Numeral. split.
  - destruct (split_sign signed s) as [neg ds] eqn:SS. apply split_sign_inv in SS.
    destruct ds as [|c0 ds0] eqn:E; [discriminate|]. rewrite <- E in *.
    destruct (digits_val r ds 0) as [n|] eqn:D; [|discriminate].
    destruct ((lo <=? _) && (_ <=? hi)) eqn:R; [|discriminate]. intros [= <-]. split; [|lia].
    exists ds, n. split; [apply val_Digits; [subst ds; discriminate | exact D]|].
    destruct SS as [[-> ->] | [[-> ->] | (-> & -> & ->)]]; auto.
  - intros [(ds & n & D & Cases) R]. pose proof (Digits_val _ _ _ D) as V.
    destruct (Digits_head _ _ _ D) as (c & t & -> & N1 & N2).
    destruct Cases as [[-> ->] | [[-> ->] | (-> & -> & ->)]];
      [rewrite split_sign_digit by assumption | cbn [split_sign N.eqb Pos.eqb andb] ..];
      rewrite V; replace (_ && _) with true by lia; reflexivity.
Qed.

Lemma from_str_radix_range signed lo hi r s z : from_str_radix signed lo hi r s = Some z -> lo <= z <= hi.
Proof. rewrite from_str_radix_spec. intros H. apply numeral_meaning in H. apply H. Qed.

Lemma to_digit_render r n : (2 <= r <= 10)%N -> to_digit r (48 + n mod r) = Some (n mod r)%N.
Proof.
  intros R. assert (B : (n mod r < r)%N) by (apply N.mod_upper_bound; lia). remember (n mod r)%N as m. unfold to_digit.
  replace ((48 <=? 48 + m)%N && (48 + m <=? 57)%N) with true by lia.
  replace (48 + m - 48)%N with m by lia. replace (m <? r)%N with true by lia. reflexivity.
Qed.

Lemma render_fuel_val r : (2 <= r <= 10)%N -> forall fuel n acc, (n < r ^ N.of_nat fuel)%N ->
  digits_val r (render_fuel fuel r n acc) 0 = digits_val r acc n.
Proof.
  intros R. induction fuel as [|f IH]; intros n acc B.
  - cbn in B. assert (n = 0%N) by lia. subst. reflexivity.
  - cbn [render_fuel]. assert (DM : n = (r * (n / r) + n mod r)%N) by (apply N.div_mod; lia).
    destruct (n / r =? 0)%N eqn:Q.
    + apply N.eqb_eq in Q. cbn [digits_val]. rewrite to_digit_render by exact R.
      f_equal. rewrite Q in DM. remember (n mod r)%N as m. lia.
    + apply N.eqb_neq in Q. rewrite IH.
      * cbn [digits_val]. rewrite to_digit_render by exact R. f_equal.
        remember (n mod r)%N as m. remember (n / r)%N as q. lia.
      * rewrite Nat2N.inj_succ, N.pow_succ_r' in B. apply N.div_lt_upper_bound; [lia | exact B].
Qed.

Lemma log2_bound r n : (2 <= r)%N -> (n < r ^ N.of_nat (S (N.to_nat (N.log2 n))))%N.
Proof.
  intros R. rewrite Nat2N.inj_succ, N2Nat.id.
  destruct n as [|p].
  - change (N.succ (N.log2 0)) with 1%N. rewrite N.pow_1_r. lia.
  - assert (U : (N.pos p < 2 ^ N.succ (N.log2 (N.pos p)))%N) by (apply N.log2_spec; lia).
    eapply N.lt_le_trans; [exact U|]. apply N.pow_le_mono_l. exact R.
Qed.

Theorem render_val r n : (2 <= r <= 10)%N -> digits_val r (render r n) 0 = Some n.
Proof. intros R. unfold render. rewrite render_fuel_val; [reflexivity | exact R | apply log2_bound; lia]. Qed.

(* so a rendering has no sign in front and no `x` in second place *)
Definition all_digits (s : str) : Prop := Forall (fun c => (48 <= c <= 57)%N) s.

Lemma render_fuel_digits r : (2 <= r <= 10)%N -> forall fuel n acc, all_digits acc -> all_digits (render_fuel fuel r n acc).
Proof.
  intros R. induction fuel as [|f IH]; intros n acc A; [exact A|]. cbn [render_fuel].
  assert (A' : all_digits ((48 + n mod r)%N :: acc)).
  { constructor; [|exact A]. assert ((n mod r < r)%N) by (apply N.mod_upper_bound; lia).
    remember (n mod r)%N as m. lia. }
  destruct (n / r =? 0)%N; [exact A' | apply IH; exact A'].
Qed.

Lemma render_fuel_nonempty fuel r n acc : render_fuel (S fuel) r n acc <> [].
Proof.
  revert n acc. induction fuel as [|f IH]; intros n acc; cbn [render_fuel].
  - destruct (n / r =? 0)%N; discriminate.
  - destruct (n / r =? 0)%N; [discriminate | apply IH].
Qed.

Lemma render_shape r n : (2 <= r <= 10)%N -> exists c t, render r n = c :: t /\ (48 <= c <= 57)%N /\ all_digits t.
Proof.
  intros R. unfold render. pose proof (render_fuel_nonempty (N.to_nat (N.log2 n)) r n []) as NE.
  pose proof (render_fuel_digits r R (S (N.to_nat (N.log2 n))) n [] (Forall_nil _)) as A.
  destruct (render_fuel _ r n []) as [|c t]; [contradiction|]. inversion A. exists c, t. auto.
Qed.

Lemma render_Digits r n : (2 <= r <= 10)%N -> Digits r (render r n) n.
Proof. intros R. apply val_Digits; [apply render_fuel_nonempty | apply render_val, R]. Qed.

Lemma parse_rendered signed lo hi r n :
  (2 <= r <= 10)%N -> lo <= Z.of_N n <= hi -> from_str_radix signed lo hi r (render r n) = Some (Z.of_N n).
Proof.
  intros R B. rewrite from_str_radix_spec. apply numeral_meaning. split; [|exact B].
  exists (render r n), n. split; [apply render_Digits, R | auto].
Qed.

Lemma parse_dec lo hi z : lo <= z <= hi -> from_str_radix true lo hi 10 (dec_of_Z z) = Some z.
Proof.
  intros B. rewrite from_str_radix_spec. apply numeral_meaning. split; [|exact B].
  unfold dec_of_Z. destruct (z <? 0) eqn:N; eexists; eexists; (split; [apply render_Digits; lia|]).
  - right. right. repeat split. lia.
  - left. split; [reflexivity | lia].
Qed.

Lemma strip_0x_dec z : strip_0x (dec_of_Z z) = None.
Proof.
  unfold dec_of_Z. destruct (z <? 0).
  { destruct (render_shape 10 (Z.to_N (- z))) as (c & t & E & _); [lia|]. rewrite E. reflexivity. }
  destruct (render_shape 10 (Z.to_N z)) as (c & t & E & C & A); [lia|]. rewrite E.
  destruct t as [|d t]; [reflexivity|]. inversion A as [|? ? D _]. cbn [strip_0x].
  replace (d =? 120)%N with false by lia. rewrite andb_false_r. reflexivity.
Qed.

Lemma prefix_0x_dec z : prefix_0x (dec_of_Z z) = None.
Proof. unfold prefix_0x. rewrite strip_0x_dec. reflexivity. Qed.

(* a sign between the prefix and the digits is no number (fixes/c14-sign-after-prefix.diff); in front of the text it is *)
Example sign_after_prefix :
  spec_parse_int [48; 120; 45; 49; 70]%N = SVal VNil /\ impl_parse_int [48; 120; 45; 49; 70]%N = Ok VNil /\        (* "0x-1F" *)
  spec_parse_int_radix [48; 120; 43; 49; 70]%N 16 = SVal VNil /\ impl_parse_bigint_radix [48; 120; 43; 49; 70]%N 16 = Ok VNil /\  (* "0x+1F" *)
  spec_parse_byte [48; 98; 43; 49]%N = SVal VNil /\ impl_parse_byte [48; 98; 43; 49]%N = Ok VNil /\                  (* "0b+1" *)
  impl_parse_int_radix_head [48; 120; 45; 49; 70]%N 16 = Ok (VInt (-31)) /\                                            (* as it was *)
  spec_parse_int [48; 120; 49; 70]%N = SVal (VInt 31) /\ spec_parse_int_radix [45; 49; 70]%N 16 = SVal (VInt (-31)).  (* "0x1F", "-1F" *)
Proof. vm_compute. repeat split. Qed.

Theorem parse_int_to_str z : in_i32 z = true -> impl_parse_int (dec_of_Z z) = Ok (VInt z).
Proof.
  intros R. apply in_i32_iff in R. unfold impl_parse_int.
  rewrite prefix_0x_dec, parse_dec; [reflexivity | unfold i32_min, i32_max; lia].
Qed.

Theorem parse_bigint_to_str z : in_i128 z = true -> impl_parse_bigint (dec_of_Z z) = Ok (VBig z).
Proof.
  intros R. apply in_i128_iff in R. unfold impl_parse_bigint.
  rewrite prefix_0x_dec, parse_dec; [reflexivity | unfold i128_min, i128_max; lia].
Qed.

Theorem parse_byte_to_str z : in_u8 z = true -> impl_parse_byte (bin_of_byte z) = Ok (VByte z).
Proof.
  intros R. apply in_u8_iff in R.
  unfold impl_parse_byte, bin_of_byte, prefix_0b. cbn [strip_0b N.eqb Pos.eqb andb unsigned_rest].
  destruct (render_shape 2 (Z.to_N z)) as (c & t & E & C & _); [lia|].
  replace (is_signed (render 2 (Z.to_N z))) with false by (rewrite E; cbn [is_signed]; lia).
  rewrite <- (Z2N.id z) at 2 by lia. rewrite parse_rendered; [reflexivity | lia | lia].
Qed.

Theorem spec_parse_int_to_str z : in_i32 z = true -> spec_parse_int (dec_of_Z z) = SVal (VInt z).
Proof.
  intros R. apply in_i32_iff in R. unfold spec_parse_int.
  rewrite prefix_0x_dec, <- from_str_radix_spec, parse_dec; [reflexivity | unfold i32_min, i32_max; lia].
Qed.
