(* C14, number built-ins: impl = spec_* per method, the integer power against z ^ n, and what the float
   specifications mean in real numbers, read off Flocq's correctness theorems (those rest on the axioms of Reals). *)
From MS Require Import Base.Str Builtins.Val Builtins.Numeral Builtins.NumBuiltins Builtins.StrProofs.
From Coq Require Import Lia ZifyBool Lra Reals.
From Flocq Require Import Core.Core IEEE754.BinarySingleNaN.
Open Scope Z_scope.

Lemma i32_in_i128 z : in_i32 z = true -> in_i128 z = true.
Proof. unfold in_i32, in_i128. lia. Qed.
Lemma u8_in_i32 z : in_u8 z = true -> in_i32 z = true.
Proof. unfold in_u8, in_i32. lia. Qed.
Lemma u8_in_i128 z : in_u8 z = true -> in_i128 z = true.
Proof. unfold in_u8, in_i128. lia. Qed.

Theorem to_int_meets x : wf_val x = true -> meets (impl_to_int x) (spec_to_int x).
Proof.
  destruct x as [z|z|z|f| | | |]; cbn [wf_val impl_to_int spec_to_int spec_conv]; intros W; try exact I.
  - rewrite W. reflexivity.
  - destruct (in_i32 z); cbn; auto.
  - rewrite (u8_in_i32 z W). reflexivity.
  - destruct (trunc_finite f) as [z|]; [destruct (in_i32 z)|]; cbn; auto.
Qed.

Theorem to_bigint_meets x : wf_val x = true -> meets (impl_to_bigint x) (spec_to_bigint x).
Proof.
  destruct x as [z|z|z|f| | | |]; cbn [wf_val impl_to_bigint spec_to_bigint spec_conv]; intros W; try exact I.
  - rewrite (i32_in_i128 z W). reflexivity.
  - rewrite W. reflexivity.
  - rewrite (u8_in_i128 z W). reflexivity.
  - destruct (trunc_finite f) as [z|]; [destruct (in_i128 z)|]; cbn; auto.
Qed.

Theorem to_byte_meets x : wf_val x = true -> meets (impl_to_byte x) (spec_to_byte x).
Proof.
  destruct x as [z|z|z|f| | | |]; cbn [wf_val impl_to_byte spec_to_byte spec_conv]; intros W; try exact I.
  - destruct (in_u8 z); cbn; auto.
  - destruct (in_u8 z); cbn; auto.
  - rewrite W. reflexivity.
  - destruct (trunc_finite f) as [z|]; [destruct (in_u8 z)|]; cbn; auto.
Qed.

Theorem to_float_meets x : meets (impl_to_float x) (spec_to_float x).
Proof. destruct x; cbn; auto. Qed.

Lemma ftrunc_z_meaning f : ftrunc_z f = Ztrunc (B2R f).
Proof. apply eq_IZR. unfold ftrunc_z. rewrite (Btrunc_correct 53 1024 _ f). apply round_FIX_IZR. Qed.

Theorem trunc_finite_meaning f z :
  trunc_finite f = Some z -> is_finite f = true /\ z = Ztrunc (B2R f).
Proof.
  rewrite <- ftrunc_z_meaning. unfold trunc_finite. destruct f; try discriminate; intros [= <-]; split; reflexivity.
Qed.

Theorem trunc_finite_none f : trunc_finite f = None <-> is_finite f = false.
Proof. unfold trunc_finite, F64.is_finite. destruct f; cbn; split; intros H; try reflexivity; discriminate. Qed.

Theorem abs_meets x : wf_val x = true -> meets (impl_abs x) (spec_abs x).
Proof.
  (* within the kind only MIN has no absolute value *)
  destruct x as [z|z|z|f| | | |]; cbn [wf_val impl_abs spec_abs]; intros W; try exact I; try reflexivity.
  - replace (in_i32 (Z.abs z)) with (negb (z =? i32_min)) by (unfold in_i32, i32_min in *; lia).
    destruct (z =? i32_min); cbn; auto.
  - replace (in_i128 (Z.abs z)) with (negb (z =? i128_min)) by (unfold in_i128, i128_min in *; lia).
    destruct (z =? i128_min); cbn; auto.
Qed.

Lemma pow_m1 n : 0 <= n -> (-1) ^ n = if Z.even n then 1 else -1.
Proof.
  intros P. change (-1) with (- (1)) at 1. destruct (Z.even n) eqn:E.
  - rewrite Z.pow_opp_even, Z.pow_1_l by (try apply Z.even_spec; assumption). reflexivity.
  - rewrite Z.pow_opp_odd, Z.pow_1_l; [reflexivity | exact P | apply Z.odd_spec; rewrite <- Z.negb_even, E; reflexivity].
Qed.

Lemma pow_guarded_some z n r : 0 <= n -> pow_guarded z n = Some r -> r = z ^ n.
Proof.
  intros P. unfold pow_guarded. destruct (Z.abs z <=? 1) eqn:A.
  - assert (C : z = 0 \/ z = 1 \/ z = -1) by lia. destruct C as [->|[->| ->]]; cbn [Z.eqb]; intros [= <-].
    + destruct (Z.eqb_spec n 0) as [->|N]; [reflexivity | symmetry; apply Z.pow_0_l; lia].
    + symmetry. apply Z.pow_1_l. exact P.
    + symmetry. apply pow_m1. exact P.
  - destruct (128 <=? n); [discriminate|]. intros [= <-]. reflexivity.
Qed.

Lemma pow_guarded_none z n : pow_guarded z n = None -> 2 ^ 128 <= Z.abs (z ^ n).
Proof.
  unfold pow_guarded. destruct (Z.abs z <=? 1) eqn:A; [discriminate|]. apply Z.leb_gt in A.
  destruct (128 <=? n) eqn:B; [|discriminate]. apply Z.leb_le in B. intros _.
  rewrite Z.abs_pow. apply Z.le_trans with (2 ^ n).
  - apply Z.pow_le_mono_r; lia.
  - apply Z.pow_le_mono_l. lia.
Qed.

Theorem checked_pow_meaning z n : 0 <= n ->
  checked_pow in_i128 z n = if in_i128 (z ^ n) then Some (z ^ n) else None.
Proof.
  intros P. unfold checked_pow. destruct (pow_guarded z n) as [r|] eqn:G.
  - apply pow_guarded_some in G; [|exact P]. subst r. reflexivity.
  - apply pow_guarded_none in G. change (2 ^ 128) with 340282366920938463463374607431768211456 in G.
    replace (in_i128 (z ^ n)) with false by (unfold in_i128; lia). reflexivity.
Qed.

Lemma checked_pow_range inr z n r : checked_pow inr z n = Some r -> inr r = true.
Proof.
  unfold checked_pow. destruct (pow_guarded z n) as [p|]; [|discriminate].
  destruct (inr p) eqn:E; [|discriminate]. intros H. injection H as <-. exact E.
Qed.

Theorem pow_int_meets x n : (forall f, x <> VFloat f) -> meets (impl_pow x n) (spec_pow x n).
Proof.
  intros NF. destruct x as [z|z|z|f| | | |]; cbn [impl_pow spec_pow]; try exact I.
  1-3: destruct (n <? 0); [cbn; auto|]; destruct (checked_pow in_i128 z n); cbn; auto.
  exfalso. exact (NF f eq_refl).
Qed.

Theorem pow_int_meaning x z n : (x = VInt z \/ x = VBig z \/ x = VByte z) -> 0 <= n ->
  spec_pow x n = if in_i128 (z ^ n) then SVal (VBig (z ^ n)) else SFail.
Proof.
  intros K P. assert (N : (n <? 0) = false) by lia.
  destruct K as [->|[->| ->]]; cbn [spec_pow]; rewrite N, (checked_pow_meaning z n P); destruct (in_i128 (z ^ n)); reflexivity.
Qed.

Theorem pow_negative_exponent x z n : (x = VInt z \/ x = VBig z \/ x = VByte z) -> n < 0 -> spec_pow x n = SFail.
Proof.
  intros K P. assert (N : (n <? 0) = true) by lia.
  destruct K as [->|[->| ->]]; cbn [spec_pow]; rewrite N; reflexivity.
Qed.

Theorem sqrt_meets x : meets (impl_sqrt x) (spec_sqrt x).
Proof. destruct x; cbn; auto. Qed.
Theorem floor_meets f : meets (impl_floor f) (spec_floor f). Proof. reflexivity. Qed.
Theorem ceil_meets f : meets (impl_ceil f) (spec_ceil f). Proof. reflexivity. Qed.
Theorem round_meets f : meets (impl_round f) (spec_round f). Proof. reflexivity. Qed.
Theorem ipart_meets f : meets (impl_ipart f) (spec_ipart f). Proof. reflexivity. Qed.
Theorem fpart_meets f : meets (impl_fpart f) (spec_fpart f). Proof. reflexivity. Qed.

Lemma fnear_meaning md f : is_finite f = true ->
  B2R (fnear md f) = IZR (round_mode md (B2R f)) /\ is_finite (fnear md f) = true.
Proof.
  intros F. unfold fnear. destruct (Bnearbyint_correct 53 1024 _ md f) as (H1 & H2 & _).
  rewrite H1, round_FIX_IZR. split; [reflexivity|]. unfold F64.is_finite in *. rewrite H2. exact F.
Qed.

Theorem floor_meaning f : is_finite f = true -> B2R (fnear mode_DN f) = IZR (Zfloor (B2R f)).
Proof. intros F. exact (proj1 (fnear_meaning mode_DN f F)). Qed.
Theorem ceil_meaning f : is_finite f = true -> B2R (fnear mode_UP f) = IZR (Zceil (B2R f)).
Proof. intros F. exact (proj1 (fnear_meaning mode_UP f F)). Qed.
Theorem round_meaning f : is_finite f = true -> B2R (fnear mode_NA f) = IZR (ZnearestA (B2R f)).
Proof. intros F. exact (proj1 (fnear_meaning mode_NA f F)). Qed.
Theorem ipart_meaning f : is_finite f = true -> B2R (fnear mode_ZR f) = IZR (Ztrunc (B2R f)).
Proof. intros F. exact (proj1 (fnear_meaning mode_ZR f F)). Qed.

(* the sign of a zero result is the sign of the argument: (-0.4).round() = -0.0 *)
Theorem fnear_sign md f : F64.is_nan (fnear md f) = false -> Bsign (fnear md f) = Bsign f.
Proof. unfold fnear, F64.is_nan. exact (proj2 (proj2 (Bnearbyint_correct 53 1024 _ md f))). Qed.

Theorem sqrt_meaning f :
  B2R (fsqrt f) = Generic_fmt.round radix2 (SpecFloat.fexp 53 1024) ZnearestE (sqrt (B2R f)).
Proof. unfold fsqrt. exact (proj1 (Bsqrt_correct 53 1024 _ _ mode_NE f)). Qed.

(* 2 ^ 127 covers every bigint *)
Theorem of_Z_meaning z : Z.abs z <= 2 ^ 127 ->
  B2R (of_Z z) = Generic_fmt.round radix2 (SpecFloat.fexp 53 1024) ZnearestE (IZR z) /\ is_finite (of_Z z) = true.
Proof.
  intros A. unfold of_Z, F64.is_finite.
  pose proof (binary_normalize_correct 53 1024 _ _ mode_NE z 0 false) as H. cbv zeta in H.
  replace (F2R (Float radix2 z 0)) with (IZR z) in H by (unfold F2R; cbn; lra).
  (* no overflow: rounding is monotone and 2^127 is a double *)
  rewrite Rlt_bool_true in H; [destruct H as (H1 & H2 & _); split; assumption|].
  apply Rle_lt_trans with (bpow radix2 127); [|apply bpow_lt; lia].
  apply abs_round_le_generic;
    [apply (fexp_correct 53 1024); reflexivity | apply valid_rnd_N | apply generic_format_bpow; cbn; lia|].
  rewrite <- abs_IZR. change (bpow radix2 127) with (IZR (2 ^ 127)). apply IZR_le. exact A.
Qed.

Theorem to_str_meets x : meets (impl_to_str x) (spec_to_str x).
Proof. destruct x; cbn; auto. Qed.

Theorem to_ascii_meets b : b < 128 -> meets (impl_to_ascii b) (spec_to_ascii b).
Proof.
  intros H. unfold impl_to_ascii, spec_to_ascii. replace (b <? 128) with true by lia. reflexivity.
Qed.

(* KNOWN FINDING to_ascii/byte/continues-outside-domain: bytes 128..255 are not ASCII, the arm answers U+FFFD *)
Theorem to_ascii_refuted : exists b, in_u8 b = true /\ 128 <= b /\ ~ meets (impl_to_ascii b) (spec_to_ascii b).
Proof. exists 255. split; [reflexivity|]. split; [lia|]. cbn. intros [H|H]; discriminate. Qed.
