(* C14, assembled: every call of a built-in (through the dispatcher) meets the specification; the result has
   the declared kind and the machine range of that kind; the defects that fixes/c14-*.diff repair, as witnesses. *)
From MS Require Import Base.Str Builtins.Val Builtins.Numeral Builtins.StrImpl Builtins.StrSpec
  Builtins.NumBuiltins Builtins.ParseFloat Builtins.Dispatch Builtins.StrProofs Builtins.ParseProofs Builtins.NumProofs.
From Coq Require Import Lia ZifyBool.
Open Scope Z_scope.

(* arguments as the interpreter can hold them *)
Definition wf_arg (v : val) : Prop :=
  wf_val v = true /\ match v with VStr s => fits s | _ => True end.

(* KNOWN FINDING (known_findings.json, class to_ascii/byte/continues-outside-domain) *)
Definition known_class (m : meth) (args : list val) : Prop :=
  m = MToAscii /\ exists b, args = [VByte b] /\ 128 <= b.

(* float.pow(int) is f64::powi: modelled bit for bit (and compared with the code on every run), but the
   specification fixes its value only where x^n is exactly a double, and THAT agreement is not proved;
   powf calls libm's pow: the model only fixes the arguments of that call.  Both are excluded below and
   covered by the correspondence check alone. *)
Definition float_pow (m : meth) (args : list val) : Prop :=
  (m = MPow /\ exists f n, args = [VFloat f; VInt n]) \/ m = MPowf.

Lemma parse_float_meets s : meets (impl_parse_float s) (spec_parse_float s).
Proof. unfold impl_parse_float, spec_parse_float. destruct (parse_float s); reflexivity. Qed.

(* every other pair of a method and an argument list is `unreachable!()` in the code (Panic) and left open by the
   specification *)
Inductive call : meth -> list val -> outcome -> sres -> Prop :=
| CLen s : call MLen [VStr s] (impl_len s) (spec_len s)
| CIndexInt s i : call MIndex [VStr s; VInt i] (impl_index_int s i) (spec_index s i)
| CIndexBig s i : call MIndex [VStr s; VBig i] (impl_index_big s i) (spec_index s i)
| CSubstring s b t : call MSubstring [VStr s; VInt b; VInt t] (impl_substring s b t) (spec_substring s b t)
| CContains s o : call MContains [VStr s; VStr o] (impl_contains s o) (spec_contains s o)
| CIndexOf s o : call MIndexOf [VStr s; VStr o] (impl_index_of s o) (spec_index_of s o)
| CReverse s : call MReverse [VStr s] (impl_reverse s) (spec_reverse s)
| CInsert s n b : call MInsert [VStr s; VStr n; VInt b] (impl_insert s n b) (spec_insert s n b)
| CReplace s p r : call MReplace [VStr s; VStr p; VStr r] (impl_replace s p r) (spec_replace s p r)
| CDelete s b t : call MDelete [VStr s; VInt b; VInt t] (impl_delete s b t) (spec_delete s b t)
| CSplit s i : call MSplit [VStr s; VInt i] (impl_split s i) (spec_split s i)
| CChars s : call MChars [VStr s] (impl_chars s) (spec_chars s)
| CParseInt s : call MParseInt [VStr s] (impl_parse_int s) (spec_parse_int s)
| CParseIntRadix s r : call MParseIntRadix [VStr s; VInt r] (impl_parse_int_radix s r) (spec_parse_int_radix s r)
| CParseBigint s : call MParseBigint [VStr s] (impl_parse_bigint s) (spec_parse_bigint s)
| CParseBigintRadix s r :
    call MParseBigintRadix [VStr s; VInt r] (impl_parse_bigint_radix s r) (spec_parse_bigint_radix s r)
| CParseFloat s : call MParseFloat [VStr s] (impl_parse_float s) (spec_parse_float s)
| CParseBool s : call MParseBool [VStr s] (impl_parse_bool s) (spec_parse_bool s)
| CParseByte s : call MParseByte [VStr s] (impl_parse_byte s) (spec_parse_byte s)
| CRepeatSI s n : call MRepeat [VStr s; VInt n] (impl_repeat s n) (spec_repeat s n)
| CRepeatSB s n : call MRepeat [VStr s; VBig n] (impl_repeat s n) (spec_repeat s n)
| CRepeatIS n s : call MRepeat [VInt n; VStr s] (impl_repeat s n) (spec_repeat s n)
| CRepeatBS n s : call MRepeat [VBig n; VStr s] (impl_repeat s n) (spec_repeat s n)
| CConcat x y : call MConcat [x; y] (impl_concat x y) (spec_concat x y)
| CToInt x : call MToInt [x] (impl_to_int x) (spec_to_int x)
| CToBigint x : call MToBigint [x] (impl_to_bigint x) (spec_to_bigint x)
| CToByte x : call MToByte [x] (impl_to_byte x) (spec_to_byte x)
| CToFloat x : call MToFloat [x] (impl_to_float x) (spec_to_float x)
| CAbs x : call MAbs [x] (impl_abs x) (spec_abs x)
| CPow x n : call MPow [x; VInt n] (impl_pow x n) (spec_pow x n)
| CPowf x y : call MPowf [x; VFloat y] (impl_powf x y) (spec_powf x y)
| CSqrt x : call MSqrt [x] (impl_sqrt x) (spec_sqrt x)
| CFloor f : call MFloor [VFloat f] (impl_floor f) (spec_floor f)
| CCeil f : call MCeil [VFloat f] (impl_ceil f) (spec_ceil f)
| CRound f : call MRound [VFloat f] (impl_round f) (spec_round f)
| CIpart f : call MIpart [VFloat f] (impl_ipart f) (spec_ipart f)
| CFpart f : call MFpart [VFloat f] (impl_fpart f) (spec_fpart f)
| CToStr x : call MToStr [x] (impl_to_str x) (spec_to_str x)
| CToAscii b : call MToAscii [VByte b] (impl_to_ascii b) (spec_to_ascii b).

Lemma call_cases m args :
  (run_impl m args = Panic /\ run_spec m args = SUnspec) \/ call m args (run_impl m args) (run_spec m args).
Proof.
  (* in the order of the dispatcher's own match (an argument, then whether another follows), so that each branch is
     settled where the dispatcher settles it; taking the length of the list first is twice as slow to check *)
  destruct m; destruct args as [|x1 l]; try (left; split; reflexivity); try (right; constructor).
  all: destruct x1; try (left; split; reflexivity); try (right; constructor).
  all: destruct l as [|x2 l]; try (left; split; reflexivity); try (right; constructor).
  all: destruct x2; try (left; split; reflexivity); try (right; constructor).
  all: destruct l as [|x3 l]; try (left; split; reflexivity); try (right; constructor).
  all: destruct x3; try (left; split; reflexivity); try (right; constructor).
  all: destruct l; try (left; split; reflexivity); try (right; constructor).
Qed.

Ltac forall_inv :=
  repeat match goal with
         | H : Forall _ (_ :: _) |- _ => inversion H; clear H; subst
         | H : Forall _ [] |- _ => clear H
         end.

Lemma call_meets m args o s : call m args o s ->
  Forall wf_arg args -> ~ known_class m args -> ~ float_pow m args -> meets o s.
Proof.
  intros C W NK NF. destruct C; forall_inv; repeat match goal with H : wf_arg _ |- _ => destruct H end.
  - apply len_meets.
  - apply index_int_meets; assumption.
  - apply index_big_meets; assumption.
  - apply substring_meets.
  - apply contains_meets.
  - apply index_of_meets.
  - apply reverse_meets.
  - apply insert_meets.
  - apply replace_meets.
  - apply delete_meets.
  - apply split_meets.
  - apply chars_meets.
  - apply parse_int_meets.
  - apply parse_int_radix_meets.
  - apply parse_bigint_meets.
  - apply parse_bigint_radix_meets.
  - apply parse_float_meets.
  - apply parse_bool_meets.
  - apply parse_byte_meets.
  - apply repeat_meets.
  - apply repeat_meets.
  - apply repeat_meets.
  - apply repeat_meets.
  - apply concat_meets.
  - apply to_int_meets; assumption.
  - apply to_bigint_meets; assumption.
  - apply to_byte_meets; assumption.
  - apply to_float_meets.
  - apply abs_meets; assumption.
  - apply pow_int_meets. intros f ->. apply NF. left. eauto.
  - exfalso. apply NF. right. reflexivity.
  - apply sqrt_meets.
  - apply floor_meets.
  - apply ceil_meets.
  - apply round_meets.
  - apply ipart_meets.
  - apply fpart_meets.
  - apply to_str_meets.
  - apply to_ascii_meets. destruct (Z_lt_le_dec b 128) as [L|L]; [exact L|].
    exfalso. apply NK. split; [reflexivity|]. exists b. auto.
Qed.

(* C14: every call yields the demanded value on the domain of its method and stops outside it *)
Theorem methods_meet_spec_partial : forall m args,
  Forall wf_arg args -> ~ known_class m args -> ~ float_pow m args ->
  meets (run_impl m args) (run_spec m args).
Proof.
  intros m args W NK NF. destruct (call_cases m args) as [[_ ->]|C]; [exact I|].
  exact (call_meets _ _ _ _ C W NK NF).
Qed.

Definition ty_of (v : val) : option ty :=
  match v with
  | VInt _ => Some TInt | VBig _ => Some TBig | VByte _ => Some TByte | VFloat _ => Some TFloat
  | VBool _ => Some TBool | VStr _ => Some TStr | _ => None
  end.

Lemma forallb_map_true {A B} (P : B -> bool) (f : A -> B) l : (forall a, P (f a) = true) -> forallb P (map f l) = true.
Proof. intros H. induction l as [|a l IH]; [reflexivity|]. cbn [map forallb]. rewrite H. exact IH. Qed.

#[local] Hint Unfold impl_len impl_index_int impl_index_big nth_char impl_substring impl_contains impl_index_of
  impl_reverse impl_insert impl_replace impl_delete impl_split impl_chars
  impl_parse_int impl_parse_bigint impl_parse_int_radix impl_parse_bigint_radix impl_parse_radix
  impl_parse_float impl_parse_bool impl_parse_byte opt_val impl_repeat impl_concat
  impl_to_int impl_to_bigint impl_to_byte impl_to_float impl_abs impl_pow impl_powf impl_sqrt
  impl_floor impl_ceil impl_round impl_ipart impl_fpart impl_to_str impl_to_ascii : arms.

(* H : arm = Ok v.  Every arm is a tree of tests with outcomes at the leaves: drop the leaves that are no value *)
Ltac ok_cases H :=
  autounfold with arms in H;
  repeat (match type of H with
          | context [if ?c then _ else _] => destruct c eqn:?
          | context [match ?x with _ => _ end] => destruct x eqn:?
          end; try discriminate H);
  try discriminate H; injection H as <-.

Lemma call_kind m args o s : call m args o s -> forall recv rest v, args = recv :: rest -> o = Ok v ->
  exists tr t, ty_of recv = Some tr /\ declared m tr = Some t /\ has_ty v t = true.
Proof.
  intros C recv rest v E H. destruct C; injection E as <- <-; ok_cases H.
  all: eexists; eexists; split; [reflexivity|]; split; [reflexivity|]; try reflexivity.
  apply forallb_map_true. reflexivity.
Qed.

(* C14: a result has the type that get_property_type declares for the method on a receiver of that kind *)
Theorem result_kind : forall m recv rest v,
  run_impl m (recv :: rest) = Ok v ->
  exists tr t, ty_of recv = Some tr /\ declared m tr = Some t /\ has_ty v t = true.
Proof.
  intros m recv rest v H. destruct (call_cases m (recv :: rest)) as [[E _]|C]; [congruence|].
  exact (call_kind _ _ _ _ C _ _ _ eq_refl H).
Qed.

Lemma call_range m args o s : call m args o s ->
  Forall (fun a => wf_val a = true) args -> forall v, o = Ok v -> wf_val v = true.
Proof.
  intros C W v H. destruct C; forall_inv; ok_cases H; cbn [wf_val forallb andb] in *; try reflexivity; try assumption.
  (* left: chars, and the numbers that are not simply an argument or the subject of the arm's own range test *)
  1: apply forallb_map_true; reflexivity.
  all: repeat match goal with
              | E : from_str_radix _ _ _ _ _ = Some _ |- _ => apply from_str_radix_range in E
              | E : checked_pow _ _ _ = Some _ |- _ => apply checked_pow_range in E
              end.
  all: unfold in_i32, in_i128, in_u8, i32_min, i32_max, i128_min, i128_max in *; lia.
Qed.

(* ... and lies in the machine range of its kind *)
Theorem result_in_range : forall m args v,
  Forall (fun a => wf_val a = true) args -> run_impl m args = Ok v -> wf_val v = true.
Proof.
  intros m args v W H. destruct (call_cases m args) as [[E _]|C]; [congruence|].
  exact (call_range _ _ _ _ C W v H).
Qed.

(* run_impl_head is the model of the arms before fixes/c14-*.diff; each lemma is a witness that the arm violated the
   specification (every witness was reproduced on the real binary). *)

Definition float_bits (o : outcome) : option Z :=
  match o with Ok (VFloat f) => Some (to_bits f) | _ => None end.
Definition spec_bits (o : sres) : option Z :=
  match o with SVal (VFloat f) => Some (to_bits f) | _ => None end.

(* 1e300.to_bigint() = i64::MAX *)
Lemma head_to_bigint_refuted :
  let x := VFloat (of_bits 9094988921128908188) in
  run_impl_head MToBigint [x] = Ok (VBig 9223372036854775807) /\ run_spec MToBigint [x] = SFail.
Proof. vm_compute. split; reflexivity. Qed.

(* NaN.to_int() = 0, NaN.to_byte() = 0 *)
Lemma head_to_int_nan_refuted :
  let x := VFloat (of_bits 9221120237041090560) in
  run_impl_head MToInt [x] = Ok (VInt 0) /\ run_spec MToInt [x] = SFail /\
  run_impl_head MToByte [x] = Ok (VByte 0) /\ run_spec MToByte [x] = SFail.
Proof. vm_compute. repeat split; reflexivity. Qed.

(* B4294967297.sqrt() = 1.0 (the low 32 bits are 1); demanded: 65536.0000076... *)
Lemma head_sqrt_bigint_refuted :
  float_bits (run_impl_head MSqrt [VBig 4294967297]) = Some 4607182418800017408 /\
  spec_bits (run_spec MSqrt [VBig 4294967297]) = Some 4679240012838469632.
Proof. vm_compute. split; reflexivity. Qed.

(* B4294967298.powf(y) calls pow(2.0, y) *)
Lemma head_powf_bigint_refuted :
  match run_impl_head MPowf [VBig 4294967298; VFloat fone], run_impl MPowf [VBig 4294967298; VFloat fone] with
  | LibmPow x _, LibmPow x' _ => to_bits x = 4611686018427387904 /\ to_bits x' = 4751297606877970432
  | _, _ => False
  end.
Proof. vm_compute. split; reflexivity. Qed.

(* 70000.pow(2) panics (wraps in a release build); 4900000000 is a bigint *)
Lemma head_pow_int_refuted :
  run_impl_head MPow [VInt 70000; VInt 2] = Panic /\ run_spec MPow [VInt 70000; VInt 2] = SVal (VBig 4900000000).
Proof. vm_compute. split; reflexivity. Qed.

(* "abc"[B18446744073709551616] = "a" *)
Lemma head_index_bigint_refuted :
  run_impl_head MIndex [VStr [97; 98; 99]%N; VBig 18446744073709551616] = Ok (VStr [97%N]) /\
  run_spec MIndex [VStr [97; 98; 99]%N; VBig 18446744073709551616] = SFail.
Proof. vm_compute. split; reflexivity. Qed.

(* "0x10".parse_int() = 10 *)
Lemma head_parse_int_0x_refuted :
  run_impl_head MParseInt [VStr [48; 120; 49; 48]%N] = Ok (VInt 10) /\
  run_spec MParseInt [VStr [48; 120; 49; 48]%N] = SVal (VInt 16).
Proof. vm_compute. split; reflexivity. Qed.

(* "0x10".parse_int_radix(10) is not a decimal numeral; "0xz".parse_bigint_radix(36) is 0*36^2 + 33*36 + 35 *)
Lemma head_parse_radix_0x_refuted :
  run_impl_head MParseIntRadix [VStr [48; 120; 49; 48]%N; VInt 10] = Ok (VInt 10) /\
  run_spec MParseIntRadix [VStr [48; 120; 49; 48]%N; VInt 10] = SVal VNil /\
  run_impl MParseIntRadix [VStr [48; 120; 49; 48]%N; VInt 10] = Ok VNil /\
  run_impl_head MParseBigintRadix [VStr [48; 120; 122]%N; VInt 36] = Ok (VBig 35) /\
  run_spec MParseBigintRadix [VStr [48; 120; 122]%N; VInt 36] = SVal (VBig 1223) /\
  run_impl MParseBigintRadix [VStr [48; 120; 122]%N; VInt 36] = Ok (VBig 1223) /\
  run_impl MParseIntRadix [VStr [48; 120; 49; 48]%N; VInt 16] = Ok (VInt 16).
Proof. repeat split; vm_compute; reflexivity. Qed.

(* "abc".delete(0, 3) panics *)
Lemma head_delete_all_refuted :
  run_impl_head MDelete [VStr [97; 98; 99]%N; VInt 0; VInt 3] = Panic /\
  run_spec MDelete [VStr [97; 98; 99]%N; VInt 0; VInt 3] = SVal (VStr []).
Proof. vm_compute. split; reflexivity. Qed.

(* B2147483648.to_float() is an error *)
Lemma head_to_float_bigint_refuted :
  run_impl_head MToFloat [VBig 2147483648] = Err /\ spec_bits (run_spec MToFloat [VBig 2147483648]) = Some 4746794007248502784.
Proof. vm_compute. split; reflexivity. Qed.

Lemma repaired_on_witnesses :
  run_impl MToBigint [VFloat (of_bits 9094988921128908188)] = Err /\
  run_impl MToInt [VFloat (of_bits 9221120237041090560)] = Err /\
  run_impl MPow [VInt 70000; VInt 2] = Ok (VBig 4900000000) /\
  run_impl MIndex [VStr [97; 98; 99]%N; VBig 18446744073709551616] = Err /\
  run_impl MParseInt [VStr [48; 120; 49; 48]%N] = Ok (VInt 16) /\
  run_impl MDelete [VStr [97; 98; 99]%N; VInt 0; VInt 3] = Ok (VStr []).
Proof. vm_compute. repeat split; reflexivity. Qed.
