(* C14, string built-ins: spec_* = meaning, impl = spec_* (value on the domain, stop outside).
   The byte-offset methods are read through cut_spec / cut2_spec, the searching ones through find. *)
From MS Require Import Base.Str Base.StrFacts Builtins.Val Builtins.Utf8 Builtins.Numeral Builtins.StrImpl Builtins.StrSpec.
From Coq Require Import Lia ZifyBool.
Open Scope Z_scope.

(* a demanded failure is met by either failure class: the property asks that the program stops, not how *)
Definition meets (o : outcome) (s : sres) : Prop :=
  match s with
  | SVal v => o = Ok v
  | SFail => o = Err \/ o = Panic
  | SUnspec => True
  end.

(* a Rust String holds at most isize::MAX bytes *)
Definition fits (s : str) : Prop := Z.of_N (blen s) <= isize_max.

Lemma in_i32_iff z : in_i32 z = true <-> -2147483648 <= z <= 2147483647.
Proof. unfold in_i32. lia. Qed.
Lemma in_i128_iff z : in_i128 z = true <-> -170141183460469231731687303715884105728 <= z <= 170141183460469231731687303715884105727.
Proof. unfold in_i128. lia. Qed.
Lemma in_u8_iff z : in_u8 z = true <-> 0 <= z <= 255.
Proof. unfold in_u8. lia. Qed.

Lemma skipn_app_length {A} (a r : list A) : skipn (length a) (a ++ r) = r.
Proof. induction a as [|x a IH]; [reflexivity | exact IH]. Qed.
Lemma firstn_app_length {A} (a r : list A) : firstn (length a) (a ++ r) = a.
Proof. induction a as [|x a IH]; [reflexivity | cbn; rewrite IH; reflexivity]. Qed.

Theorem len_meets s : meets (impl_len s) (spec_len s).
Proof. unfold impl_len, spec_len. destruct (in_i32 _); cbn; auto. Qed.

Theorem len_meaning s n : spec_len s = SVal (VInt n) -> n = Z.of_N (blen s).
Proof. unfold spec_len. destruct (in_i32 _); intros H; inversion H; reflexivity. Qed.

Lemma nth_char_spec s i : nth_char s i = match spec_index s i with SVal v => Ok v | _ => Err end.
Proof.
  unfold nth_char, spec_index. destruct ((0 <=? i) && (i <? Z.of_nat (length s))); [|reflexivity].
  destruct (nth_error s (Z.to_nat i)); reflexivity.
Qed.

Lemma length_fits s : fits s -> Z.of_nat (length s) <= isize_max.
Proof.
  unfold fits. intros H. pose proof (length_le_blen s). lia.
Qed.

Lemma spec_index_range s i : (i < 0 \/ Z.of_nat (length s) <= i) -> spec_index s i = SFail.
Proof.
  intros H. unfold spec_index. destruct ((0 <=? i) && (i <? Z.of_nat (length s))) eqn:E; [lia | reflexivity].
Qed.

Theorem index_int_meets s i : fits s -> in_i32 i = true -> meets (impl_index_int s i) (spec_index s i).
Proof.
  (* a negative i32 becomes at least 2^64 - 2^31 as a usize: no position of a string that fits *)
  intros F R. unfold impl_index_int. apply length_fits in F. unfold isize_max in F. apply in_i32_iff in R.
  rewrite nth_char_spec. destruct (i <? 0) eqn:N.
  - rewrite !spec_index_range by lia. cbn. auto.
  - destruct (spec_index s i); cbn; auto.
Qed.

Theorem index_big_meets s i : fits s -> meets (impl_index_big s i) (spec_index s i).
Proof.
  intros F. unfold impl_index_big. apply length_fits in F. unfold isize_max in F.
  destruct (in_usize i) eqn:U.
  - rewrite nth_char_spec. destruct (spec_index s i); cbn; auto.
  - unfold in_usize in U. rewrite spec_index_range by lia. cbn. auto.
Qed.

Theorem index_meaning s i c :
  spec_index s i = SVal (VStr [c]) <-> (0 <= i /\ nth_error s (Z.to_nat i) = Some c).
Proof.
  unfold spec_index. split.
  - destruct ((0 <=? i) && (i <? Z.of_nat (length s))) eqn:E; [|discriminate].
    destruct (nth_error s (Z.to_nat i)); [|discriminate]. intros [= <-]. split; [lia | reflexivity].
  - intros [P H]. assert (L : (Z.to_nat i < length s)%nat) by (apply nth_error_Some; congruence).
    replace ((0 <=? i) && (i <? Z.of_nat (length s))) with true by lia. rewrite H. reflexivity.
Qed.

Lemma cutZ_spec s b a r : (0 <= b /\ cut s (Z.to_N b) = Some (a, r)) <-> AtByte s b a r.
Proof. unfold AtByte. rewrite cut_spec. intuition lia. Qed.

Definition cut2 (s : str) (b t : Z) : option (str * str * str) :=
  if (0 <=? b) && (b <=? t) then
    match cut s (Z.to_N b), cut s (Z.to_N t) with
    | Some (a, _), Some (a', c) => Some (a, skipn (length a) a', c)
    | _, _ => None
    end
  else None.

Lemma cut2_spec s b t a m c :
  cut2 s b t = Some (a, m, c) <-> s = a ++ m ++ c /\ Z.of_N (blen a) = b /\ Z.of_N (blen (a ++ m)) = t.
Proof.
  unfold cut2. split.
  - destruct ((0 <=? b) && (b <=? t)) eqn:G; [|discriminate].
    destruct (cut s (Z.to_N b)) as [[a0 x]|] eqn:C1; [|discriminate].
    destruct (cut s (Z.to_N t)) as [[a' c']|] eqn:C2; [|discriminate].
    apply cut_spec in C1 as [S1 L1], C2 as [S2 L2].
    destruct (prefix_blen_le a0 a' x c') as [m' ->]; [congruence | lia |].
    rewrite skipn_app_length. intros [= <- <- <-]. rewrite <- app_assoc in S2. repeat split; [exact S2 | lia | lia].
  - intros (-> & L1 & L2).
    replace ((0 <=? b) && (b <=? t)) with true by (rewrite blen_app in L2; lia).
    replace (Z.to_N b) with (blen a) by lia. rewrite cut_complete.
    replace (Z.to_N t) with (blen (a ++ m)) by lia. rewrite app_assoc, cut_complete, skipn_app_length. reflexivity.
Qed.

Lemma fails_where_empty (sp : sres) (R : str -> Prop) :
  (forall r, sp = SVal (VStr r) <-> R r) -> (sp = SFail \/ exists r, sp = SVal (VStr r)) ->
  (sp = SFail <-> forall r, ~ R r).
Proof.
  intros M Sh. split.
  - intros F r H. apply M in H. congruence.
  - intros H. destruct Sh as [F|[r E]]; [exact F|]. apply M in E. exfalso. exact (H r E).
Qed.

Lemma spec_substring_cut2 s b t :
  spec_substring s b t = match cut2 s b t with Some (_, m, _) => SVal (VStr m) | None => SFail end.
Proof.
  unfold spec_substring, cut2. destruct ((0 <=? b) && (b <=? t)); [|reflexivity].
  destruct (cut s (Z.to_N b)) as [[a x]|]; [|reflexivity]. destruct (cut s (Z.to_N t)) as [[a' c]|]; reflexivity.
Qed.

Theorem substring_meaning s b t r : spec_substring s b t = SVal (VStr r) <-> Substring s b t r.
Proof.
  rewrite spec_substring_cut2. unfold Substring. split.
  - destruct (cut2 s b t) as [[[a m] c]|] eqn:C; [|discriminate]. intros [= <-].
    exists a, c. apply cut2_spec. exact C.
  - intros (a & c & H). apply cut2_spec in H. rewrite H. reflexivity.
Qed.

Lemma spec_substring_shape s b t : spec_substring s b t = SFail \/ exists r, spec_substring s b t = SVal (VStr r).
Proof. rewrite spec_substring_cut2. destruct (cut2 s b t) as [[[a m] c]|]; eauto. Qed.

Theorem substring_domain s b t : spec_substring s b t = SFail <-> (forall r, ~ Substring s b t r).
Proof. exact (fails_where_empty _ _ (substring_meaning s b t) (spec_substring_shape s b t)). Qed.

Theorem substring_meets s b t : meets (impl_substring s b t) (spec_substring s b t).
Proof.
  rewrite spec_substring_cut2. unfold impl_substring. destruct (cut2 s b t) as [[[a m] c]|] eqn:C.
  - apply cut2_spec in C as (-> & L1 & L2). rewrite blen_app in L2.
    replace (b <? 0) with false by lia. replace (t <? 0) with false by lia. replace (t <? b) with false by lia.
    replace (Z.to_N b) with (blen a) by lia. rewrite cut_complete.
    replace (Z.to_N (t - b)) with (blen m) by lia. rewrite cut_complete. reflexivity.
  - cbn [meets]. destruct (b <? 0) eqn:B; [auto|]. destruct (t <? 0) eqn:T; [auto|]. destruct (t <? b) eqn:TB; [auto|].
    destruct (cut s (Z.to_N b)) as [[a x]|] eqn:C1; [|auto].
    destruct (cut x (Z.to_N (t - b))) as [[m c]|] eqn:C2; [|auto].
    exfalso. apply cut_spec in C1 as [-> L1], C2 as [-> L2].
    rewrite (proj2 (cut2_spec (a ++ m ++ c) b t a m c)) in C; [discriminate|]. rewrite blen_app. repeat split; lia.
Qed.

Lemma is_prefix_spec p s : is_prefix p s = true <-> exists c, s = p ++ c.
Proof.
  revert s. induction p as [|x p IH]; intros s; cbn [is_prefix].
  - split; [intros _; exists s; reflexivity | reflexivity].
  - destruct s as [|y s].
    + split; [discriminate | intros [c H]; discriminate].
    + split.
      * intros H. apply andb_true_iff in H as [H1 H2]. apply N.eqb_eq in H1. apply IH in H2 as [c ->].
        exists c. subst. reflexivity.
      * intros [c H]. cbn [app] in H. injection H as -> ->. apply andb_true_iff. split; [apply N.eqb_refl|].
        apply IH. exists c. reflexivity.
Qed.

Lemma is_prefix_firstn o x : str_eqb (firstn (length o) x) o = is_prefix o x.
Proof.
  revert x. induction o as [|c o IH]; intros x; cbn [length firstn is_prefix]; [reflexivity|].
  destruct x as [|y x]; [reflexivity|]. cbn [str_eqb]. rewrite <- IH. cbn [str_eqb].
  rewrite N.eqb_sym. reflexivity.
Qed.

Lemma find_sound p : forall s a r, find p s = Some (a, r) ->
  s = a ++ r /\ is_prefix p r = true /\
  (forall a' r', s = a' ++ r' -> (length a' < length a)%nat -> is_prefix p r' = false).
Proof.
  induction s as [|c t IH]; intros a r H; cbn [find] in H.
  - destruct (is_prefix p []) eqn:P; [|discriminate]. injection H as <- <-.
    repeat split; auto. intros a' r' _ L. cbn in L. lia.
  - destruct (is_prefix p (c :: t)) eqn:P.
    + injection H as <- <-. repeat split; auto. intros a' r' _ L. cbn in L. lia.
    + destruct (find p t) as [[a0 r0]|] eqn:F; [|discriminate]. injection H as <- <-.
      destruct (IH _ _ eq_refl) as (E & Q & M). subst t. repeat split; auto.
      intros a' r' E' L. destruct a' as [|c' a'].
      * cbn [app] in E'. subst r'. exact P.
      * cbn [app] in E'. injection E' as <- E'. apply (M a' r' E'). cbn [length] in L. lia.
Qed.

Lemma find_none p : forall s, find p s = None -> forall a r, s = a ++ r -> is_prefix p r = false.
Proof.
  induction s as [|c t IH]; intros H a r E; cbn [find] in H.
  - destruct (is_prefix p []) eqn:P; [discriminate|].
    destruct a; [|discriminate]. cbn in E. subst r. exact P.
  - destruct (is_prefix p (c :: t)) eqn:P; [discriminate|].
    destruct (find p t) as [[a0 r0]|] eqn:F; [discriminate|].
    destruct a as [|c' a]; cbn [app] in E.
    + subst r. exact P.
    + injection E as <- E. exact (IH eq_refl a r E).
Qed.

Lemma occurs_prefix o s a : OccursAt o s a <-> exists r, s = a ++ r /\ is_prefix o r = true.
Proof.
  unfold OccursAt. split.
  - intros [c ->]. exists (o ++ c). split; [reflexivity|]. apply is_prefix_spec. exists c. reflexivity.
  - intros (r & -> & P). apply is_prefix_spec in P as [c ->]. exists c. reflexivity.
Qed.

Theorem find_first o s a r : find o s = Some (a, r) -> FirstAt o s a.
Proof.
  intros H. apply find_sound in H as (E & P & M). split.
  - apply occurs_prefix. exists r. auto.
  - intros a' O. apply occurs_prefix in O as (r' & E' & P').
    destruct (Nat.le_gt_cases (length a) (length a')) as [L|L]; [exact L|].
    rewrite (M a' r' E' L) in P'. discriminate.
Qed.

Lemma find_some o s a r : find o s = Some (a, r) -> exists c, r = o ++ c /\ s = a ++ o ++ c /\ FirstAt o s a.
Proof.
  intros H. pose proof (find_first _ _ _ _ H) as F. apply find_sound in H as (-> & P & _).
  apply is_prefix_spec in P as [c ->]. exists c. auto.
Qed.

Theorem find_absent o s : find o s = None <-> ~ Occurs o s.
Proof.
  split.
  - intros H [a O]. apply occurs_prefix in O as (r & E & P).
    rewrite (find_none o s H a r E) in P. discriminate.
  - intros H. destruct (find o s) as [[a r]|] eqn:F; [|reflexivity].
    exfalso. apply H. exists a. exact (proj1 (find_first _ _ _ _ F)).
Qed.

Lemma app_same_length {A} (a a' r r' : list A) : a ++ r = a' ++ r' -> length a = length a' -> a = a' /\ r = r'.
Proof.
  revert a'. induction a as [|x a IH]; intros [|y a'] E L; try discriminate.
  - auto.
  - cbn [app] in E. injection E as -> E. cbn [length] in L.
    destruct (IH a' E) as [-> ->]; [lia | auto].
Qed.

Lemma first_unique o s a a' : FirstAt o s a -> FirstAt o s a' -> a = a'.
Proof.
  intros [[c O] M] [[c' O'] M'].
  assert (L : length a = length a').
  { apply Nat.le_antisymm; [apply M; exists c'; exact O' | apply M'; exists c; exact O]. }
  rewrite O in O'. exact (proj1 (app_same_length _ _ _ _ O' L)).
Qed.

Lemma first_pos_S o s k f :
  first_pos o s k (S f) = if str_eqb (firstn (length o) (skipn k s)) o then Some k else first_pos o s (S k) f.
Proof. reflexivity. Qed.

Lemma first_pos_find o : forall x pre,
  first_pos o (pre ++ x) (length pre) (S (length x)) =
  match find o x with Some (a, _) => Some (length pre + length a)%nat | None => None end.
Proof.
  induction x as [|c t IH]; intros pre; rewrite first_pos_S, skipn_app_length, is_prefix_firstn; cbn [find].
  - destruct (is_prefix o []); [cbn; f_equal; lia | reflexivity].
  - destruct (is_prefix o (c :: t)); [cbn; f_equal; lia|].
    replace (pre ++ c :: t) with ((pre ++ [c]) ++ t) by (rewrite <- app_assoc; reflexivity).
    replace (S (length pre)) with (length (pre ++ [c])) by (rewrite app_length; cbn; lia).
    cbn [length]. rewrite IH. destruct (find o t) as [[a r]|]; [|reflexivity].
    rewrite app_length. cbn [length]. f_equal. lia.
Qed.

Lemma spec_find_find o s :
  spec_find o s = match find o s with Some (a, _) => Some (length a) | None => None end.
Proof. unfold spec_find. exact (first_pos_find o s []). Qed.

Lemma spec_contains_find s o :
  spec_contains s o = SVal (VBool (match find o s with Some _ => true | None => false end)).
Proof. unfold spec_contains. rewrite spec_find_find. destruct (find o s) as [[a r]|]; reflexivity. Qed.

Lemma spec_index_of_find s o :
  spec_index_of s o = match find o s with
                      | Some (a, _) => let n := Z.of_N (blen a) in if in_i32 n then SVal (VInt n) else SFail
                      | None => SVal VNil
                      end.
Proof.
  unfold spec_index_of. rewrite spec_find_find. destruct (find o s) as [[a r]|] eqn:F; [|reflexivity].
  apply find_sound in F as (-> & _). rewrite firstn_app_length. reflexivity.
Qed.

Theorem contains_meets s o : meets (impl_contains s o) (spec_contains s o).
Proof. rewrite spec_contains_find. reflexivity. Qed.

Theorem contains_meaning s o : spec_contains s o = SVal (VBool true) <-> Occurs o s.
Proof.
  rewrite spec_contains_find. destruct (find o s) as [[a r]|] eqn:F.
  - split; [intros _; exists a; exact (proj1 (find_first _ _ _ _ F)) | reflexivity].
  - split; [discriminate | intros O; apply find_absent in F; contradiction].
Qed.

Theorem index_of_meets s o : meets (impl_index_of s o) (spec_index_of s o).
Proof.
  rewrite spec_index_of_find. unfold impl_index_of.
  destruct (find o s) as [[a r]|]; [destruct (in_i32 _)|]; cbn; auto.
Qed.

Theorem index_of_meaning s o n :
  spec_index_of s o = SVal (VInt n) -> exists a, FirstAt o s a /\ n = Z.of_N (blen a).
Proof.
  rewrite spec_index_of_find. destruct (find o s) as [[a r]|] eqn:F; [|discriminate].
  cbv zeta. destruct (in_i32 _); [|discriminate]. intros [= <-]. exists a. split; [exact (find_first _ _ _ _ F) | reflexivity].
Qed.

Theorem index_of_nil s o : spec_index_of s o = SVal VNil <-> ~ Occurs o s.
Proof.
  rewrite spec_index_of_find, <- find_absent. destruct (find o s) as [[a r]|].
  - cbv zeta. destruct (in_i32 _); split; discriminate.
  - split; reflexivity.
Qed.

Theorem index_of_witnesses_contains s o :
  (exists n, spec_index_of s o = SVal (VInt n)) -> spec_contains s o = SVal (VBool true).
Proof.
  intros [n H]. apply index_of_meaning in H as (a & [O _] & _). apply contains_meaning. exists a. exact O.
Qed.

Theorem reverse_meets s : meets (impl_reverse s) (spec_reverse s).
Proof. reflexivity. Qed.

Theorem reverse_involutive s : forall r, spec_reverse s = SVal (VStr r) -> spec_reverse r = SVal (VStr s).
Proof. unfold spec_reverse. intros r H. inversion H. rewrite rev_involutive. reflexivity. Qed.

Theorem reverse_same_bytes s r : spec_reverse s = SVal (VStr r) -> blen r = blen s.
Proof. unfold spec_reverse. intros H. inversion H. apply blen_rev. Qed.

Theorem insert_meaning s new b r : spec_insert s new b = SVal (VStr r) <-> Inserted s new b r.
Proof.
  unfold spec_insert, Inserted. split.
  - destruct (0 <=? b) eqn:P; [|discriminate].
    destruct (cut s (Z.to_N b)) as [[a c]|] eqn:C; [|discriminate]. intros [= <-].
    exists a, c. split; [apply cutZ_spec; split; [lia | exact C] | reflexivity].
  - intros (a & c & A & ->). apply cutZ_spec in A as [P C].
    replace (0 <=? b) with true by lia. rewrite C. reflexivity.
Qed.

Lemma spec_insert_shape s new b : spec_insert s new b = SFail \/ exists r, spec_insert s new b = SVal (VStr r).
Proof. unfold spec_insert. destruct (0 <=? b); [|auto]. destruct (cut s (Z.to_N b)) as [[a c]|]; eauto. Qed.

Theorem insert_domain s new b : spec_insert s new b = SFail <-> (forall r, ~ Inserted s new b r).
Proof. exact (fails_where_empty _ _ (insert_meaning s new b) (spec_insert_shape s new b)). Qed.

Theorem insert_meets s new b : meets (impl_insert s new b) (spec_insert s new b).
Proof.
  unfold impl_insert, spec_insert. replace (0 <=? b) with (negb (b <? 0)) by lia.
  destruct (b <? 0); [cbn; auto|]. destruct (cut s (Z.to_N b)) as [[a c]|]; cbn; auto.
Qed.

Lemma spec_delete_cut2 s b t :
  spec_delete s b t = match cut2 s b t with Some (a, _, c) => SVal (VStr (a ++ c)) | None => SFail end.
Proof.
  unfold spec_delete, cut2. destruct ((0 <=? b) && (b <=? t)); [|reflexivity].
  destruct (cut s (Z.to_N b)) as [[a x]|]; [|reflexivity]. destruct (cut s (Z.to_N t)) as [[a' c]|]; reflexivity.
Qed.

Theorem delete_meaning s b t r : spec_delete s b t = SVal (VStr r) <-> Deleted s b t r.
Proof.
  rewrite spec_delete_cut2. unfold Deleted. split.
  - destruct (cut2 s b t) as [[[a m] c]|] eqn:C; [|discriminate]. intros [= <-].
    exists a, m, c. apply cut2_spec in C as (S & L1 & L2). auto.
  - intros (a & m & c & S & L1 & L2 & ->). rewrite (proj2 (cut2_spec s b t a m c)) by auto. reflexivity.
Qed.

Lemma spec_delete_shape s b t : spec_delete s b t = SFail \/ exists r, spec_delete s b t = SVal (VStr r).
Proof. rewrite spec_delete_cut2. destruct (cut2 s b t) as [[[a m] c]|]; eauto. Qed.

Theorem delete_domain s b t : spec_delete s b t = SFail <-> (forall r, ~ Deleted s b t r).
Proof. exact (fails_where_empty _ _ (delete_meaning s b t) (spec_delete_shape s b t)). Qed.

Theorem delete_meets s b t : meets (impl_delete s b t) (spec_delete s b t).
Proof.
  unfold impl_delete, spec_delete.
  replace ((0 <=? b) && (b <=? t)) with (negb (b <? 0) && negb (t <? 0) && negb (t <? b)) by lia.
  destruct (b <? 0); [cbn; auto|]. destruct (t <? 0); [cbn; auto|]. destruct (t <? b); [cbn; auto|]. cbn [negb andb].
  destruct (cut s (Z.to_N b)) as [[a x]|]; [|cbn; auto].
  destruct (cut s (Z.to_N t)) as [[a' c]|]; cbn; auto.
Qed.

Theorem delete_insert s new b r :
  spec_insert s new b = SVal (VStr r) -> spec_delete r b (b + Z.of_N (blen new)) = SVal (VStr s).
Proof.
  intros H. apply insert_meaning in H as (a & c & [E L] & ->). apply delete_meaning.
  exists a, new, c. rewrite blen_app. repeat split; try lia; try reflexivity. exact E.
Qed.

Theorem substring_whole s : spec_substring s 0 (Z.of_N (blen s)) = SVal (VStr s).
Proof.
  apply substring_meaning. exists [], []. rewrite app_nil_r. cbn [app blen]. repeat split; lia.
Qed.

Theorem split_meets s mid : meets (impl_split s mid) (spec_split s mid).
Proof.
  unfold impl_split, spec_split. destruct (mid <? 0); [reflexivity|].
  destruct (in_i32 (Z.of_N (blen s))); cbn [negb]; [|cbn; auto].
  destruct (Z.of_N (blen s) <=? mid); [reflexivity|].
  destruct (cut s (Z.to_N mid)) as [[a r]|]; cbn; auto.
Qed.

Lemma split_cases s mid a b : spec_split s mid = SVal (VVec [VStr a; VStr b]) ->
  ((mid < 0 \/ Z.of_N (blen s) <= mid) /\ a = s /\ b = []) \/ AtByte s mid a b.
Proof.
  unfold spec_split. destruct (mid <? 0) eqn:N; [intros [= <- <-]; left; split; [lia | auto]|].
  destruct (in_i32 _); cbn [negb]; [|discriminate].
  destruct (_ <=? mid) eqn:L; [intros [= <- <-]; left; split; [lia | auto]|].
  destruct (cut s (Z.to_N mid)) as [[x y]|] eqn:C; [|discriminate].
  intros [= <- <-]. right. apply cutZ_spec. split; [lia | exact C].
Qed.

Theorem split_concat s mid a b : spec_split s mid = SVal (VVec [VStr a; VStr b]) -> a ++ b = s.
Proof.
  intros H. destruct (split_cases _ _ _ _ H) as [(_ & -> & ->) | [-> _]]; [apply app_nil_r | reflexivity].
Qed.

Theorem split_meaning s mid a b :
  0 <= mid < Z.of_N (blen s) -> spec_split s mid = SVal (VVec [VStr a; VStr b]) -> AtByte s mid a b.
Proof. intros R H. destruct (split_cases _ _ _ _ H) as [[O _] | A]; [lia | exact A]. Qed.

Theorem chars_meets s : meets (impl_chars s) (spec_chars s).
Proof. reflexivity. Qed.

Theorem chars_concat s : concat (map (fun c : N => [c]) s) = s.
Proof. induction s as [|c t IH]; [reflexivity|]. cbn. rewrite IH. reflexivity. Qed.

Lemma repeat_str_concat n s : repeat_str n s = concat (repeat s n).
Proof. induction n as [|n IH]; [reflexivity|]. cbn. rewrite IH. reflexivity. Qed.

Theorem repeat_meets s n : meets (impl_repeat s n) (spec_repeat s n).
Proof.
  unfold impl_repeat, spec_repeat. destruct (in_usize n); cbn [negb]; [|cbn; auto].
  destruct s as [|c s]; [reflexivity|].
  destruct (isize_max <? _); [cbn; auto|]. rewrite repeat_str_concat. reflexivity.
Qed.

Lemma blen_repeat n s : blen (repeat_str n s) = (N.of_nat n * blen s)%N.
Proof.
  induction n as [|n IH]; [reflexivity|]. cbn [repeat_str]. rewrite blen_app, IH. lia.
Qed.

Theorem repeat_len s n r :
  spec_repeat s n = SVal (VStr r) -> Z.of_N (blen r) = n * Z.of_N (blen s).
Proof.
  unfold spec_repeat. destruct (in_usize n) eqn:U; cbn [negb]; [|discriminate]. unfold in_usize in U.
  destruct s as [|c s]; [intros [= <-]; cbn; lia|].
  destruct (isize_max <? _); [discriminate|]. intros [= <-]. rewrite <- repeat_str_concat, blen_repeat. lia.
Qed.

Lemma display_text v : display v = spec_text v.
Proof. destruct v; reflexivity. Qed.

Theorem concat_meets x y : meets (impl_concat x y) (spec_concat x y).
Proof. unfold impl_concat, spec_concat. rewrite !display_text. destruct x, y; cbn; auto. Qed.

Lemma spec_repl_skip pt rp : forall x c, spec_repl pt rp (x ++ c) (length x) = spec_repl pt rp c 0.
Proof. induction x as [|y x IH]; intros c; [reflexivity | cbn [app length spec_repl]; apply IH]. Qed.

Section Replace.
Variables pat rep : str.
Hypothesis pat_ne : pat <> [].

Lemma pat_len : (1 <= length pat)%nat.
Proof. destruct pat; [contradiction | cbn; lia]. Qed.

Lemma replaced_step_inv s r2 : Replaced pat rep s r2 ->
  forall a c, s = a ++ pat ++ c -> FirstAt pat s a -> exists c2', Replaced pat rep c c2' /\ r2 = a ++ rep ++ c2'.
Proof.
  intros H. destruct H as [s N | a2 c2 c2' F2 R2]; intros a c E F.
  - exfalso. apply N. exists a. exact (proj1 F).
  - pose proof (first_unique _ _ _ _ F F2) as ->.
    apply app_inv_head in E. apply app_inv_head in E. subst c2. exists c2'. auto.
Qed.

Lemma replaced_fun : forall s r1, Replaced pat rep s r1 -> forall r2, Replaced pat rep s r2 -> r1 = r2.
Proof.
  intros s r1 H1. induction H1 as [s N | a c c' F R IH]; intros r2 H2.
  - destruct H2 as [s N' | a2 c2 c2' F2 R2]; [reflexivity|].
    exfalso. apply N. exists a2. exact (proj1 F2).
  - destruct (replaced_step_inv _ _ H2 a c eq_refl F) as (c2' & R2 & ->).
    rewrite (IH _ R2). reflexivity.
Qed.

Lemma impl_replaced : forall fuel s, (length s < fuel)%nat -> Replaced pat rep s (repl_fuel fuel pat rep s).
Proof.
  induction fuel as [|f IH]; intros s L; [lia|]. cbn [repl_fuel].
  destruct (find pat s) as [[a r]|] eqn:F.
  - apply find_some in F as (c & -> & -> & FA). rewrite skipn_app_length.
    apply Rep_step; [exact FA|]. apply IH. rewrite !app_length in L. pose proof pat_len. lia.
  - apply Rep_none. apply find_absent. exact F.
Qed.

(* the specification scans character by character: before the first match no suffix of what it passes begins with
   the pattern (spec_repl_nomatch), at the match the pattern is skipped (spec_repl_match) *)
Lemma spec_repl_match c : spec_repl pat rep (pat ++ c) 0 = rep ++ spec_repl pat rep c 0.
Proof.
  destruct pat as [|p ps] eqn:EP; [contradiction|]. rewrite <- EP.
  assert (T : str_eqb (firstn (length pat) (pat ++ c)) pat = true).
  { rewrite is_prefix_firstn. apply is_prefix_spec. exists c. reflexivity. }
  rewrite EP in *. cbn [app spec_repl]. cbn [app] in T. rewrite T.
  cbn [length]. rewrite Nat.sub_succ, Nat.sub_0_r. rewrite spec_repl_skip. reflexivity.
Qed.

Lemma spec_repl_nomatch : forall a r,
  (forall a1 a2, a = a1 ++ a2 -> a2 <> [] -> is_prefix pat (a2 ++ r) = false) ->
  spec_repl pat rep (a ++ r) 0 = a ++ spec_repl pat rep r 0.
Proof.
  induction a as [|y a IH]; intros r H; [reflexivity|].
  cbn [app spec_repl]. rewrite is_prefix_firstn.
  assert (Q : is_prefix pat ((y :: a) ++ r) = false) by (apply (H [] (y :: a) eq_refl); discriminate).
  cbn [app] in Q. rewrite Q. f_equal. apply IH.
  intros a1 a2 E N. apply (H (y :: a1) a2); [subst a; reflexivity | exact N].
Qed.

Lemma first_no_earlier a c : FirstAt pat (a ++ pat ++ c) a ->
  forall a1 a2, a = a1 ++ a2 -> a2 <> [] -> is_prefix pat (a2 ++ pat ++ c) = false.
Proof.
  intros [_ M] a1 a2 E N. destruct (is_prefix pat (a2 ++ pat ++ c)) eqn:P; [|reflexivity]. exfalso.
  assert (O : OccursAt pat (a ++ pat ++ c) a1).
  { apply occurs_prefix. exists (a2 ++ pat ++ c). split; [subst a; rewrite <- app_assoc; reflexivity | exact P]. }
  apply M in O. subst a. rewrite app_length in O. destruct a2; [contradiction | cbn in O; lia].
Qed.

Lemma spec_replaced : forall n s, (length s < n)%nat -> Replaced pat rep s (spec_repl pat rep s 0).
Proof.
  induction n as [|n IH]; intros s L; [lia|].
  destruct (find pat s) as [[a r]|] eqn:F.
  - apply find_some in F as (c & -> & -> & FA).
    rewrite (spec_repl_nomatch a (pat ++ c) (first_no_earlier a c FA)), spec_repl_match.
    apply Rep_step; [exact FA|]. apply IH. rewrite !app_length in L. pose proof pat_len. lia.
  - pose proof (find_none _ _ F) as NM.
    replace (spec_repl pat rep s 0) with s.
    + apply Rep_none. apply find_absent. exact F.
    + rewrite <- (app_nil_r s) at 2. rewrite spec_repl_nomatch; [cbn; rewrite app_nil_r; reflexivity|].
      intros a1 a2 E _. rewrite app_nil_r. exact (NM a1 a2 E).
Qed.
End Replace.

Theorem replace_meets s pat rep : meets (impl_replace s pat rep) (spec_replace s pat rep).
Proof.
  unfold impl_replace, spec_replace, impl_replace_str. destruct pat as [|p ps] eqn:E; [reflexivity|].
  rewrite <- E. assert (NE : pat <> []) by (rewrite E; discriminate). unfold meets. do 2 f_equal.
  apply (replaced_fun pat rep s); [apply impl_replaced | apply (spec_replaced pat rep NE (S (length s)))]; auto.
Qed.

Theorem replace_meaning s pat rep r :
  pat <> [] -> (spec_replace s pat rep = SVal (VStr r) <-> Replaced pat rep s r).
Proof.
  intros NE. unfold spec_replace. destruct pat as [|p ps] eqn:E; [contradiction|]. rewrite <- E in *.
  pose proof (spec_replaced pat rep NE (S (length s)) s (Nat.lt_succ_diag_r _)) as R. split.
  - intros H. inversion H. subst. exact R.
  - intros H. rewrite (replaced_fun pat rep s _ R _ H). reflexivity.
Qed.

Theorem replace_absent s pat rep : pat <> [] -> ~ Occurs pat s -> spec_replace s pat rep = SVal (VStr s).
Proof. intros NE N. apply replace_meaning; [exact NE | apply Rep_none; exact N]. Qed.
