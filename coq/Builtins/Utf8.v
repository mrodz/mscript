(* Strings are lists of Unicode scalars; Rust `str` offsets (`len`, `find`, slicing, `insert_str`,
   `split_at`) are UTF-8 BYTE offsets.  Only the width of each character's encoding matters:
   byte length = sum of widths, and a byte offset is a character boundary iff it is the byte length of a
   prefix. *)
From MS Require Import Base.Str.
From Coq Require Import Lia.
Open Scope N_scope.

Definition w8 (c : N) : N :=
  if c <? 128 then 1 else if c <? 2048 then 2 else if c <? 65536 then 3 else 4.

Fixpoint blen (s : str) : N := match s with [] => 0 | c :: t => w8 c + blen t end.

Fixpoint cut (s : str) (b : N) : option (str * str) :=
  if b =? 0 then Some ([], s) else
  match s with
  | [] => None
  | c :: t => if w8 c <=? b
              then match cut t (b - w8 c) with Some (a, r) => Some (c :: a, r) | None => None end
              else None
  end.

Definition is_boundary (s : str) (b : N) : bool := match cut s b with Some _ => true | None => false end.

Lemma w8_pos c : 1 <= w8 c.
Proof. unfold w8. repeat destruct (_ <? _); lia. Qed.

Lemma w8_le4 c : w8 c <= 4.
Proof. unfold w8. repeat destruct (_ <? _); lia. Qed.

Lemma blen_app a b : blen (a ++ b) = blen a + blen b.
Proof. induction a as [|c a IH]; cbn [blen app]; [reflexivity | rewrite IH; lia]. Qed.

Lemma blen_0 s : blen s = 0 -> s = [].
Proof. destruct s as [|c t]; [reflexivity|]. cbn [blen]. pose proof (w8_pos c). lia. Qed.

Lemma blen_rev s : blen (rev s) = blen s.
Proof. induction s as [|c t IH]; [reflexivity|]. cbn [rev]. rewrite blen_app. cbn [blen]. lia. Qed.

Lemma length_le_blen s : N.of_nat (length s) <= blen s.
Proof. induction s as [|c t IH]; cbn [length blen]; [lia|]. pose proof (w8_pos c). lia. Qed.

Lemma prefix_blen_le : forall a a' r r', a ++ r = a' ++ r' -> blen a <= blen a' -> exists m, a' = a ++ m.
Proof.
  induction a as [|c a IH]; intros a' r r' E L; [exists a'; reflexivity|].
  destruct a' as [|c' a'].
  - cbn [blen] in L. pose proof (w8_pos c). lia.
  - cbn [app] in E. injection E as -> E. cbn [blen] in L.
    destruct (IH a' r r' E) as [m ->]; [lia|]. exists m. reflexivity.
Qed.

Lemma prefix_blen_inj : forall a a' r r', a ++ r = a' ++ r' -> blen a = blen a' -> a = a' /\ r = r'.
Proof.
  intros a a' r r' E L. destruct (prefix_blen_le a a' r r' E) as [m ->]; [lia|].
  rewrite blen_app in L. assert (m = []) as -> by (apply blen_0; lia).
  rewrite app_nil_r in *. split; [reflexivity | exact (app_inv_head _ _ _ E)].
Qed.

Lemma cut_sound : forall s b a r, cut s b = Some (a, r) -> s = a ++ r /\ blen a = b.
Proof.
  induction s as [|c t IH]; intros b a r H; cbn [cut] in H; destruct (b =? 0) eqn:B.
  1, 3: apply N.eqb_eq in B; injection H as <- <-; split; [reflexivity | cbn; lia].
  - discriminate.
  - apply N.eqb_neq in B. destruct (w8 c <=? b) eqn:W; [|discriminate]. apply N.leb_le in W.
    destruct (cut t (b - w8 c)) as [[a0 r0]|] eqn:C; [|discriminate]. injection H as <- <-.
    destruct (IH _ _ _ C) as [-> L]. split; [reflexivity|]. cbn [blen]. lia.
Qed.

Lemma cut_complete : forall a r, cut (a ++ r) (blen a) = Some (a, r).
Proof.
  induction a as [|c a IH]; intros r.
  - cbn [app blen]. destruct r; reflexivity.
  - cbn [app blen cut]. pose proof (w8_pos c).
    destruct (w8 c + blen a =? 0) eqn:B; [apply N.eqb_eq in B; lia|].
    destruct (w8 c <=? w8 c + blen a) eqn:W; [|apply N.leb_gt in W; lia].
    replace (w8 c + blen a - w8 c) with (blen a) by lia. rewrite IH. reflexivity.
Qed.

Theorem cut_spec s b a r : cut s b = Some (a, r) <-> s = a ++ r /\ blen a = b.
Proof.
  split; [apply cut_sound | intros [-> <-]; apply cut_complete].
Qed.

Lemma cut_none s b : cut s b = None <-> forall a r, s = a ++ r -> blen a <> b.
Proof.
  split.
  - intros H a r -> L. rewrite <- L, cut_complete in H. discriminate.
  - intros H. destruct (cut s b) as [[a r]|] eqn:C; [|reflexivity].
    apply cut_sound in C as [E L]. exfalso. exact (H a r E L).
Qed.

Lemma cut_all s : cut s (blen s) = Some (s, []).
Proof. rewrite <- (app_nil_r s) at 1. apply cut_complete. Qed.

Lemma cut_beyond s b : blen s < b -> cut s b = None.
Proof.
  intros H. apply cut_none. intros a r -> L. rewrite blen_app in H. lia.
Qed.
