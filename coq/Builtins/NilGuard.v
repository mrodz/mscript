(* The guard in front of the arms of BuiltInFunction::run (bytecode/src/function.rs, fix "nil-builtin-argument").

   `run_impl` (Dispatch.v) models the ARMS: an argument list of the wrong kinds is `unreachable!()` there, i.e.
   `Panic`, because the type checker never produces one.  There is one exception that the type checker does let
   through: `m[k]` has the static type `V` and reads as `nil` for a key the map does not have, so a `nil` can stand
   where an `int` / `str` / ... parameter is declared (`queue.remove(stock["pear"])`,
   `s.substring(offsets[key], 3)`).  The fixed code refuses such a call before the arms are reached:

       if !self.takes_any_value() && arguments.iter().skip(1).any(is_nil) { bail!(..) }

   `run_call` is the call as the interpreter performs it: guard, then arm.  The methods of this model that are
   built-in FUNCTIONS all have parameters of a concrete type (`takes_any_value` is true only for list / map methods,
   which are modelled in Containers/); index, `*` and `+` are instructions, not built-in functions: no guard. *)
From Coq Require Import List Bool.
Import ListNotations.
From MS Require Import Base.Str Builtins.Val Builtins.Dispatch.

Definition is_nil (v : val) : bool := match v with VNil => true | _ => false end.

Definition is_builtin_function (m : meth) : bool :=
  match m with MIndex | MRepeat | MConcat => false | _ => true end.

(* `skip(1)`: the receiver is not looked at; `lookup` fails on a nil receiver, except for `to_str`, whose arm takes any value *)
Definition nil_guard (m : meth) (args : list val) : bool :=
  is_builtin_function m && existsb is_nil (tl args).

Definition run_call (m : meth) (args : list val) : outcome :=
  if nil_guard m args then Err else run_impl m args.

(* so all theorems about `run_impl` on well-kinded lists are theorems about `run_call` *)
Lemma run_call_no_nil m args : existsb is_nil (tl args) = false -> run_call m args = run_impl m args.
Proof. intros H. unfold run_call, nil_guard. rewrite H, andb_false_r. reflexivity. Qed.

Lemma run_call_instruction m args : is_builtin_function m = false -> run_call m args = run_impl m args.
Proof. intros H. unfold run_call, nil_guard. rewrite H. reflexivity. Qed.

Lemma run_call_nil_is_error m args :
  is_builtin_function m = true -> existsb is_nil (tl args) = true -> run_call m args = Err.
Proof. intros Hm Hn. unfold run_call, nil_guard. rewrite Hm, Hn. reflexivity. Qed.

Lemma run_call_nil_never_panics m args :
  is_builtin_function m = true -> existsb is_nil (tl args) = true -> run_call m args <> Panic.
Proof. intros Hm Hn. rewrite (run_call_nil_is_error m args Hm Hn). discriminate. Qed.

(* `"hi".substring(nil, 3)`, `"10".parse_int_radix(nil)`, `2.pow(nil)` *)
Example nil_argument_arm_alone_panics :
  run_impl MSubstring [VStr [104; 105]%N; VNil; VInt 3] = Panic /\
  run_impl MParseIntRadix [VStr [49; 48]%N; VNil] = Panic /\
  run_impl MPow [VInt 2; VNil] = Panic.
Proof. repeat split; reflexivity. Qed.

Example nil_argument_is_an_error :
  run_call MSubstring [VStr [104; 105]%N; VNil; VInt 3] = Err /\
  run_call MParseIntRadix [VStr [49; 48]%N; VNil] = Err /\
  run_call MPow [VInt 2; VNil] = Err /\
  run_call MSubstring [VStr [104; 105]%N; VInt 0; VInt 1] = run_impl MSubstring [VStr [104; 105]%N; VInt 0; VInt 1].
Proof. repeat split; reflexivity. Qed.
