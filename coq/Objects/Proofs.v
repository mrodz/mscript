(* Property C08: the implementation's representation of objects (cells, a copy of the field -> cell map in
   every reference, identity tokens) refines the abstract store (identity -> field -> value) for ALL class
   tables and ALL histories.  The simulation relation goes through a registry: identity -> THE reference
   make_object built for it; that every reference in the state is the registered one is what makes two
   references with one identity the same reference. *)
From MS Require Export Objects.Spec.
From Coq Require Import Lia.

Definition rrel {A B} (P : A -> B -> Prop) (r1 : res A) (r2 : res B) : Prop :=
  match r1, r2 with
  | Ok a, Ok b => P a b
  | Fail f, Fail g => f = g
  | _, _ => False
  end.

Lemma rrel_bind : forall {A B A' B'} (P : A -> B -> Prop) (Q : A' -> B' -> Prop) r1 r2 k1 k2,
  rrel P r1 r2 -> (forall a b, P a b -> rrel Q (k1 a) (k2 b)) -> rrel Q (bind r1 k1) (bind r2 k2).
Proof.
  intros A B A' B' P Q r1 r2 k1 k2 H HK. destruct r1, r2; cbn in *; try contradiction; auto.
Qed.

Lemma rrel_weaken : forall {A B} (P Q : A -> B -> Prop) r1 r2,
  rrel P r1 r2 -> (forall a b, P a b -> Q a b) -> rrel Q r1 r2.
Proof. intros A B P Q r1 r2 H HPQ. destruct r1, r2; cbn in *; auto. Qed.

Lemma bind_ok : forall {A B} (r : res A) (k : A -> res B) b, bind r k = Ok b -> exists a, r = Ok a /\ k a = Ok b.
Proof. intros A B [a|e] k b H; [exists a; auto | discriminate]. Qed.

Definition orel {A B} (P : A -> B -> Prop) (a : option A) (b : option B) : Prop :=
  match a, b with
  | Some x, Some y => P x y
  | None, None => True
  | _, _ => False
  end.

Lemma Forall2_nth_error : forall {A B} (P : A -> B -> Prop) xs ys k,
  Forall2 P xs ys -> orel P (nth_error xs k) (nth_error ys k).
Proof.
  intros A B P xs ys k H. revert k. induction H; intros [|k]; cbn; auto.
Qed.

Lemma Forall2_length : forall {A B} (P : A -> B -> Prop) xs ys, Forall2 P xs ys -> length xs = length ys.
Proof. intros A B P xs ys H. induction H; cbn; congruence. Qed.

Lemma aget_cons : forall {A} (h : list (N * A)) k a k',
  aget ((k, a) :: h) k' = if k =? k' then Some a else aget h k'.
Proof. reflexivity. Qed.

Lemma aget_same : forall {A} (h : list (N * A)) k a, aget ((k, a) :: h) k = Some a.
Proof. intros A h k a. rewrite aget_cons, N.eqb_refl. reflexivity. Qed.

Lemma aget_in : forall {A} (h : list (N * A)) k a, aget h k = Some a -> In (k, a) h.
Proof.
  induction h as [|[k' a'] h IH]; cbn; intros k a H; [discriminate|].
  destruct (N.eqb_spec k' k) as [->|NE]; [injection H as ->; now left | right; now apply IH].
Qed.

Lemma aget_forall : forall {A} (P : A -> Prop) (h : list (N * A)) k a,
  Forall (fun p => P (snd p)) h -> aget h k = Some a -> P a.
Proof.
  intros A P h k a HF HG. apply aget_in in HG. rewrite Forall_forall in HF. exact (HF _ HG).
Qed.

Lemma alloc_range : forall fs n f c, aget (alloc_fields fs n) f = Some c -> n <= c < n + N.of_nat (length fs).
Proof.
  induction fs as [|f0 fs IH]; cbn [alloc_fields aget length]; intros n f c H; [discriminate|].
  destruct (f0 =? f); [injection H as <- | apply IH in H]; lia.
Qed.

Lemma alloc_inj : forall fs n f g c,
  aget (alloc_fields fs n) f = Some c -> aget (alloc_fields fs n) g = Some c -> f = g.
Proof.
  induction fs as [|f0 fs IH]; cbn [alloc_fields aget]; intros n f g c Hf Hg; [discriminate|].
  destruct (N.eqb_spec f0 f) as [Ef|Ef], (N.eqb_spec f0 g) as [Eg|Eg].
  - congruence.
  - injection Hf as <-. apply alloc_range in Hg. lia.
  - injection Hg as <-. apply alloc_range in Hf. lia.
  - eapply IH; eauto.
Qed.

Lemma alloc_none : forall fs n f, aget (alloc_fields fs n) f = None <-> existsb (N.eqb f) fs = false.
Proof.
  induction fs as [|f0 fs IH]; cbn [alloc_fields aget existsb]; intros n f; [tauto|].
  rewrite (N.eqb_sym f f0). destruct (f0 =? f); cbn [orb].
  - split; discriminate.
  - apply IH.
Qed.

Lemma alloc_cells_in : forall fs n (h : list (cell * val)) c, n <= c < n + N.of_nat (length fs) ->
  aget (map (fun p : fld * cell => (snd p, VNil)) (alloc_fields fs n) ++ h) c = Some VNil.
Proof.
  induction fs as [|f0 fs IH]; intros n h c H; cbn [length] in H; [lia|]. cbn [alloc_fields map app snd].
  rewrite aget_cons. destruct (N.eqb_spec n c); [reflexivity|]. apply IH. lia.
Qed.

Lemma alloc_cells_out : forall fs n (h : list (cell * val)) c, c < n ->
  aget (map (fun p : fld * cell => (snd p, VNil)) (alloc_fields fs n) ++ h) c = aget h c.
Proof.
  induction fs as [|f0 fs IH]; intros n h c H; cbn [alloc_fields map app snd]; [reflexivity|].
  rewrite aget_cons. destruct (N.eqb_spec n c); [lia|]. apply IH. lia.
Qed.

(* cbn leaves aget folded from here on; lookups after a write are rewritten with aget_cons / aget_same *)
Local Arguments aget : simpl never.

Definition registry := oid -> option oref.

Definition vok (reg : registry) (nl : lid) (v : val) : Prop :=
  match v with
  | VObj o | VSome o => reg (o_id o) = Some o
  | VList l => l < nl
  | _ => True
  end.

Definition vrel (v : val) (sv : sval) : Prop :=
  match v, sv with
  | VInt a, SInt b => a = b
  | VStr a, SStr b => a = b
  | VBool a, SBool b => a = b
  | VNil, SNil => True
  | VObj o, SObj i | VSome o, SObj i => o_id o = i
  | VList l, SList m => l = m
  | _, _ => False
  end.

Definition RV (reg : registry) (nl : lid) (v : val) (sv : sval) : Prop := vok reg nl v /\ vrel v sv.

Record inv (reg : registry) (st : state) : Prop := {
  inv_id : forall i o, reg i = Some o -> o_id o = i /\ i < nid st;
  inv_cell : forall i o f c, reg i = Some o -> aget (o_map o) f = Some c ->
             c < ncell st /\ exists v, aget (cells st) c = Some v;
  inv_own : forall i o f g c, reg i = Some o -> aget (o_map o) f = Some c -> aget (o_map o) g = Some c -> f = g;
  inv_disj : forall i j o1 o2 f g c, reg i = Some o1 -> reg j = Some o2 ->
             aget (o_map o1) f = Some c -> aget (o_map o2) g = Some c -> i = j;
  inv_vcells : Forall (fun p => vok reg (nlist st) (snd p)) (cells st);
  inv_venv : Forall (fun p => vok reg (nlist st) (snd p)) (env st);
  inv_vlists : Forall (fun p => Forall (vok reg (nlist st)) (snd p)) (lists st)
}.

Record abs (reg : registry) (st : state) (ss : sstate) : Prop := {
  abs_nid : s_nobj ss = nid st;
  abs_nlist : s_nlist ss = nlist st;
  abs_none : forall i, reg i = None -> s_objs ss i = None;
  abs_obj : forall i o, reg i = Some o ->
            exists fm, s_objs ss i = Some (o_cls o, fm) /\
              forall f, match aget (o_map o) f with
                        | Some c => exists v sv, aget (cells st) c = Some v /\ fm f = Some sv /\ vrel v sv
                        | None => fm f = None
                        end;
  abs_env : forall x, orel vrel (aget (env st) x) (s_env ss x);
  abs_lists : forall l, orel (Forall2 vrel) (aget (lists st) l) (s_lists ss l)
}.

Record RS (reg : registry) (nl : lid) (st : state) (ss : sstate) : Prop := {
  RS_inv : inv reg st;
  RS_abs : abs reg st ss;
  RS_nl : nlist st = nl }.

Definition ext (reg reg' : registry) : Prop := forall i o, reg i = Some o -> reg' i = Some o.

Lemma ext_refl : forall reg, ext reg reg.
Proof. intros reg i o H. exact H. Qed.

Lemma ext_trans : forall a b c, ext a b -> ext b c -> ext a c.
Proof. intros a b c H1 H2 i o H. auto. Qed.

Lemma vok_mono : forall reg reg' nl nl' v, ext reg reg' -> nl <= nl' -> vok reg nl v -> vok reg' nl' v.
Proof. intros reg reg' nl nl' v HE HL. destruct v; cbn; auto. intros. lia. Qed.

Lemma voks_mono : forall reg reg' nl nl' vs, ext reg reg' -> nl <= nl' -> Forall (vok reg nl) vs -> Forall (vok reg' nl') vs.
Proof. intros reg reg' nl nl' vs HE HL. apply Forall_impl. intro v. apply vok_mono; assumption. Qed.

Lemma vok_store_mono : forall reg reg' nl nl' (h : list (N * val)), ext reg reg' -> nl <= nl' ->
  Forall (fun p => vok reg nl (snd p)) h -> Forall (fun p => vok reg' nl' (snd p)) h.
Proof. intros reg reg' nl nl' h HE HL. apply Forall_impl. intro p. apply vok_mono; assumption. Qed.

Lemma vok_lists_mono : forall reg reg' nl nl' (h : list (lid * list val)), ext reg reg' -> nl <= nl' ->
  Forall (fun p => Forall (vok reg nl) (snd p)) h -> Forall (fun p => Forall (vok reg' nl') (snd p)) h.
Proof. intros reg reg' nl nl' h HE HL. apply Forall_impl. intro p. apply voks_mono; assumption. Qed.

Lemma RV_mono : forall reg reg' nl nl' v sv, ext reg reg' -> nl <= nl' -> RV reg nl v sv -> RV reg' nl' v sv.
Proof. intros reg reg' nl nl' v sv HE HL [H1 H2]. split; eauto using vok_mono. Qed.

Lemma RSn_ext_RV : forall reg nl v sv, RV reg nl v sv -> forall reg' nl', ext reg reg' -> nl <= nl' -> RV reg' nl' v sv.
Proof. intros. eapply RV_mono; eauto. Qed.

Lemma RVs_mono : forall reg reg' nl nl' vs svs, ext reg reg' -> nl <= nl' ->
  Forall2 (RV reg nl) vs svs -> Forall2 (RV reg' nl') vs svs.
Proof. intros reg reg' nl nl' vs svs HE HL H. induction H; constructor; eauto using RV_mono. Qed.

Lemma Forall2_RV_split : forall reg nl vs svs, Forall2 (RV reg nl) vs svs -> Forall (vok reg nl) vs /\ Forall2 vrel vs svs.
Proof. intros reg nl vs svs H. induction H as [|v sv vs svs [H1 H2] _ [IH1 IH2]]; split; constructor; auto. Qed.

Lemma Forall2_RV_join : forall reg nl vs svs, Forall (vok reg nl) vs -> Forall2 vrel vs svs -> Forall2 (RV reg nl) vs svs.
Proof.
  intros reg nl vs svs HF H. induction H; constructor; inversion HF; subst; auto. split; auto.
Qed.

Lemma cell_vok : forall reg st c v, inv reg st -> aget (cells st) c = Some v -> vok reg (nlist st) v.
Proof. intros reg st c v HI. apply aget_forall, (inv_vcells _ _ HI). Qed.

Lemma get_vok : forall reg st x v, inv reg st -> m_get st x = Ok v -> vok reg (nlist st) v.
Proof.
  intros reg st x v HI H. unfold m_get in H. destruct (aget (env st) x) eqn:E; [|discriminate]. injection H as <-.
  exact (aget_forall _ _ _ _ (inv_venv _ _ HI) E).
Qed.

Lemma fread_inv : forall st o f v, m_fread false st (VObj o) f = Ok v ->
  exists c, aget (o_map o) f = Some c /\ aget (cells st) c = Some v.
Proof.
  intros st o f v H. unfold m_fread, field_cell in H. destruct (aget (o_map o) f) as [c|]; cbn [bind] in H; [|discriminate].
  destruct (aget (cells st) c) eqn:E; [|discriminate]. injection H as <-. eauto.
Qed.

Lemma fwrite_inv : forall st o f x st', m_fwrite false st (VObj o) f x = Ok st' ->
  exists c, aget (o_map o) f = Some c /\ st' = set_cells st ((c, x) :: cells st).
Proof.
  intros st o f x st' H. unfold m_fwrite, field_cell in H. destruct (aget (o_map o) f) as [c|]; cbn [bind] in H; [|discriminate].
  destruct (aget (cells st) c); [|discriminate]. injection H as <-. eauto.
Qed.

Lemma fread_strip : forall st v f, m_fread false st v f = m_fread false st (strip v) f.
Proof. intros st v f. destruct v; reflexivity. Qed.

Lemma fwrite_strip : forall st v f x, m_fwrite false st v f x = m_fwrite false st (strip v) f x.
Proof. intros st v f x. destruct v; reflexivity. Qed.

Lemma fread_vok : forall reg st v f x, inv reg st -> m_fread false st v f = Ok x -> vok reg (nlist st) x.
Proof.
  intros reg st v f x HI H. rewrite fread_strip in H.
  destruct v; try discriminate; destruct (fread_inv _ _ _ _ H) as [c [_ Hc]]; exact (cell_vok _ _ _ _ HI Hc).
Qed.

Lemma lwrite_inv : forall st v xs st', m_lwrite st v xs = Ok st' ->
  exists l, v = VList l /\ st' = set_lists st ((l, xs) :: lists st).
Proof.
  intros st v xs st' H. destruct v; try discriminate. cbn [m_lwrite] in H.
  destruct (aget (lists st) l); [|discriminate]. injection H as <-. eauto.
Qed.

Lemma inv_set_env : forall reg st x v, inv reg st -> vok reg (nlist st) v -> inv reg (m_set st x v).
Proof. intros reg st x v HI HV. destruct HI. constructor; cbn; auto. Qed.

Lemma inv_set_cell : forall reg st c x, inv reg st -> vok reg (nlist st) x -> inv reg (set_cells st ((c, x) :: cells st)).
Proof.
  intros reg st c x HI HX. destruct HI. constructor; cbn [set_cells nid ncell cells env lists nlist]; auto.
  intros i o' f' c' Hr Hc'. destruct (inv_cell0 _ _ _ _ Hr Hc') as [Hlt [v' Hv']]. split; auto.
  rewrite aget_cons. destruct (c =? c'); eauto.
Qed.

Lemma inv_set_list : forall reg st l xs, inv reg st -> Forall (vok reg (nlist st)) xs ->
  inv reg (set_lists st ((l, xs) :: lists st)).
Proof. intros reg st l xs HI HX. destruct HI. constructor; cbn; auto. Qed.

Lemma fwrite_keeps_inv : forall reg st v f x st', inv reg st -> vok reg (nlist st) x ->
  m_fwrite false st v f x = Ok st' -> inv reg st'.
Proof.
  intros reg st v f x st' HI HX H. rewrite fwrite_strip in H.
  destruct v; try discriminate; destruct (fwrite_inv _ _ _ _ _ H) as [c [_ ->]]; apply inv_set_cell; assumption.
Qed.

Lemma get_sim : forall reg nl st ss x, RS reg nl st ss -> rrel (RV reg nl) (m_get st x) (s_get ss x).
Proof.
  intros reg nl st ss x [HI HA <-]. pose proof (get_vok reg st x) as HV. unfold m_get, s_get in *.
  pose proof (abs_env _ _ _ HA x) as HE. unfold orel in HE.
  destruct (aget (env st) x), (s_env ss x); cbn; try contradiction; auto. split; auto.
Qed.

Lemma set_sim : forall reg nl st ss x v sv, RS reg nl st ss -> RV reg nl v sv -> RS reg nl (m_set st x v) (s_set ss x sv).
Proof.
  intros reg nl st ss x v sv [HI HA <-] [HV HR]. split; [apply inv_set_env; assumption | | reflexivity].
  destruct HA. constructor; cbn; auto.
  intros y. unfold upd. rewrite aget_cons. destruct (x =? y); cbn; auto.
Qed.

Lemma lit_sim : forall reg nl l, RV reg nl (m_lit l) (s_lit l).
Proof. intros reg nl l. destruct l; split; cbn; auto. Qed.

Lemma scalar_sim : forall v sv, vrel v sv -> m_scalar v = s_scalar sv.
Proof. intros v sv H. destruct v, sv; cbn in *; try contradiction; subst; auto. Qed.

Lemma recv_sim : forall v sv, vrel v sv -> m_recv false v = s_recv sv.
Proof. intros v sv H. destruct v, sv; cbn in *; try contradiction; auto. Qed.

Lemma cls_sim : forall reg nl st ss v sv, RS reg nl st ss -> RV reg nl v sv -> rrel eq (m_cls false st v) (s_cls ss sv).
Proof.
  intros reg nl st ss v sv HRS [HV HR]. destruct v, sv; cbn in *; try contradiction; auto; subst.
  all: destruct (abs_obj _ _ _ (RS_abs _ _ _ _ HRS) _ _ HV) as [fm [HS _]]; unfold s_cls, s_obj; rewrite HS; reflexivity.
Qed.

Lemma fread_obj_sim : forall reg nl st ss o f, RS reg nl st ss -> reg (o_id o) = Some o ->
  rrel (RV reg nl) (m_fread false st (VObj o) f) (s_fread ss (SObj (o_id o)) f).
Proof.
  intros reg nl st ss o f [HI HA <-] HV. destruct (abs_obj _ _ _ HA _ _ HV) as [fm [HS HF]].
  unfold m_fread, s_fread, s_obj, field_cell. rewrite HS.
  specialize (HF f). destruct (aget (o_map o) f) as [c|]; cbn.
  - destruct HF as [v [sv [H1 [H2 H3]]]]. rewrite H1, H2. split; [exact (cell_vok _ _ _ _ HI H1) | exact H3].
  - rewrite HF. reflexivity.
Qed.

Lemma fread_sim : forall reg nl st ss o so f, RS reg nl st ss -> RV reg nl o so ->
  rrel (RV reg nl) (m_fread false st o f) (s_fread ss so f).
Proof.
  intros reg nl st ss o so f HRS [HV HR]. rewrite fread_strip.
  destruct o, so; cbn in HV, HR; try contradiction; try reflexivity; subst; apply fread_obj_sim; assumption.
Qed.

Lemma fwrite_obj_sim : forall reg nl st ss o f x sx, RS reg nl st ss -> reg (o_id o) = Some o -> RV reg nl x sx ->
  rrel (RS reg nl) (m_fwrite false st (VObj o) f x) (s_fwrite ss (SObj (o_id o)) f sx).
Proof.
  intros reg nl st ss o f x sx [HI HA <-] HV [HXV HXR]. destruct (abs_obj _ _ _ HA _ _ HV) as [fm [HS HF]].
  unfold m_fwrite, s_fwrite, s_obj, field_cell. rewrite HS.
  pose proof (HF f) as HFf. destruct (aget (o_map o) f) as [c|] eqn:Ec; cbn.
  2:{ rewrite HFf. reflexivity. }
  destruct HFf as [v [sv [H1 [H2 H3]]]]. rewrite H1, H2. cbn.
  split; [apply inv_set_cell; assumption | | reflexivity].
  destruct HA. constructor; cbn; auto.
  - intros i Hn. unfold upd. destruct (N.eqb_spec (o_id o) i) as [<-|NE]; auto. congruence.
  - intros i o' Hr. unfold upd at 1. destruct (N.eqb_spec (o_id o) i) as [<-|NE].
    + (* the object written: f gets the new value; its other fields have other cells *)
      assert (o' = o) by congruence. subst o'. eexists. split; [reflexivity|].
      intros g. pose proof (HF g) as HFg. unfold upd. destruct (aget (o_map o) g) as [c'|] eqn:Ec'.
      * rewrite aget_cons. destruct (N.eqb_spec c c') as [<-|NEc].
        -- rewrite (inv_own _ _ HI _ _ _ _ _ HV Ec Ec'), N.eqb_refl. eauto.
        -- destruct (N.eqb_spec f g) as [<-|NEf]; [congruence | exact HFg].
      * destruct (N.eqb_spec f g) as [<-|NEf]; [congruence | exact HFg].
    + (* another object: none of its cells is the one written *)
      destruct (abs_obj0 _ _ Hr) as [fm' [HS' HF']]. exists fm'. split; auto.
      intros g. specialize (HF' g). destruct (aget (o_map o') g) as [c'|] eqn:Ec'; auto.
      rewrite aget_cons. destruct (N.eqb_spec c c') as [<-|NEc]; auto.
      exfalso. apply NE. exact (inv_disj _ _ HI _ _ _ _ _ _ _ HV Hr Ec Ec').
Qed.

Lemma fwrite_sim : forall reg nl st ss o so f x sx, RS reg nl st ss -> RV reg nl o so -> RV reg nl x sx ->
  rrel (RS reg nl) (m_fwrite false st o f x) (s_fwrite ss so f sx).
Proof.
  intros reg nl st ss o so f x sx HRS [HV HR] HX. rewrite fwrite_strip.
  destruct o, so; cbn in HV, HR; try contradiction; try reflexivity; subst; apply fwrite_obj_sim; assumption.
Qed.

Lemma is_sim : forall a sa b sb, vrel a sa -> vrel b sb -> m_is false a b = s_is sa sb.
Proof.
  intros a sa b sb H1 H2. unfold m_is.
  destruct a, sa; cbn in H1; try contradiction; try reflexivity;
    destruct b, sb; cbn in H2; try contradiction; subst; reflexivity.
Qed.

Lemma unwrap_sim : forall reg nl v sv, RV reg nl v sv -> rrel (RV reg nl) (m_unwrap v) (s_unwrap sv).
Proof.
  intros reg nl v sv [HV HR]. destruct v, sv; cbn in *; try contradiction; auto; try (split; cbn; auto; fail).
Qed.

Lemma wrap_sim : forall reg nl v sv, RV reg nl v sv -> rrel (RV reg nl) (m_wrap v) (s_wrap sv).
Proof.
  intros reg nl v sv [HV HR]. destruct v, sv; cbn in *; try contradiction; auto; try (split; cbn; auto; fail).
Qed.

Lemma lread_sim : forall reg nl st ss v sv, RS reg nl st ss -> RV reg nl v sv ->
  rrel (Forall2 (RV reg nl)) (m_lread st v) (s_lread ss sv).
Proof.
  intros reg nl st ss v sv [HI HA <-] [HV HR]. destruct v, sv; cbn in *; try contradiction; auto. subst.
  pose proof (abs_lists _ _ _ HA l0) as HL. unfold orel in HL.
  destruct (aget (lists st) l0) eqn:E1, (s_lists ss l0) eqn:E2; cbn; try contradiction; auto.
  apply Forall2_RV_join; [exact (aget_forall _ _ _ _ (inv_vlists _ _ HI) E1) | exact HL].
Qed.

Lemma lwrite_sim : forall reg nl st ss v sv xs sxs, RS reg nl st ss -> RV reg nl v sv ->
  Forall2 (RV reg nl) xs sxs -> rrel (RS reg nl) (m_lwrite st v xs) (s_lwrite ss sv sxs).
Proof.
  intros reg nl st ss v sv xs sxs [HI HA <-] [HV HR] HX. destruct v, sv; cbn in *; try contradiction; auto. subst.
  pose proof (abs_lists _ _ _ HA l0) as HL. unfold orel in HL.
  destruct (aget (lists st) l0) eqn:E1, (s_lists ss l0) eqn:E2; cbn; try contradiction; auto.
  apply Forall2_RV_split in HX. destruct HX as [HX1 HX2].
  split; [apply inv_set_list; assumption | | reflexivity].
  destruct HA. constructor; cbn; auto.
  intros l'. unfold upd. rewrite aget_cons. destruct (l0 =? l'); cbn; auto.
Qed.

Lemma lnew_sim : forall reg nl st ss xs sxs, RS reg nl st ss -> Forall2 (RV reg nl) xs sxs ->
  RS reg (nl + 1) (fst (m_lnew st xs)) (fst (s_lnew ss sxs)) /\
  RV reg (nl + 1) (snd (m_lnew st xs)) (snd (s_lnew ss sxs)).
Proof.
  intros reg nl st ss xs sxs [HI HA <-] HX. apply Forall2_RV_split in HX. destruct HX as [HX1 HX2].
  assert (HL : nlist st <= nlist st + 1) by lia. pose proof (ext_refl reg) as HE.
  cbn. split; [split|split].
  - destruct HI. constructor; cbn; eauto using vok_store_mono, vok_lists_mono, voks_mono.
  - destruct HA. constructor; cbn; auto.
    + congruence.
    + intros l'. unfold upd. rewrite aget_cons, abs_nlist0. destruct (nlist st =? l'); cbn; auto.
  - reflexivity.
  - cbn. lia.
  - cbn. symmetry. apply (abs_nlist _ _ _ HA).
Qed.

Definition post {A B} (reg : registry) (nl : lid) (Q : registry -> lid -> A -> B -> Prop)
           (r1 : state * A) (r2 : sstate * B) : Prop :=
  exists reg' nl', ext reg reg' /\ nl <= nl' /\ RS reg' nl' (fst r1) (fst r2) /\ Q reg' nl' (snd r1) (snd r2).

Lemma post_intro : forall {A B} reg nl (Q : registry -> lid -> A -> B -> Prop) reg' nl' st' ss' a b,
  ext reg reg' -> nl <= nl' -> RS reg' nl' st' ss' -> Q reg' nl' a b -> post reg nl Q (st', a) (ss', b).
Proof. intros. exists reg', nl'. auto. Qed.

Lemma post_same : forall {A B} reg nl (Q : registry -> lid -> A -> B -> Prop) st' ss' a b,
  RS reg nl st' ss' -> Q reg nl a b -> post reg nl Q (st', a) (ss', b).
Proof. intros. apply (post_intro _ _ _ reg nl); [apply ext_refl | apply N.le_refl | assumption..]. Qed.

Lemma rrel_bind_post : forall {A B A' B'} reg nl (Q : registry -> lid -> A -> B -> Prop)
    (Q' : registry -> lid -> A' -> B' -> Prop) r1 r2 k1 k2,
  rrel (post reg nl Q) r1 r2 ->
  (forall reg' nl' st' ss' a b, ext reg reg' -> nl <= nl' -> RS reg' nl' st' ss' -> Q reg' nl' a b ->
     rrel (post reg' nl' Q') (k1 (st', a)) (k2 (ss', b))) ->
  rrel (post reg nl Q') (bind r1 k1) (bind r2 k2).
Proof.
  intros A B A' B' reg nl Q Q' r1 r2 k1 k2 H HK. eapply rrel_bind; [exact H|].
  intros [st' a] [ss' b] [reg' [nl' [HE [HL [HS HQ]]]]]. eapply rrel_weaken; [apply (HK _ _ _ _ _ _ HE HL HS HQ)|].
  intros r1' r2' [reg2 [nl2 [HE2 [HL2 HP]]]]. exists reg2, nl2.
  split; [exact (ext_trans _ _ _ HE HE2)|]. split; [lia | exact HP].
Qed.

Definition reg_add (reg : registry) (o : oref) : registry :=
  fun i => if o_id o =? i then Some o else reg i.

Lemma reg_add_inv : forall reg o i o', reg_add reg o i = Some o' ->
  (i = o_id o /\ o' = o) \/ (i <> o_id o /\ reg i = Some o').
Proof.
  intros reg o i o' H. unfold reg_add in H.
  destruct (N.eqb_spec (o_id o) i) as [<-|NE]; [injection H as <-; left | right]; auto.
Qed.

Lemma new_sim : forall reg nl st ss k fs, RS reg nl st ss -> rrel (post reg nl RV) (m_new st k fs) (s_new ss k fs).
Proof.
  intros reg nl st ss k fs [HI HA <-]. unfold m_new, s_new.
  destruct (nodupb fs); cbn [negb]; [|reflexivity]. cbn [rrel].
  set (mp := alloc_fields fs (ncell st)). set (o := {| o_cls := k; o_map := mp; o_id := nid st |}).
  assert (HEXT : ext reg (reg_add reg o)).
  { intros i o' H. unfold reg_add. cbn [o_id o]. destruct (N.eqb_spec (nid st) i) as [<-|NE]; auto.
    apply (inv_id _ _ HI) in H. lia. }
  assert (HNEW : forall f c, aget mp f = Some c -> ncell st <= c < ncell st + N.of_nat (length fs))
    by (intros f c; apply alloc_range).
  assert (HOLD : forall i o' f c, reg i = Some o' -> aget (o_map o') f = Some c -> c < ncell st)
    by (intros i o' f c Hr Hc; apply (inv_cell _ _ HI _ _ _ _ Hr Hc)).
  apply (post_intro _ _ _ (reg_add reg o) (nlist st)); [exact HEXT | lia | split | ].
  - constructor; cbn [nid ncell cells env lists nlist].
    + intros i o' H. destruct (reg_add_inv _ _ _ _ H) as [[-> ->]|[NE H']]; [cbn; split; [reflexivity | lia]|].
      apply (inv_id _ _ HI) in H'. split; [tauto | lia].
    + intros i o' f c H Hc. destruct (reg_add_inv _ _ _ _ H) as [[-> ->]|[NE H']].
      * apply HNEW in Hc. unfold mp. rewrite alloc_cells_in by exact Hc. split; [lia | eauto].
      * destruct (inv_cell _ _ HI _ _ _ _ H' Hc) as [Hlt Hv]. unfold mp. rewrite alloc_cells_out by exact Hlt.
        split; [lia | exact Hv].
    + intros i o' f g c H Hf Hg. destruct (reg_add_inv _ _ _ _ H) as [[-> ->]|[NE H']];
        [exact (alloc_inj _ _ _ _ _ Hf Hg) | exact (inv_own _ _ HI _ _ _ _ _ H' Hf Hg)].
    + intros i j o1 o2 f g c H1 H2 Hf Hg.
      destruct (reg_add_inv _ _ _ _ H1) as [[-> ->]|[NE1 H1']], (reg_add_inv _ _ _ _ H2) as [[-> ->]|[NE2 H2']].
      * reflexivity.
      * apply HNEW in Hf. apply (HOLD _ _ _ _ H2') in Hg. lia.
      * apply HNEW in Hg. apply (HOLD _ _ _ _ H1') in Hf. lia.
      * exact (inv_disj _ _ HI _ _ _ _ _ _ _ H1' H2' Hf Hg).
    + apply Forall_app. split; [|apply (vok_store_mono _ _ _ _ _ HEXT (N.le_refl _)), (inv_vcells _ _ HI)].
      apply Forall_forall. intros p Hp. apply in_map_iff in Hp. destruct Hp as [q [<- _]]. exact I.
    + apply (vok_store_mono _ _ _ _ _ HEXT (N.le_refl _)), (inv_venv _ _ HI).
    + apply (vok_lists_mono _ _ _ _ _ HEXT (N.le_refl _)), (inv_vlists _ _ HI).
  - destruct HA as [A1 A2 A3 A4 A5 A6].
    constructor; cbn [s_nobj s_nlist s_objs s_env s_lists nid ncell cells env lists nlist]; auto.
    + congruence.
    + intros i H. unfold reg_add in H. cbn [o_id o] in H. unfold upd. rewrite A1.
      destruct (nid st =? i); [discriminate | auto].
    + intros i o' H. unfold upd. rewrite A1. destruct (reg_add_inv _ _ _ _ H) as [[-> ->]|[NE H']]; cbn [o_id o] in *.
      * rewrite N.eqb_refl. eexists. split; [reflexivity|]. intros f. cbn [o_map o].
        destruct (aget mp f) as [c|] eqn:Ec.
        -- unfold mp. rewrite alloc_cells_in by apply (HNEW _ _ Ec). exists VNil, SNil. split; [reflexivity|]. split; [|exact I].
           destruct (existsb (N.eqb f) fs) eqn:EX; [reflexivity|]. apply alloc_none with (n := ncell st) in EX.
           unfold mp in Ec. congruence.
        -- apply alloc_none in Ec. rewrite Ec. reflexivity.
      * destruct (N.eqb_spec (nid st) i) as [E|_]; [congruence|].
        destruct (A4 _ _ H') as [fm [HS HF]]. exists fm. split; [exact HS|]. intros f. specialize (HF f).
        destruct (aget (o_map o') f) as [c|] eqn:Ec; auto.
        unfold mp. rewrite alloc_cells_out by apply (HOLD _ _ _ _ H' Ec). exact HF.
  - reflexivity.
  - split; cbn; [unfold reg_add; cbn [o_id o]; rewrite N.eqb_refl; reflexivity | symmetry; apply (abs_nid _ _ _ HA)].
Qed.

Lemma gpath_sim : forall reg nl st ss p, RS reg nl st ss -> rrel (RV reg nl) (gpath (impl false) st p) (gpath spec ss p).
Proof.
  intros reg nl st ss p H. induction p as [x|p IH f]; cbn [gpath].
  - apply get_sim. exact H.
  - eapply rrel_bind; [exact IH|]. intros o so HO. apply fread_sim; assumption.
Qed.

Lemma geval_sim : forall reg nl st ss e, RS reg nl st ss -> rrel (RV reg nl) (geval (impl false) st e) (geval spec ss e).
Proof.
  intros reg nl st ss e H. destruct e; cbn [geval].
  - apply lit_sim.
  - now apply gpath_sim.
Qed.

Lemma gevals_sim : forall reg nl st ss es, RS reg nl st ss ->
  rrel (Forall2 (RV reg nl)) (gevals (impl false) st es) (gevals spec ss es).
Proof.
  intros reg nl st ss es H. induction es as [|e es IH]; cbn [gevals].
  - constructor.
  - eapply rrel_bind; [apply geval_sim; exact H|]. intros v sv HV.
    eapply rrel_bind; [exact IH|]. intros vs svs HVS. cbn. constructor; assumption.
Qed.

Lemma gbinop_sim : forall reg nl op a sa b sb, RV reg nl a sa -> RV reg nl b sb ->
  rrel (RV reg nl) (gbinop (impl false) op a b) (gbinop spec op sa sb).
Proof.
  intros reg nl op a sa b sb [_ HA] [_ HB]. unfold gbinop. cbn [i_scalar impl spec i_lit].
  rewrite (scalar_sim _ _ HA), (scalar_sim _ _ HB).
  destruct (s_scalar sa) as [x|]; [|reflexivity]. destruct (s_scalar sb) as [y|]; [|reflexivity].
  destruct (lit_binop op x y); cbn; [apply lit_sim | reflexivity].
Qed.

Lemma gscalars_sim : forall reg nl xs sxs, Forall2 (RV reg nl) xs sxs -> gscalars (impl false) xs = gscalars spec sxs.
Proof.
  intros reg nl xs sxs H. induction H as [|x sx xs sxs [_ HX] _ IH]; cbn [gscalars]; [reflexivity|].
  cbn [i_scalar impl spec]. rewrite (scalar_sim _ _ HX). destruct (s_scalar sx); [|reflexivity]. rewrite IH. reflexivity.
Qed.

Lemma gview_sim : forall reg nl st ss v sv, RS reg nl st ss -> RV reg nl v sv ->
  rrel eq (gview (impl false) st v) (gview spec ss sv).
Proof.
  intros reg nl st ss v sv H HV. unfold gview. cbn [i_scalar impl spec i_lread].
  rewrite (scalar_sim _ _ (proj2 HV)). destruct (s_scalar sv); [reflexivity|].
  eapply rrel_bind; [apply lread_sim; eassumption|]. intros xs sxs HX.
  rewrite (gscalars_sim _ _ _ _ HX). destruct (gscalars spec sxs); reflexivity.
Qed.

Lemma gisnil_sim : forall v sv, vrel v sv -> gisnil (impl false) v = gisnil spec sv.
Proof. intros v sv H. unfold gisnil. cbn [i_scalar impl spec]. rewrite (scalar_sim _ _ H). reflexivity. Qed.

Lemma gupd_sim : forall reg nl st ss o so f op d sd, RS reg nl st ss -> RV reg nl o so -> RV reg nl d sd ->
  rrel (fun r1 r2 => RS reg nl (fst r1) (fst r2) /\ RV reg nl (snd r1) (snd r2))
       (gupd (impl false) st o f op d) (gupd spec ss so f op sd).
Proof.
  intros reg nl st ss o so f op d sd H HO HD. unfold gupd. cbn [i_fread i_fwrite impl spec].
  eapply rrel_bind; [apply fread_sim; eassumption|]. intros cur scur HC.
  eapply rrel_bind; [apply gbinop_sim; eassumption|]. intros r sr HR.
  eapply rrel_bind; [apply fwrite_sim; eassumption|]. intros st' ss' HS. cbn. split; assumption.
Qed.

Lemma gfreads_sim : forall reg nl st ss o so fs, RS reg nl st ss -> RV reg nl o so ->
  rrel (Forall2 (RV reg nl)) (gfreads (impl false) st o fs) (gfreads spec ss so fs).
Proof.
  intros reg nl st ss o so fs H HO. induction fs as [|f fs IH]; cbn [gfreads].
  - constructor.
  - cbn [i_fread impl spec]. eapply rrel_bind; [apply fread_sim; eassumption|]. intros v sv HV.
    eapply rrel_bind; [exact IH|]. intros vs svs HVS. cbn. constructor; assumption.
Qed.

Lemma gctor_sim : forall body reg nl st ss args sargs o so,
  RS reg nl st ss -> Forall2 (RV reg nl) args sargs -> RV reg nl o so ->
  rrel (fun st' ss' => exists nl', nl <= nl' /\ RS reg nl' st' ss')
       (gctor (impl false) body args st o) (gctor spec body sargs ss so).
Proof.
  induction body as [|[f i] body IH]; intros reg nl st ss args sargs o so H HA HO; cbn [gctor].
  - cbn. exists nl. split; [lia | exact H].
  - (* an empty list literal raises the list bound *)
    eapply (rrel_bind (fun r1 r2 => exists nl', nl <= nl' /\ RS reg nl' (fst r1) (fst r2) /\ RV reg nl' (snd r1) (snd r2))).
    + destruct i as [k|l|]; cbn [i_lit i_lnew impl spec].
      * pose proof (Forall2_nth_error _ _ _ k HA) as HN. unfold orel in HN.
        destruct (nth_error args k), (nth_error sargs k); try contradiction; cbn; [|reflexivity].
        exists nl. split; [lia | split; assumption].
      * exists nl. split; [lia | split; [exact H | apply lit_sim]].
      * exists (nl + 1). split; [lia | apply (lnew_sim _ _ _ _ [] [] H (Forall2_nil _))].
    + intros r1 r2 [nl' [HL [HS HV]]]. cbn [i_fwrite impl spec]. pose proof (ext_refl reg) as HE.
      eapply rrel_bind; [apply fwrite_sim; eauto using RV_mono|]. intros st2 ss2 HS2.
      eapply rrel_weaken; [apply (IH reg nl'); eauto using RV_mono, RVs_mono|].
      intros st3 ss3 [nl3 [HL3 HS3]]. exists nl3. split; [lia | exact HS3].
Qed.

Lemma gnew_sim : forall ct reg nl st ss k args sargs,
  RS reg nl st ss -> Forall2 (RV reg nl) args sargs ->
  rrel (post reg nl RV) (gnew (impl false) ct st k args) (gnew spec ct ss k sargs).
Proof.
  intros ct reg nl st ss k args sargs H HA. unfold gnew.
  destruct (nth_error ct (N.to_nat k)) as [cd|]; [|reflexivity].
  rewrite (Forall2_length _ _ _ HA). destruct (negb (Nat.eqb (length sargs) (c_arity cd))); [reflexivity|].
  cbn [i_new impl spec].
  eapply rrel_bind_post; [apply new_sim; exact H|]. intros reg' nl' st1 ss1 o so HE HL HS HV. cbn [fst snd].
  eapply rrel_bind; [apply gctor_sim; [exact HS | exact (RVs_mono _ _ _ _ _ _ HE HL HA) | exact HV]|].
  intros st2 ss2 [nl2 [HL2 HS2]]. pose proof (ext_refl reg') as HE2.
  apply (post_intro _ _ _ reg' nl2); eauto using RV_mono.
Qed.

Lemma gmeth_sim : forall ct reg nl st ss self sself m args sargs,
  RS reg nl st ss -> RV reg nl self sself -> Forall2 (RV reg nl) args sargs ->
  rrel (post reg nl (fun reg' nl' => orel (RV reg' nl')))
       (gmeth (impl false) ct st self m args) (gmeth spec ct ss sself m sargs).
Proof.
  intros ct reg nl st ss self sself m args sargs H HSelf HA.
  (* no argument, one, two, more: with a number the method does not take both sides are Stuck *)
  destruct HA as [|v sv vs svs HV [|d sd ds sds HD [|e se es ses HE HES]]]; destruct m; try reflexivity; unfold gmeth;
    cbn [i_fread i_fwrite i_lread i_lwrite i_cls i_scalar i_lit impl spec].
  - (* MGet *) eapply rrel_bind; [apply fread_sim; eassumption|]. intros v sv HV. apply post_same; [exact H | exact HV].
  - (* MMe *) apply post_same; [exact H | exact HSelf].
  - (* MGetBare *) eapply rrel_bind; [apply fread_sim; eassumption|]. intros v sv HV. apply post_same; [exact H | exact HV].
  - (* MDup *) eapply rrel_bind; [apply gfreads_sim; eassumption|]. intros vs svs HVS.
    eapply rrel_bind; [eapply cls_sim; eassumption|]. intros k sk <-.
    eapply rrel_bind_post; [apply gnew_sim; eassumption|]. intros reg' nl' st' ss' o so _ _ HS HO.
    apply post_same; [exact HS | exact HO].
  - (* MRo *) eapply rrel_bind; [apply fread_sim; eassumption|]. intros v sv [_ HV]. rewrite (scalar_sim _ _ HV).
    destruct (s_scalar sv) as [x|]; [|reflexivity].
    destruct (lit_ro k x); [|reflexivity]. apply post_same; [exact H | apply lit_sim].
  - (* MSet *) eapply rrel_bind; [apply fwrite_sim; eassumption|]. intros st' ss' HS. apply post_same; [exact HS | exact I].
  - (* MInc *) eapply rrel_bind; [apply gupd_sim; eassumption|]. intros r1 r2 [HS HR]. apply post_same; assumption.
  - (* MTwice *) eapply rrel_bind; [apply gupd_sim; eassumption|]. intros r1 r2 [HS HR].
    eapply rrel_bind; [apply gupd_sim; eassumption|]. intros r3 r4 [HS' HR']. apply post_same; assumption.
  - (* MWith *) eapply rrel_bind; [apply fwrite_sim; eassumption|]. intros st' ss' HS. apply post_same; [exact HS | exact HSelf].
  - (* MSetBare *) eapply rrel_bind; [apply fwrite_sim; eassumption|]. intros st' ss' HS. apply post_same; [exact HS | exact I].
  - (* MPush *) eapply rrel_bind; [apply fread_sim; eassumption|]. intros l sl HL.
    eapply rrel_bind; [apply lread_sim; eassumption|]. intros xs sxs HX.
    eapply rrel_bind; [apply lwrite_sim; [eassumption..|apply Forall2_app; [exact HX | repeat constructor; apply HV]]|].
    intros st' ss' HS. apply post_same; [exact HS | exact I].
  - (* MPoke *) eapply rrel_bind; [apply fread_sim; eassumption|]. intros o so HO.
    eapply rrel_bind; [apply gupd_sim; eassumption|]. intros r1 r2 [HS HR]. apply post_same; [exact HS | exact I].
  - (* MBump *) eapply rrel_bind; [apply gupd_sim; eassumption|]. intros r1 r2 [HS HR]. apply post_same; [exact HS | exact I].
Qed.

Lemma gindex_sim : forall reg nl xs sxs i, Forall2 (RV reg nl) xs sxs ->
  rrel (RV reg nl) (gindex xs i) (gindex sxs i).
Proof.
  intros reg nl xs sxs i H. unfold gindex. destruct (negb (in_i32 i)); [reflexivity|].
  destruct (i <? 0)%Z; [reflexivity|].
  pose proof (Forall2_nth_error _ _ _ (Z.to_nat i) H) as HN. unfold orel in HN.
  destruct (nth_error xs (Z.to_nat i)), (nth_error sxs (Z.to_nat i)); try contradiction; cbn; auto.
Qed.

Theorem gstep_sim : forall ct reg nl st ss c, RS reg nl st ss ->
  rrel (post reg nl (fun _ _ => eq)) (gstep (impl false) ct st c) (gstep spec ct ss c).
Proof.
  intros ct reg nl st ss c H.
  assert (DONE : forall (st' : state) (ss' : sstate) (o : list oval), RS reg nl st' ss' ->
                   post reg nl (fun _ _ => eq) (st', o) (ss', o))
    by (intros st' ss' o HS; apply post_same; [exact HS | reflexivity]).
  destruct c as [dst k args|dst p unwrap|p f e|p f op l|p|p|rm p m args|dst es|lp e|dst lp i|lp|p f d|dst p|a b|dst p];
    unfold gstep; cbn [i_get i_set i_lit i_recv i_is i_unwrap i_wrap i_lnew i_lread i_lwrite i_fwrite impl spec].
  - (* New *)
    eapply rrel_bind; [apply gevals_sim; exact H|]. intros vs svs HVS.
    eapply rrel_bind_post; [apply gnew_sim; eassumption|]. intros reg' nl' st' ss' v sv _ _ HS HV.
    apply post_same; [apply set_sim; assumption | reflexivity].
  - (* Bind *)
    eapply rrel_bind; [apply gpath_sim; exact H|]. intros v sv HV.
    destruct unwrap.
    + eapply rrel_bind; [eapply unwrap_sim; exact HV|]. intros u su HU. apply DONE, set_sim; assumption.
    + apply DONE, set_sim; assumption.
  - (* Write *)
    eapply rrel_bind; [apply geval_sim; exact H|]. intros v sv HV.
    eapply rrel_bind; [apply gpath_sim; exact H|]. intros o so HO.
    eapply rrel_bind; [apply fwrite_sim; eassumption|]. intros st' ss' HS. apply DONE, HS.
  - (* OpAssign *)
    eapply rrel_bind; [apply gpath_sim; exact H|]. intros o so HO.
    eapply rrel_bind; [apply gupd_sim; [eassumption | eassumption | apply lit_sim]|]. intros r1 r2 [HS HR]. apply DONE, HS.
  - (* Print *)
    eapply rrel_bind; [apply gpath_sim; exact H|]. intros v sv HV.
    eapply rrel_bind; [eapply gview_sim; eassumption|]. intros w sw <-. apply DONE, H.
  - (* IsNil *)
    eapply rrel_bind; [apply gpath_sim; exact H|]. intros v sv HV. rewrite (gisnil_sim _ _ (proj2 HV)). apply DONE, H.
  - (* Call *)
    eapply rrel_bind; [apply gpath_sim; exact H|]. intros self sself HSelf.
    rewrite (recv_sim _ _ (proj2 HSelf)). destruct (s_recv sself); [|reflexivity]. cbn [bind].
    eapply rrel_bind; [apply gevals_sim; exact H|]. intros vs svs HVS.
    eapply rrel_bind_post; [apply gmeth_sim; eassumption|]. intros reg' nl' st' ss' r sr _ _ HS HR. cbn [fst snd].
    unfold orel in HR. destruct rm, r as [v|], sr as [sv|]; try contradiction; try reflexivity.
    + apply post_same; [apply set_sim; assumption | reflexivity].
    + eapply rrel_bind; [eapply gview_sim; eassumption|]. intros w sw <-. apply post_same; [exact HS | reflexivity].
    + apply post_same; [exact HS | reflexivity].
    + apply post_same; [exact HS | reflexivity].
  - (* ListNew *)
    eapply rrel_bind; [apply gevals_sim; exact H|]. intros vs svs HVS. cbn.
    destruct (lnew_sim _ _ _ _ _ _ H HVS) as [H1 H2].
    apply (post_intro _ _ _ reg (nl + 1)); [apply ext_refl | lia | apply set_sim; assumption | reflexivity].
  - (* ListPush *)
    eapply rrel_bind; [apply gpath_sim; exact H|]. intros lv slv HL.
    eapply rrel_bind; [apply geval_sim; exact H|]. intros v sv HV.
    eapply rrel_bind; [apply lread_sim; eassumption|]. intros xs sxs HX.
    eapply rrel_bind; [apply lwrite_sim; [eassumption..|apply Forall2_app; [exact HX | repeat constructor; apply HV]]|].
    intros st' ss' HS. apply DONE, HS.
  - (* ListGet *)
    eapply rrel_bind; [apply gpath_sim; exact H|]. intros lv slv HL.
    eapply rrel_bind; [apply lread_sim; eassumption|]. intros xs sxs HX.
    eapply rrel_bind; [apply gindex_sim; eassumption|]. intros v sv HV. apply DONE, set_sim; assumption.
  - (* ListLen *)
    eapply rrel_bind; [apply gpath_sim; exact H|]. intros lv slv HL.
    eapply rrel_bind; [apply lread_sim; eassumption|]. intros xs sxs HX. cbn.
    rewrite (Forall2_length _ _ _ HX). apply DONE, H.
  - (* PassAndMutate *)
    eapply rrel_bind; [apply gpath_sim; exact H|]. intros o so HO.
    rewrite (recv_sim _ _ (proj2 HO)). destruct (s_recv so); [|reflexivity]. cbn [bind].
    eapply rrel_bind; [apply gupd_sim; [eassumption | eassumption | apply lit_sim]|]. intros r1 r2 [HS HR]. apply DONE, HS.
  - (* ReturnSame *)
    eapply rrel_bind; [apply gpath_sim; exact H|]. intros o so HO.
    rewrite (recv_sim _ _ (proj2 HO)). destruct (s_recv so); [|reflexivity]. apply DONE, set_sim; assumption.
  - (* IsTest *)
    eapply rrel_bind; [apply gpath_sim; exact H|]. intros x sx HX.
    eapply rrel_bind; [apply gpath_sim; exact H|]. intros y sy HY.
    rewrite (is_sim _ _ _ _ (proj2 HX) (proj2 HY)). destruct (s_is sx sy); [|reflexivity]. apply DONE, H.
  - (* ThroughMap *)
    eapply rrel_bind; [apply gpath_sim; exact H|]. intros o so HO.
    rewrite (recv_sim _ _ (proj2 HO)). destruct (s_recv so); [|reflexivity]. cbn [bind].
    eapply rrel_bind; [eapply wrap_sim; exact HO|]. intros w sw HW. apply DONE, set_sim; assumption.
Qed.

Lemma RS0 : RS (fun _ => None) 0 st0 ss0.
Proof.
  split; [| |reflexivity].
  - constructor; cbn; intros; try discriminate; constructor.
  - constructor; cbn; intros; try discriminate; try reflexivity; exact I.
Qed.

Fixpoint exec (ct : ctab) (st : state) (h : list oop) : option state :=
  match h with
  | [] => Some st
  | c :: h => match step false ct st c with Ok (st', _) => exec ct st' h | Fail _ => None end
  end.

Definition reachable (ct : ctab) (st : state) : Prop := exists h, exec ct st0 h = Some st.

Lemma grun_sim : forall ct h reg nl st ss, RS reg nl st ss ->
  grun_from (impl false) ct st h = grun_from spec ct ss h /\
  forall st', exec ct st h = Some st' -> exists reg' nl' ss', RS reg' nl' st' ss'.
Proof.
  induction h as [|c h IH]; intros reg nl st ss H; cbn [grun_from exec].
  - split; [reflexivity|]. intros st' E. injection E as <-. eauto.
  - pose proof (gstep_sim ct _ _ _ _ c H) as HS. unfold step, rrel in *.
    destruct (gstep (impl false) ct st c) as [[st1 o]|f], (gstep spec ct ss c) as [[ss1 o']|f']; try contradiction.
    + destruct HS as [reg' [nl' [_ [_ [HS' HO]]]]]. cbn [fst snd] in HS', HO. subst o'.
      destruct (IH _ _ _ _ HS') as [-> IH2]. split; [reflexivity | exact IH2].
    + subst f'. split; [reflexivity | discriminate].
Qed.

(* C08, refinement: for every class table and every history the (impl false)-model prints the observations of the
   abstract store (identity -> field -> value) and ends the same way, at the same operation *)
Theorem objects_refine : forall (ct : ctab) (h : list oop), run false ct h = spec_run ct h.
Proof. intros ct h. apply (grun_sim ct h _ _ _ _ RS0). Qed.

Theorem reachable_inv : forall ct st, reachable ct st -> exists reg, inv reg st.
Proof.
  intros ct st [h HE]. destruct (proj2 (grun_sim ct h _ _ _ _ RS0) _ HE) as [reg [nl [ss [HI _ _]]]]. eauto.
Qed.

Lemma gpath_vok : forall reg st p v, inv reg st -> gpath (impl false) st p = Ok v -> vok reg (nlist st) v.
Proof.
  intros reg st p v HI H. destruct p as [x|p f]; cbn [gpath] in H.
  - exact (get_vok _ _ _ _ HI H).
  - apply bind_ok in H as [o [_ H]]. exact (fread_vok _ _ _ _ _ HI H).
Qed.

Lemma ref_registered : forall reg st p o, inv reg st -> gpath (impl false) st p = Ok (VObj o) -> reg (o_id o) = Some o.
Proof. intros reg st p o HI H. exact (gpath_vok _ _ _ _ HI H). Qed.

Lemma same_id_same_ref : forall reg st a b o1 o2,
  inv reg st -> gpath (impl false) st a = Ok (VObj o1) -> gpath (impl false) st b = Ok (VObj o2) ->
  o_id o1 = o_id o2 -> o1 = o2.
Proof.
  intros reg st a b o1 o2 HI H1 H2 E. apply (ref_registered _ _ _ _ HI) in H1, H2. rewrite E in H1. congruence.
Qed.

(* C08, storing in a field hands on the very value (for an object: the reference, identity and cells) *)
Theorem field_holds_reference : forall st o f v st', m_fwrite false st (VObj o) f v = Ok st' -> m_fread false st' (VObj o) f = Ok v.
Proof.
  intros st o f x st' H. destruct (fwrite_inv _ _ _ _ _ H) as [c [Hc ->]].
  unfold m_fread, field_cell. rewrite Hc. cbn [bind set_cells cells]. rewrite aget_same. reflexivity.
Qed.

Lemma fread_frame : forall st st' o g, (forall c, aget (o_map o) g = Some c -> aget (cells st') c = aget (cells st) c) ->
  m_fread false st' (VObj o) g = m_fread false st (VObj o) g.
Proof.
  intros st st' o g H. unfold m_fread, field_cell. destruct (aget (o_map o) g) as [c|]; cbn [bind]; [|reflexivity].
  rewrite (H c eq_refl). reflexivity.
Qed.

Definition unchanged_outside (reg : registry) (keep : oid) (st st' : state) : Prop :=
  forall i o' g c, reg i = Some o' -> i <> keep -> aget (o_map o') g = Some c -> aget (cells st') c = aget (cells st) c.

Lemma unchanged_same : forall reg keep st st', cells st' = cells st -> unchanged_outside reg keep st st'.
Proof. intros reg keep st st' E i o' g c _ _ _. rewrite E. reflexivity. Qed.

Lemma unchanged_trans : forall reg keep st1 st2 st3,
  unchanged_outside reg keep st1 st2 -> unchanged_outside reg keep st2 st3 -> unchanged_outside reg keep st1 st3.
Proof. intros reg keep st1 st2 st3 H1 H2 i o' g c Hr Hn Hc. rewrite (H2 _ _ _ _ Hr Hn Hc). eauto. Qed.

Lemma fwrite_unchanged : forall reg st o f x st', inv reg st -> reg (o_id o) = Some o ->
  m_fwrite false st (VObj o) f x = Ok st' -> unchanged_outside reg (o_id o) st st'.
Proof.
  intros reg st o f x st' HI Hr H. destruct (fwrite_inv _ _ _ _ _ H) as [c [Hc ->]].
  intros i o' g c' Hr' Hn Hc'. cbn [set_cells cells]. rewrite aget_cons.
  destruct (N.eqb_spec c c') as [<-|NE]; [|reflexivity].
  exfalso. apply Hn. exact (inv_disj _ _ HI _ _ _ _ _ _ _ Hr' Hr Hc' Hc).
Qed.

Lemma gbinop_vok : forall reg nl op a b r, gbinop (impl false) op a b = Ok r -> vok reg nl r.
Proof.
  intros reg nl op a b r H. unfold gbinop in H. cbn [i_scalar i_lit impl] in H.
  destruct (m_scalar a) as [x|]; [|discriminate]. destruct (m_scalar b) as [y|]; [|discriminate].
  apply bind_ok in H as [z [_ H]]. injection H as <-. destruct z; exact I.
Qed.

Lemma gupd_unchanged : forall reg st o f op d st' r, inv reg st -> reg (o_id o) = Some o ->
  gupd (impl false) st (VObj o) f op d = Ok (st', r) -> unchanged_outside reg (o_id o) st st' /\ inv reg st'.
Proof.
  intros reg st o f op d st' r HI Hr H. unfold gupd in H. cbn [i_fread i_fwrite impl] in H.
  apply bind_ok in H as [cur [_ H]]. apply bind_ok in H as [r' [EB H]]. apply bind_ok in H as [st1 [EW H]].
  injection H as <- <-.
  split; [exact (fwrite_unchanged _ _ _ _ _ _ HI Hr EW) | exact (fwrite_keeps_inv _ _ _ _ _ _ HI (gbinop_vok _ _ _ _ _ _ EB) EW)].
Qed.

Lemma gctor_cons_inv : forall f i body args st o st', gctor (impl false) ((f, i) :: body) args st (VObj o) = Ok st' ->
  exists s1 v s2, cells s1 = cells st /\
    match i with IParam k => nth_error args k = Some v | IConst l => v = m_lit l | IEmpty => True end /\
    m_fwrite false s1 (VObj o) f v = Ok s2 /\ gctor (impl false) body args s2 (VObj o) = Ok st'.
Proof.
  intros f i body args st o st' H. cbn [gctor] in H.
  apply bind_ok in H as [[s1 v] [E1 H]]. apply bind_ok in H as [s2 [E2 H]]. exists s1, v, s2.
  enough (cells s1 = cells st /\ match i with IParam k => nth_error args k = Some v | IConst l => v = m_lit l | IEmpty => True end)
    by tauto.
  destruct i as [k|l|]; cbn [i_lit i_lnew impl m_lnew] in E1; [destruct (nth_error args k); [|discriminate]| |];
    injection E1 as <- <-; auto.
Qed.

Lemma gctor_old_cells : forall body args st o st', gctor (impl false) body args st (VObj o) = Ok st' ->
  forall n, (forall f c, aget (o_map o) f = Some c -> n <= c) ->
  forall c, c < n -> aget (cells st') c = aget (cells st) c.
Proof.
  induction body as [|[f i] body IH]; intros args st o st' H n Hn c Hc.
  - injection H as <-. reflexivity.
  - destruct (gctor_cons_inv _ _ _ _ _ _ _ H) as [s1 [v [s2 [E1 [_ [E2 H']]]]]].
    rewrite (IH _ _ _ _ H' n Hn c Hc). destruct (fwrite_inv _ _ _ _ _ E2) as [c' [Hc' ->]].
    cbn [set_cells cells]. rewrite aget_cons, E1.
    destruct (N.eqb_spec c' c) as [->|NE]; [apply Hn in Hc'; lia | reflexivity].
Qed.

Lemma gnew_inv : forall ct st k args st' v, gnew (impl false) ct st k args = Ok (st', v) ->
  exists cd s1 o, nth_error ct (N.to_nat k) = Some cd /\ v = VObj o /\
    o = {| o_cls := k; o_map := alloc_fields (c_fields cd) (ncell st); o_id := nid st |} /\
    cells s1 = map (fun p => (snd p, VNil)) (o_map o) ++ cells st /\
    gctor (impl false) (c_body cd) args s1 (VObj o) = Ok st'.
Proof.
  intros ct st k args st' v H. unfold gnew in H. destruct (nth_error ct (N.to_nat k)) as [cd|]; [|discriminate].
  destruct (negb (Nat.eqb (length args) (c_arity cd))); [discriminate|].
  apply bind_ok in H as [[s1 v1] [EN H]]. apply bind_ok in H as [s2 [EC H]]. injection H as <- <-.
  cbn [i_new impl] in EN. unfold m_new in EN. destruct (negb (nodupb (c_fields cd))); [discriminate|]. injection EN as <- <-.
  eexists cd, _, _. split; [reflexivity|]. split; [reflexivity|]. split; [reflexivity|]. split; [|exact EC]. reflexivity.
Qed.

Lemma gnew_fresh : forall ct st k args st' v, gnew (impl false) ct st k args = Ok (st', v) ->
  exists o, v = VObj o /\ o_id o = nid st /\ o_cls o = k /\
    (forall f c, aget (o_map o) f = Some c -> ncell st <= c) /\
    (forall c, c < ncell st -> aget (cells st') c = aget (cells st) c).
Proof.
  intros ct st k args st' v H. destruct (gnew_inv _ _ _ _ _ _ H) as [cd [s1 [o [_ [-> [-> [Hcells EC]]]]]]].
  eexists. split; [reflexivity|]. split; [reflexivity|]. split; [reflexivity|].
  assert (HR : forall f c, aget (alloc_fields (c_fields cd) (ncell st)) f = Some c -> ncell st <= c)
    by (intros f c Hc; apply alloc_range in Hc; lia).
  split; [exact HR|]. intros c Hc. rewrite (gctor_old_cells _ _ _ _ _ EC (ncell st) HR c Hc), Hcells.
  apply alloc_cells_out, Hc.
Qed.

(* C08: a construction yields a reference whose identity no earlier object has and whose cells no earlier object has;
   everything allocated before keeps its content *)
Theorem construct_fresh : forall ct reg st dst k args st' os,
  inv reg st -> step false ct st (New dst k args) = Ok (st', os) ->
  exists o, aget (env st') dst = Some (VObj o) /\ o_cls o = k /\
    (forall i o', reg i = Some o' -> o_id o' <> o_id o) /\
    (forall i o' f g c, reg i = Some o' -> aget (o_map o) f = Some c -> aget (o_map o') g = Some c -> False) /\
    (forall i o' g c, reg i = Some o' -> aget (o_map o') g = Some c -> aget (cells st') c = aget (cells st) c).
Proof.
  intros ct reg st dst k args st' os HI H. unfold step, gstep in H.
  apply bind_ok in H as [vs [_ H]]. apply bind_ok in H as [[st1 v] [EN H]]. injection H as <- <-.
  destruct (gnew_fresh _ _ _ _ _ _ EN) as [o [-> [Hid [Hk [Hrange Hold]]]]].
  exists o. cbn [fst snd i_set impl m_set env cells]. rewrite aget_same.
  split; [reflexivity|]. split; [exact Hk|]. split; [|split].
  - intros i o' Hr E. destruct (inv_id _ _ HI _ _ Hr) as [E1 E2]. lia.
  - intros i o' f g c Hr Hc Hc'. apply Hrange in Hc. destruct (inv_cell _ _ HI _ _ _ _ Hr Hc'). lia.
  - intros i o' g c Hr Hc. apply Hold. destruct (inv_cell _ _ HI _ _ _ _ Hr Hc). assumption.
Qed.

(* C08: two objects with different identities share no cell: writing a field of one never changes a field of the other *)
Theorem distinct_objects_independent : forall reg st a b o1 o2,
  inv reg st -> gpath (impl false) st a = Ok (VObj o1) -> gpath (impl false) st b = Ok (VObj o2) -> o_id o1 <> o_id o2 ->
  (forall f g c, aget (o_map o1) f = Some c -> aget (o_map o2) g = Some c -> False) /\
  (forall f x st', m_fwrite false st (VObj o1) f x = Ok st' -> forall g, m_fread false st' (VObj o2) g = m_fread false st (VObj o2) g).
Proof.
  intros reg st a b o1 o2 HI H1 H2 NE.
  pose proof (ref_registered _ _ _ _ HI H1) as R1. pose proof (ref_registered _ _ _ _ HI H2) as R2. split.
  - intros f g c Hf Hg. apply NE. exact (inv_disj _ _ HI _ _ _ _ _ _ _ R1 R2 Hf Hg).
  - intros f x st' HW g. apply fread_frame. intros c Hc.
    exact (fwrite_unchanged _ _ _ _ _ _ HI R1 HW _ _ _ _ R2 (not_eq_sym NE) Hc).
Qed.

(* C08: two references with the same identity ARE the same reference (same cells), so an update through one is
   what a read through the other returns *)
Theorem alias_shares : forall reg st a b o1 o2,
  inv reg st -> gpath (impl false) st a = Ok (VObj o1) -> gpath (impl false) st b = Ok (VObj o2) -> o_id o1 = o_id o2 ->
  o1 = o2 /\
  (forall f x st', m_fwrite false st (VObj o1) f x = Ok st' -> m_fread false st' (VObj o2) f = Ok x) /\
  (forall f, m_fread false st (VObj o1) f = m_fread false st (VObj o2) f).
Proof.
  intros reg st a b o1 o2 HI H1 H2 E. assert (o1 = o2) by (eapply same_id_same_ref; eauto). subst o2.
  split; [reflexivity|]. split; [|reflexivity]. intros f x st' HW. eapply field_holds_reference; eauto.
Qed.

Lemma bound_same : forall st dst v (st' : state) (os : list oval), Ok (m_set st dst v, @nil oval) = Ok (st', os) ->
  aget (env st') dst = Some v /\ cells st' = cells st /\ lists st' = lists st /\ os = [].
Proof. intros st dst v st' os H. injection H as <- <-. cbn [m_set env cells lists]. rewrite aget_same. auto. Qed.

(* C08: assignment of a name, argument passing, return values, `me` and list storage hand on the very reference,
   identity and cells *)
Theorem bind_same : forall ct st dst p st' os, step false ct st (Bind dst p false) = Ok (st', os) ->
  exists v, gpath (impl false) st p = Ok v /\ aget (env st') dst = Some v /\ cells st' = cells st /\ lists st' = lists st /\ os = [].
Proof.
  intros ct st dst p st' os H. unfold step, gstep in H. apply bind_ok in H as [v [E H]].
  exists v. split; [exact E | exact (bound_same _ _ _ _ _ H)].
Qed.

Theorem return_same : forall ct st dst p st' os, step false ct st (ReturnSame dst p) = Ok (st', os) ->
  exists v, gpath (impl false) st p = Ok v /\ aget (env st') dst = Some v /\ cells st' = cells st /\ lists st' = lists st /\ os = [].
Proof.
  intros ct st dst p st' os H. unfold step, gstep in H. apply bind_ok in H as [v [E H]]. apply bind_ok in H as [u [_ H]].
  exists v. split; [exact E | exact (bound_same _ _ _ _ _ H)].
Qed.

Theorem me_same : forall ct st d p st' os, step false ct st (Call (RBind d) p MMe []) = Ok (st', os) ->
  exists v, gpath (impl false) st p = Ok v /\ aget (env st') d = Some v /\ cells st' = cells st /\ lists st' = lists st /\ os = [].
Proof.
  intros ct st d p st' os H. unfold step, gstep in H. apply bind_ok in H as [v [E H]]. apply bind_ok in H as [u [_ H]].
  exists v. split; [exact E | exact (bound_same _ _ _ _ _ H)].
Qed.

Theorem pass_is_update : forall ct st p f d o, gpath (impl false) st p = Ok (VObj o) ->
  step false ct st (PassAndMutate p f d) = step false ct st (OpAssign p f Add d).
Proof. intros ct st p f d o H. unfold step, gstep. rewrite H. cbn [bind i_recv impl m_recv]. reflexivity. Qed.

Theorem list_holds_reference : forall ct st lp p st' os, step false ct st (ListPush lp (OPath p)) = Ok (st', os) ->
  exists lv xs v, gpath (impl false) st lp = Ok lv /\ gpath (impl false) st p = Ok v /\ m_lread st lv = Ok xs /\
    m_lread st' lv = Ok (xs ++ [v]) /\ nth_error (xs ++ [v]) (length xs) = Some v /\ cells st' = cells st.
Proof.
  intros ct st lp p st' os H. unfold step, gstep in H. cbn [geval i_lread i_lwrite impl] in H.
  apply bind_ok in H as [lv [El H]]. apply bind_ok in H as [v [Ev H]]. apply bind_ok in H as [xs [ER H]].
  apply bind_ok in H as [st1 [EW H]]. injection H as <- <-.
  destruct (lwrite_inv _ _ _ _ EW) as [l [-> ->]].
  exists (VList l), xs, v. repeat split; auto.
  - cbn [m_lread set_lists lists]. rewrite aget_same. reflexivity.
  - rewrite nth_error_app2, Nat.sub_diag; [reflexivity | lia].
Qed.

Definition receiver_only (m : meth) : bool :=
  match m with MBump _ | MPoke _ _ => false | _ => true end.

Lemma gnew_unchanged : forall ct reg keep st k args st' v, inv reg st ->
  gnew (impl false) ct st k args = Ok (st', v) -> unchanged_outside reg keep st st'.
Proof.
  intros ct reg keep st k args st' v HI H. destruct (gnew_fresh _ _ _ _ _ _ H) as [o [_ [_ [_ [_ Hold]]]]].
  intros i o' g c Hr _ Hc. apply Hold. destruct (inv_cell _ _ HI _ _ _ _ Hr Hc). assumption.
Qed.

(* C08: a read-only method leaves the WHOLE state as it was, the receiver too (what the seeded change C08-r3-2 broke:
   `-self.f` wrote f) *)
Theorem readonly_method_changes_nothing : forall ct st self k f st' r,
  gmeth (impl false) ct st self (MRo k f) [] = Ok (st', r) -> st' = st.
Proof.
  intros ct st self k f st' r H. unfold gmeth in H. cbn [i_fread i_scalar i_lit impl] in H.
  apply bind_ok in H as [v [_ H]]. destruct (m_scalar v) as [x|]; [|discriminate].
  apply bind_ok in H as [y [_ H]]. injection H as <- _. reflexivity.
Qed.

(* C08: whatever method of the family is run on a receiver, except the two that are WRITTEN to update another object
   (bump_f: its argument, poke_f_g: the object in field f), the cells of every other object are untouched *)
Theorem method_updates_receiver_only : forall ct reg st o m args st' r,
  inv reg st -> reg (o_id o) = Some o -> receiver_only m = true ->
  gmeth (impl false) ct st (VObj o) m args = Ok (st', r) -> unchanged_outside reg (o_id o) st st'.
Proof.
  intros ct reg st o m args st' r HI Hr HM H.
  destruct args as [|v [|d [|]]]; destruct m; try discriminate; unfold gmeth in H;
    cbn [i_fread i_fwrite i_lread i_lwrite i_cls impl m_cls] in H.
  - (* MGet *) apply bind_ok in H as [v [_ H]]. injection H as <- _. apply unchanged_same. reflexivity.
  - (* MMe *) injection H as <- _. apply unchanged_same. reflexivity.
  - (* MGetBare *) apply bind_ok in H as [v [_ H]]. injection H as <- _. apply unchanged_same. reflexivity.
  - (* MDup: only new cells *) apply bind_ok in H as [vs [_ H]]. cbn [bind] in H. apply bind_ok in H as [[s1 v1] [EN H]]. injection H as <- _.
    exact (gnew_unchanged _ _ _ _ _ _ _ _ HI EN).
  - (* MRo: reads only *) rewrite (readonly_method_changes_nothing ct _ (VObj o) k f _ _ H). apply unchanged_same. reflexivity.
  - (* MSet *) apply bind_ok in H as [s1 [EW H]]. injection H as <- _. exact (fwrite_unchanged _ _ _ _ _ _ HI Hr EW).
  - (* MInc *) apply bind_ok in H as [[s1 r1] [EU H]]. injection H as <- _. apply (gupd_unchanged _ _ _ _ _ _ _ _ HI Hr EU).
  - (* MTwice *) apply bind_ok in H as [[s1 r1] [EU H]]. apply bind_ok in H as [[s2 r2] [EU2 H]]. injection H as <- _.
    destruct (gupd_unchanged _ _ _ _ _ _ _ _ HI Hr EU) as [U1 HI1].
    exact (unchanged_trans _ _ _ _ _ U1 (proj1 (gupd_unchanged _ _ _ _ _ _ _ _ HI1 Hr EU2))).
  - (* MWith *) apply bind_ok in H as [s1 [EW H]]. injection H as <- _. exact (fwrite_unchanged _ _ _ _ _ _ HI Hr EW).
  - (* MSetBare *) apply bind_ok in H as [s1 [EW H]]. injection H as <- _. exact (fwrite_unchanged _ _ _ _ _ _ HI Hr EW).
  - (* MPush: only a list changes *) apply bind_ok in H as [l [_ H]]. apply bind_ok in H as [xs [_ H]].
    apply bind_ok in H as [s1 [EW H]]. injection H as <- _. destruct (lwrite_inv _ _ _ _ EW) as [l' [_ ->]].
    apply unchanged_same. reflexivity.
Qed.

Theorem bump_updates_argument_only : forall ct reg st o f other d st' r,
  inv reg st -> reg (o_id other) = Some other ->
  gmeth (impl false) ct st (VObj o) (MBump f) [VObj other; d] = Ok (st', r) -> unchanged_outside reg (o_id other) st st'.
Proof.
  intros ct reg st o f other d st' r HI Hr H. unfold gmeth in H.
  apply bind_ok in H as [[s1 r1] [EU H]]. injection H as <- _. apply (gupd_unchanged _ _ _ _ _ _ _ _ HI Hr EU).
Qed.

Lemma gupd_strip : forall st v f op d, gupd (impl false) st v f op d = gupd (impl false) st (strip v) f op d.
Proof. intros st v f op d. destruct v; reflexivity. Qed.

Theorem poke_updates_field_object_only : forall ct reg st o f g d st' r,
  inv reg st -> reg (o_id o) = Some o ->
  gmeth (impl false) ct st (VObj o) (MPoke f g) [d] = Ok (st', r) ->
  exists v inner, m_fread false st (VObj o) f = Ok v /\ strip v = VObj inner /\ unchanged_outside reg (o_id inner) st st'.
Proof.
  intros ct reg st o f g d st' r HI Hr H. unfold gmeth in H. cbn [i_fread impl] in H.
  apply bind_ok in H as [v [ER H]]. rewrite gupd_strip in H. apply bind_ok in H as [[s1 r1] [EU H]]. injection H as <- _.
  pose proof (fread_vok _ _ _ _ _ HI ER) as HV.
  destruct v as [| | | |inner| |inner]; try discriminate EU; eexists; exists inner;
    (split; [exact ER|]; split; [reflexivity|]; apply (gupd_unchanged _ _ _ _ _ _ _ _ HI HV EU)).
Qed.

Theorem getter_reads_receiver : forall ct st o f, gmeth (impl false) ct st (VObj o) (MGet f) [] =
  match m_fread false st (VObj o) f with Ok v => Ok (st, Some v) | Fail e => Fail e end.
Proof. intros. unfold gmeth. cbn [i_fread impl]. destruct (m_fread false st (VObj o) f); reflexivity. Qed.

Theorem twice_calls_inc : forall ct st self f d, gmeth (impl false) ct st self (MTwice f) [d] =
  do r1 <- gmeth (impl false) ct st self (MInc f) [d]; gmeth (impl false) ct (fst r1) self (MInc f) [d].
Proof.
  intros. unfold gmeth. destruct (gupd (impl false) st self f Add d) as [[s1 r1]|]; cbn [bind fst snd]; [|reflexivity].
  destruct (gupd (impl false) s1 self f Add d) as [[s2 r2]|]; reflexivity.
Qed.

(* C08: `a is b` prints true exactly when the two references have the same identity, and (in every reachable state)
   that is exactly when they are the same reference, i.e. denote the same cells *)
Theorem is_iff_same_object : forall ct reg st a b o1 o2,
  inv reg st -> gpath (impl false) st a = Ok (VObj o1) -> gpath (impl false) st b = Ok (VObj o2) ->
  step false ct st (IsTest a b) = Ok (st, [OBool (o_id o1 =? o_id o2)]) /\
  ((o_id o1 =? o_id o2) = true <-> o1 = o2).
Proof.
  intros ct reg st a b o1 o2 HI H1 H2. split.
  - unfold step, gstep. rewrite H1, H2. reflexivity.
  - split.
    + intros E. apply N.eqb_eq in E. eapply same_id_same_ref; eauto.
    + intros ->. apply N.eqb_refl.
Qed.

Theorem spec_is_identity : forall ct ss a b i j, gpath spec ss a = Ok (SObj i) -> gpath spec ss b = Ok (SObj j) ->
  sstep ct ss (IsTest a b) = Ok (ss, [OBool (i =? j)]).
Proof. intros ct ss a b i j H1 H2. unfold sstep, gstep. rewrite H1, H2. reflexivity. Qed.

Lemma fwrite_fread_other : forall st o f0 x st' f, m_fwrite false st (VObj o) f0 x = Ok st' -> f <> f0 ->
  (forall f g c, aget (o_map o) f = Some c -> aget (o_map o) g = Some c -> f = g) ->
  m_fread false st' (VObj o) f = m_fread false st (VObj o) f.
Proof.
  intros st o f0 x st' f H NE HOWN. destruct (fwrite_inv _ _ _ _ _ H) as [c0 [Hc0 ->]].
  apply fread_frame. intros c Hc. cbn [set_cells cells]. rewrite aget_cons.
  destruct (N.eqb_spec c0 c) as [<-|NEc]; [|reflexivity]. exfalso. apply NE. exact (HOWN _ _ _ Hc Hc0).
Qed.

Lemma gctor_stores : forall body args st o st' f,
  gctor (impl false) body args st (VObj o) = Ok st' ->
  (forall f g c, aget (o_map o) f = Some c -> aget (o_map o) g = Some c -> f = g) ->
  NoDup (map fst body) ->
  (~ In f (map fst body) -> m_fread false st' (VObj o) f = m_fread false st (VObj o) f) /\
  (forall j v, In (f, IParam j) body -> nth_error args j = Some v -> m_fread false st' (VObj o) f = Ok v) /\
  (forall l, In (f, IConst l) body -> m_fread false st' (VObj o) f = Ok (m_lit l)).
Proof.
  induction body as [|[f0 i0] body IH]; intros args st o st' f H HOWN HND.
  - injection H as <-. split; [reflexivity|]. split; intros; contradiction.
  - destruct (gctor_cons_inv _ _ _ _ _ _ _ H) as [s1 [v1 [s2 [E1 [Hv1 [E2 H']]]]]].
    cbn [map fst] in HND. inversion HND as [|? ? HNI HND']; subst.
    destruct (IH _ _ _ _ f H' HOWN HND') as [IH1 [IH2 IH3]].
    (* a later assignment of the body does not store into f0 *)
    pose proof (field_holds_reference _ _ _ _ _ E2) as Hf0. rewrite <- (proj1 (IH _ _ _ _ f0 H' HOWN HND') HNI) in Hf0.
    split; [|split].
    + intros HN. cbn [map fst In] in HN. rewrite IH1 by tauto.
      rewrite (fwrite_fread_other _ _ _ _ _ f E2); [|intros ->; tauto | exact HOWN].
      apply fread_frame. intros c _. rewrite E1. reflexivity.
    + intros j v [HIn|HIn] HNth; [|eauto]. injection HIn as <- ->. rewrite Hf0. congruence.
    + intros l [HIn|HIn]; [|eauto]. injection HIn as <- ->. rewrite Hf0, Hv1. reflexivity.
Qed.

(* C08, after `C(args)`: a field the constructor assigned an argument holds that argument (for an object argument: the
   very reference), a field it assigned a literal holds the literal, a declared field it did not assign holds nil *)
Theorem constructor_stores : forall ct st k args st' o cd f,
  gnew (impl false) ct st k args = Ok (st', VObj o) ->
  nth_error ct (N.to_nat k) = Some cd -> NoDup (map fst (c_body cd)) ->
  (forall j v, In (f, IParam j) (c_body cd) -> nth_error args j = Some v -> m_fread false st' (VObj o) f = Ok v) /\
  (forall l, In (f, IConst l) (c_body cd) -> m_fread false st' (VObj o) f = Ok (m_lit l)) /\
  (existsb (N.eqb f) (c_fields cd) = true -> ~ In f (map fst (c_body cd)) -> m_fread false st' (VObj o) f = Ok VNil).
Proof.
  intros ct st k args st' o cd f H HCD HND.
  destruct (gnew_inv _ _ _ _ _ _ H) as [cd' [s1 [o1 [HCD' [Ho [-> [Hcells EC]]]]]]].
  rewrite HCD in HCD'. injection HCD' as <-. injection Ho as ->. cbn [o_map] in Hcells.
  destruct (gctor_stores _ _ _ _ _ f EC (alloc_inj _ _) HND) as [G1 [G2 G3]].
  split; [exact G2|]. split; [exact G3|].
  intros HEX HN. rewrite (G1 HN). unfold m_fread, field_cell. cbn [o_map].
  destruct (aget (alloc_fields (c_fields cd) (ncell st)) f) as [c|] eqn:Ec.
  - cbn [bind]. rewrite Hcells, alloc_cells_in by apply (alloc_range _ _ _ _ Ec). reflexivity.
  - apply alloc_none in Ec. congruence.
Qed.

(* non-vacuity: with a class body that does NOT take fresh cells (every construction of a class gets the cells
   0, 1, ..) the refinement fails *)
Definition m_new_shared (st : state) (k : cid) (fs : list fld) : res (state * val) :=
  if negb (nodupb fs) then Fail Stuck
  else
    let mp := alloc_fields fs 0 in
    let o := {| o_cls := k; o_map := mp; o_id := nid st |} in
    Ok ({| cells := map (fun p => (snd p, VNil)) mp ++ cells st;
           ncell := ncell st; lists := lists st; nlist := nlist st; nid := nid st + 1; env := env st |}, VObj o).

Definition impl_shared : iface state val :=
  {| i_get := m_get; i_set := m_set; i_lit := m_lit; i_scalar := m_scalar; i_recv := m_recv false; i_cls := m_cls false;
     i_fread := m_fread false; i_fwrite := m_fwrite false; i_new := m_new_shared; i_is := m_is false;
     i_unwrap := m_unwrap; i_wrap := m_wrap; i_lnew := m_lnew; i_lread := m_lread; i_lwrite := m_lwrite |}.

Lemma shared_cells_refuted : exists ct h, grun_from impl_shared ct st0 h <> spec_run ct h.
Proof.
  exists [{| c_fields := [0]; c_arity := 1%nat; c_body := [(0, IParam 0)] |}].
  exists [New 0 0 [OLit (LInt 1)]; New 1 0 [OLit (LInt 2)]; Print (PDot (PVar 0) 0)].
  vm_compute. discriminate.
Qed.

(* repaired behaviour: a reference that went through a map (a present optional) is the object it holds, for
   `is` and for field access *)
Theorem wrapped_is_content : forall o1 o2,
  m_is false (VSome o1) (VObj o2) = Ok (o_id o1 =? o_id o2) /\
  m_is false (VObj o1) (VSome o2) = Ok (o_id o1 =? o_id o2) /\
  m_is false (VSome o1) (VSome o2) = Ok (o_id o1 =? o_id o2).
Proof. intros. repeat split. Qed.

Theorem wrapped_field_access : forall st o f x,
  m_fread false st (VSome o) f = m_fread false st (VObj o) f /\
  m_fwrite false st (VSome o) f x = m_fwrite false st (VObj o) f x.
Proof. intros. split; reflexivity. Qed.

Definition ct1 : ctab := [{| c_fields := [0]; c_arity := 1%nat; c_body := [(0, IParam 0)] |}].

(* the model of the tree before fixes/c08-*.diff (legacy = true) refutes the property *)
Lemma wrapped_is_legacy_refuted : exists h, run true ct1 h <> spec_run ct1 h.
Proof.
  exists [New 0 0 [OLit (LInt 1)]; ThroughMap 1 (PVar 0); IsTest (PVar 1) (PVar 0)].
  vm_compute. discriminate.
Qed.

Lemma wrapped_lookup_legacy_refuted : exists h, run true ct1 h <> spec_run ct1 h.
Proof.
  exists [New 0 0 [OLit (LInt 1)]; ThroughMap 1 (PVar 0); Print (PDot (PVar 1) 0)].
  vm_compute. discriminate.
Qed.

Lemma wrapped_legacy_witness :
  run true ct1 [New 0 0 [OLit (LInt 1)]; ThroughMap 1 (PVar 0); IsTest (PVar 1) (PVar 0); Print (PDot (PVar 1) 0)]
    = ([OBool false], Some Err) /\
  run false ct1 [New 0 0 [OLit (LInt 1)]; ThroughMap 1 (PVar 0); IsTest (PVar 1) (PVar 0); Print (PDot (PVar 1) 0)]
    = ([OBool true; OInt 1], None) /\
  spec_run ct1 [New 0 0 [OLit (LInt 1)]; ThroughMap 1 (PVar 0); IsTest (PVar 1) (PVar 0); Print (PDot (PVar 1) 0)]
    = ([OBool true; OInt 1], None).
Proof. vm_compute. repeat split. Qed.
